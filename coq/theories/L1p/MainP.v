(* L1p: reachable states of the panic model: ownership, Panicked is absorbing *)
From stdpp Require Import list numbers option.
From RecordUpdate Require Import RecordUpdate.
From L1 Require Import Model Own Shape Stuck Live Wait Help Final.
From L1p Require Import Model StepP DeadP OwnP Absorb.

Lemma reap_queues PF ds s : (reap PF s ds).1.(queues) = s.(queues).
Proof. by destruct (reap_frame PF ds s) as (A & Th & ->). Qed.
Section MainP.
  Context (T : tables) (F : facts) (PF : pfacts) (HT : own_conditions T) (HP : ptab T).

  Lemma pstep_keeps_panicked ps a ps' q : OInv ps -> pstep T F PF ps a = Some ps' -> panicked ps.(pb) q -> panicked ps'.(pb) q.
  Proof.
    intros (HI & HL & Hnd) Hs Hq. destruct (pstep_inv T F PF ps a ps' Hs) as [_ [ac _ _ _ Hst _|ac r _ _ Hst _|ac q0 o rest dies _ _ _ -> _]].
    - by eapply (step_keeps_panicked T F HP).
    - eapply (step_keeps_panicked T F HP _ a _ q (reap_inv PF _ _ HI Hnd HL) Hst). apply (panicked_view _ (pb ps)); [apply reap_queues|done].
    - apply (panicked_view _ (updq (drop_job (pb ps) (top_job ac)) q0 panicked_queue)); [done|].
      apply panicked_updq; [by apply (panicked_view _ (pb ps)); [apply drop_job_queues|]|done].
  Qed.

  Lemma prun_inv tr : forall ps ps', OInv ps -> prun T F PF ps tr = Some ps' -> OInv ps'.
  Proof. apply prun_ind. intros ps a ps'. apply (oinv_step T F PF HT). Qed.
  Lemma prun_panicked tr ps ps' q : OInv ps -> prun T F PF ps tr = Some ps' -> panicked ps.(pb) q -> panicked ps'.(pb) q.
  Proof.
    intros H0 Hr Hq. refine (proj2 (prun_ind T F PF (fun x => OInv x /\ panicked x.(pb) q) _ tr ps ps' (conj H0 Hq) Hr)).
    intros x a x' [H1 H2] Hs. split; [by eapply (oinv_step T F PF HT)|by eapply pstep_keeps_panicked].
  Qed.

  Lemma pinit_inv nq mx scripts : OInv (pinit nq mx scripts).
  Proof. split; [apply init_inv|]. split; [intros a Ha; by apply elem_of_nil in Ha|constructor]. Qed.

  Theorem preach_inv nq mx scripts tr ps : prun T F PF (pinit nq mx scripts) tr = Some ps -> Inv ps.(pb).
  Proof. intros Hr. by destruct (prun_inv tr _ _ (pinit_inv nq mx scripts) Hr) as (H & _). Qed.

  Theorem dead_are_pool_threads nq mx scripts tr ps : prun T F PF (pinit nq mx scripts) tr = Some ps -> dead_lock ps.
  Proof. intros Hr. by destruct (prun_inv tr _ _ (pinit_inv nq mx scripts) Hr) as (_ & H & _). Qed.

  Theorem panicked_absorbing nq mx scripts tr1 tr2 ps1 ps2 q :
    prun T F PF (pinit nq mx scripts) tr1 = Some ps1 -> prun T F PF ps1 tr2 = Some ps2 -> panicked ps1.(pb) q -> panicked ps2.(pb) q.
  Proof. intros H1 H2. apply (prun_panicked tr2 ps1 ps2 q); [|done]. by eapply prun_inv; [apply pinit_inv|]. Qed.

  (* nobody runs a Panicked queue: no actor holds a runner frame of it (so none of its jobs is dequeued or run any more) *)
  Theorem panicked_no_runner nq mx scripts tr ps q a n :
    prun T F PF (pinit nq mx scripts) tr = Some ps -> panicked ps.(pb) q -> stack_cnt ps.(pb) a q <> Some (S n).
  Proof.
    intros Hr (qq & Hq & Hp) Hc. destruct (runner_owns _ a q qq n (preach_inv _ _ _ _ _ Hr) Hc Hq) as [_ Hrun]. congruence.
  Qed.

  Theorem exclusive_p nq mx scripts tr ps a b q na nb qq :
    prun T F PF (pinit nq mx scripts) tr = Some ps -> ps.(pb).(queues) !! q = Some qq ->
    stack_cnt ps.(pb) a q = Some (S na) -> stack_cnt ps.(pb) b q = Some (S nb) -> a = b.
  Proof.
    intros Hr Hq Ha Hb. pose proof (preach_inv _ _ _ _ _ Hr) as HI.
    destruct (runner_owns _ a q qq na HI Ha Hq) as [Hoa _]. destruct (runner_owns _ b q qq nb HI Hb Hq) as [Hob _]. congruence.
  Qed.
End MainP.
