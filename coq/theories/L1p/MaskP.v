(* Masking: the queues in a set P (the Panicked ones) are replaced by idle, empty queues.  A step of the L1 model that does not read or
   write a queue of P is the same step on the masked state: this is how L1's liveness invariants are imported for runs with panics. *)
From stdpp Require Import list numbers list_numbers option.
From RecordUpdate Require Import RecordUpdate.
From L1 Require Import Model Own Shape Stuck Live Wait Help Final Pool.

Definition mq (qq : queue) : queue := {| qs := Idle; jobs := []; wake_blocked := []; owner := None |}.
Definition mqs (P : nat -> bool) (l : list queue) : list queue := imap (fun i qq => if P i then mq qq else qq) l.
Definition maskP (P : nat -> bool) (s : state) : state := s <| queues := mqs P s.(queues) |>.

(* the queue a frame reads or writes *)
Definition touched (fr : frame) : option nat :=
  match fr with
  | FD1 q | FS1 q | FSIidle q | FSDpush q | FSDidle q | FSBreg q | FSBpush q | FSBclaim q | FSBstealidle q | FSBdone q
  | FROdeq q | FTS1 q | FRQ1 q | FDRdeq q | FDRfin q => Some q
  | _ => None
  end.

Lemma mqs_lookup P l q : mqs P l !! q = (fun qq => if P q then mq qq else qq) <$> l !! q.
Proof. unfold mqs. by rewrite list_lookup_imap. Qed.
Lemma mask_lookup_out P s q : P q = false -> (maskP P s).(queues) !! q = s.(queues) !! q.
Proof. intros H. cbn. rewrite mqs_lookup, H. by destruct (queues s !! q). Qed.
Lemma mqs_alter P l q f : P q = false -> mqs P (alter f q l) = alter f q (mqs P l).
Proof.
  intros H. apply list_eq. intros i. rewrite mqs_lookup. destruct (decide (i = q)) as [->|Hne].
  - rewrite !list_lookup_alter, mqs_lookup, H. by destruct (l !! q).
  - rewrite !list_lookup_alter_ne by done. by rewrite mqs_lookup.
Qed.
Lemma mqs_alter_in P l q f : P q = true -> mqs P (alter f q l) = mqs P l.
Proof.
  intros H. apply list_eq. intros i. rewrite !mqs_lookup. destruct (decide (i = q)) as [->|Hne].
  - rewrite list_lookup_alter, H. by destruct (l !! q).
  - by rewrite list_lookup_alter_ne.
Qed.
Lemma mask_updq P s q f : P q = false -> maskP P (updq s q f) = updq (maskP P s) q f.
Proof. intros H. unfold maskP, updq. cbn -[mqs]. by rewrite mqs_alter. Qed.
Lemma mask_upda P s a f : maskP P (upda s a f) = upda (maskP P s) a f.
Proof. done. Qed.
Lemma mask_setstack P s a st : maskP P (setstack s a st) = setstack (maskP P s) a st.
Proof. done. Qed.
Lemma mask_updt P s t f : maskP P (updt s t f) = updt (maskP P s) t f.
Proof. done. Qed.
Lemma mask_notify P F s w : maskP P (notify F s w) = notify F (maskP P s) w.
Proof.
  unfold notify.
  assert (E : (if f_sticky_notify F then upda (maskP P s) w (fun x => x <| kicked := true |>) else maskP P s) =
              maskP P (if f_sticky_notify F then upda s w (fun x => x <| kicked := true |>) else s)) by (by destruct (f_sticky_notify F)).
  rewrite E. set (s1 := if f_sticky_notify F then _ else s). change (actors (maskP P s1)) with (actors s1).
  destruct (actors s1 !! w) as [aw|]; [|done]. by destruct (stack aw) as [|[] ?].
Qed.
Lemma mask_foldl_notify P F ws : forall s, maskP P (foldl (notify F) s ws) = foldl (notify F) (maskP P s) ws.
Proof. induction ws as [|w ws IH]; intros s; cbn; [done|]. by rewrite IH, mask_notify. Qed.
Lemma mask_run_job P F s j : maskP P (run_job F s j) = run_job F (maskP P s) j.
Proof.
  destruct j as [o|o c|o c]; cbn [run_job]; try done.
  set (s1 := upda (s <| ran := _ |>) c _).
  change (upda (maskP P s <| ran := o :: ran (maskP P s) |>) c (fun x => x <| result := true |> <| ready := true |>)) with (maskP P s1).
  change (actors (maskP P s1)) with (actors s1).
  destruct (actors s1 !! c) as [ac|]; [|done]. by destruct (stack ac) as [|[] ?].
Qed.

Lemma Shape_mask P s : Shape s -> Shape (maskP P s).
Proof. intros [A B C D E G H]. split; [exact A|exact B|exact C|exact D|exact E|exact G|exact H]. Qed.

Section Sim.
  Context (T : tables) (F : facts) (P : nat -> bool).

  (* each path of the step is taken on the masked state as well: its tests read no masked queue, or read the same *)
  Lemma eff_mask s a ac fr m new : eff T F s a ac fr m new ->
    (forall q, touched fr = Some q -> P q = false) ->
    (forall q qq, P q = true -> s.(queues) !! q = Some qq -> T.(t_next) qq.(qs) = None) -> T.(t_next) Idle = None ->
    eff T F (maskP P s) a ac fr (maskP P m) new.
  Proof.
    intros He Hto Hnx Hni. unfold eff in *. destruct He; cbn [touched] in Hto.
    all: try (assert (Hq : P q = false) by (by apply Hto); try rewrite <- (mask_lookup_out P s q Hq) in Eq).
    all: rewrite ?mask_upda, ?mask_updt, ?mask_run_job, ?mask_updq, ?mask_foldl_notify by done.
    all: try by econstructor.
    - exact (E_op T F _ _ (maskP P s) a ac o os).
    - (* the schedule scan: the head of the schedule may be masked *)
      refine (E_exam_gone T F _ _ (maskP P s) a ac t q sc Hmine Hsched _). cbn. by rewrite mqs_lookup, Eq.
    - destruct (P q) eqn:HP; [by rewrite (Hnx q qq HP Eq) in Etab|].
      rewrite mask_updq by done. refine (E_exam_take T F _ _ (maskP P s) a ac t q sc qq st' Hmine Hsched _ Etab). by rewrite mask_lookup_out.
    - destruct (P q) eqn:HP.
      + refine (E_exam_skip T F _ _ (maskP P s) a ac t q sc (mq qq) Hmine Hsched _ Hni). cbn. by rewrite mqs_lookup, Eq, HP.
      + refine (E_exam_skip T F _ _ (maskP P s) a ac t q sc qq Hmine Hsched _ Etab). by rewrite mask_lookup_out.
  Qed.

  Lemma step_mask s a s' ac fr rest : s.(actors) !! a = Some ac -> ac.(stack) = fr :: rest ->
    (forall q, touched fr = Some q -> P q = false) ->
    (forall q qq, P q = true -> s.(queues) !! q = Some qq -> T.(t_next) qq.(qs) = None) -> T.(t_next) Idle = None ->
    step T F s a = Some s' -> step T F (maskP P s) a = Some (maskP P s').
  Proof.
    intros Ea Est Hto Hnx Hni (ac0 & fr0 & rest0 & m & new & Ea0 & Est0 & He & ->)%step_eff.
    rewrite Ea in Ea0. injection Ea0 as <-. rewrite Est in Est0. injection Est0 as <- <-.
    exact (eff_step T F (maskP P s) a ac fr rest (maskP P m) new (eff_mask s a ac fr m new He Hto Hnx Hni) Ea Est).
  Qed.
End Sim.
