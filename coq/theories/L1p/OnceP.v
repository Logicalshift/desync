(* L1p: exactly-once with panics, and the closures that never run: corollaries of the id-placement invariant *)
From stdpp Require Import list numbers option.
From RecordUpdate Require Import RecordUpdate.
From L1 Require Import Model Own Shape Stuck.
From L1h Require Import WeakWF Hist Abs SimBase Sim HistFacts AInv Reach.
From L1p Require Import Model StepP OwnP Absorb MainP Loud DeadP RanP ShapeP IdAbs IdInv.

Lemma sumq_nil f n : (forall q, f q = []) -> sumq f n = [].
Proof. intros H. induction n as [|n IH]; [done|]. by rewrite sumq_S, IH, H. Qed.

Lemma ran_in_Mids s i : i ∈ s.(ran) -> i ∈ Mids s.
Proof. intros H. unfold Mids, Mv. apply elem_of_app. by left. Qed.

Section Once.
  Context (T : tables) (F : facts) (PF : pfacts) (HT : own_conditions T) (HI : imm_conditions T).

  Lemma finit nq mx scripts : FInv (pinit nq mx scripts).
  Proof.
    split.
    - apply pinit_sinv.
    - assert (E : Mids (pb (pinit nq mx scripts)) = []).
      { unfold Mids, Mv. cbn [pinit pb view v_ran v_acts]. rewrite sumq_nil by (intros q; unfold pids; cbn; by rewrite pend_init).
        rewrite omap_none; [done|]. intros x Hx. apply elem_of_list_lookup in Hx as [a Ha]. unfold pre_id. by rewrite (acts_init _ _ _ a x Ha). }
      split; rewrite E; constructor.
  Qed.

  Lemma prun_finv tr : forall ps ps', FInv ps -> prun T F PF ps tr = Some ps' -> FInv ps'.
  Proof. apply prun_ind. intros ps a ps'. apply (finv_step T F PF HT HI). Qed.
  Theorem preach_finv nq mx scripts tr ps : prun T F PF (pinit nq mx scripts) tr = Some ps -> FInv ps.
  Proof. apply prun_finv, finit. Qed.

  (* exactly once: no closure is recorded twice, and everything recorded was issued *)
  Theorem exactly_once_p nq mx scripts tr ps : prun T F PF (pinit nq mx scripts) tr = Some ps ->
    NoDup ps.(pb).(ran) /\ forall i, i ∈ ps.(pb).(ran) -> i < ps.(pb).(nextop).
  Proof.
    intros Hr. destruct (preach_finv _ _ _ _ _ Hr) as [_ [Hnd Hlt]]. split.
    - unfold Mids, Mv in Hnd. by apply NoDup_app in Hnd as (H & _).
    - intros i Hi. rewrite list.Forall_forall in Hlt. by apply Hlt, ran_in_Mids.
  Qed.

  (* an id that was issued and is nowhere stays nowhere: it never enters ran *)
  Lemma absent_step ps a ps' i : FInv ps -> pstep T F PF ps a = Some ps' -> i < ps.(pb).(nextop) -> i ∉ Mids ps.(pb) ->
    i < ps'.(pb).(nextop) /\ i ∉ Mids ps'.(pb).
  Proof.
    intros HF Hs Hlt Hni. destruct (pstep_ids T F PF HT HI ps a ps' (fi_s _ HF) Hs) as (fresh & lost & Hp & Hf). split.
    - destruct Hf as [(_ & ->)|(_ & ->)]; lia.
    - intros Hin. assert (Hin2 : i ∈ fresh ++ Mids (pb ps)) by (rewrite Hp; apply elem_of_app; by left).
      apply elem_of_app in Hin2 as [Hin2|Hin2]; [|done]. destruct Hf as [(-> & _)|(-> & _)]; [by apply elem_of_nil in Hin2|].
      apply elem_of_list_singleton in Hin2. lia.
  Qed.
  Lemma absent_run tr ps ps' i : FInv ps -> prun T F PF ps tr = Some ps' -> i < ps.(pb).(nextop) -> i ∉ Mids ps.(pb) -> i ∉ ps'.(pb).(ran).
  Proof.
    intros HF Hr Hlt Hni Hin.
    apply (prun_ind T F PF (fun x => FInv x /\ i < x.(pb).(nextop) /\ i ∉ Mids x.(pb))) with (ps' := ps') in Hr as (_ & _ & Hn'); [by apply Hn', ran_in_Mids| |done].
    intros x a x' (H1 & H2 & H3) Hs. split; [by eapply (finv_step T F PF HT HI)|by eapply absent_step].
  Qed.

  (* the closure whose runner panics is never run: not by this step, not later *)
  Theorem panicked_closure_never_runs nq mx scripts tr0 ps0 a ac q o rest dies ps1 tr ps :
    prun T F PF (pinit nq mx scripts) tr0 = Some ps0 ->
    ps0.(pb).(actors) !! a = Some ac -> a ∉ ps0.(dead) -> pclos ac = Some (q, o, rest, dies) -> default false (ps0.(pan) !! o) = true ->
    pstep T F PF ps0 a = Some ps1 -> prun T F PF ps1 tr = Some ps -> o ∉ ps.(pb).(ran).
  Proof.
    intros Hr0 Ea Hd Hp Hpan Hs Hr. pose proof (preach_finv _ _ _ _ _ Hr0) as HF0.
    pose proof (finv_step T F PF HT HI ps0 a ps1 HF0 Hs) as HF1.
    destruct HF0 as [[HP HD HS HW] [Hnd Hlt]]. pose proof HP as (HIv & _ & _).
    destruct (panic_ids (pb ps0) a ac q o rest dies HS HIv HW Ea Hp) as (G1 & G2 & _).
    destruct (pstep_inv_panic T F PF ps0 a ps1 ac q o rest dies Ea Hp Hpan Hs) as [E1 _].
    eapply (absent_run tr ps1 ps o HF1 Hr).
    - rewrite E1, G2. rewrite list.Forall_forall in Hlt. apply Hlt. rewrite G1. by left.
    - rewrite E1. rewrite G1 in Hnd. by apply list.NoDup_cons in Hnd as [H _].
  Qed.

  (* sync / try_sync started on a Panicked queue: the call returns at once and its closure is never run *)
  Theorem sync_on_panicked_never_runs (HL : ploud T) nq mx scripts tr0 ps0 c ac q rest qq ps1 tr ps :
    prun T F PF (pinit nq mx scripts) tr0 = Some ps0 ->
    ps0.(pb).(actors) !! c = Some ac -> c ∉ ps0.(dead) -> (ac.(stack) = FS1 q :: rest \/ ac.(stack) = FTS1 q :: rest) ->
    ps0.(pb).(queues) !! q = Some qq -> qq.(qs) = Panicked ->
    pstep T F PF ps0 c = Some ps1 -> prun T F PF ps1 tr = Some ps -> ac.(opctr) ∉ ps.(pb).(ran).
  Proof.
    intros Hr0 Ea Hd Hst Eq Hp Hs Hr. pose proof (preach_finv _ _ _ _ _ Hr0) as HF0.
    pose proof (finv_step T F PF HT HI ps0 c ps1 HF0 Hs) as HF1.
    destruct HF0 as [[HP HD HS HW] [Hnd Hlt]]. pose proof HP as (HIv & _ & _).
    assert (Hstep : step T F (pb ps0) c = Some (pb ps1)).
    { apply (pstep_inv_l1 T F PF ps0 c ps1 ac Ea); [unfold pclos| |done]; destruct Hst as [E|E]; by rewrite E. }
    assert (Hobs : obs' T (pb ps0) c (pb ps1) = [RetPanic (opctr ac)]).
    { unfold obs'. rewrite Ea. destruct Hst as [E|E]; rewrite E, Eq, Hp; [by rewrite (pl_sync T HL)|by rewrite (pl_try T HL)]. }
    destruct (step_ids T F HT HI (pb ps0) c (pb ps1) HS HIv HW Hstep) as (fresh & lost & G1 & G2 & G3).
    destruct (G3 (opctr ac)) as [-> ->]; [by left|]. rewrite app_nil_l in G1.
    eapply (absent_run tr ps1 ps (opctr ac) HF1 Hr).
    - destruct G2 as [(_ & ->)|([=] & _)]. rewrite list.Forall_forall in Hlt. apply Hlt. rewrite G1. apply elem_of_app. right. by left.
    - rewrite G1 in Hnd. apply NoDup_app in Hnd as (_ & Hdis & _). intros Hin. apply (Hdis _ Hin). by left.
  Qed.
End Once.

(* desync started on a Panicked queue: its job is stored and stays stored; it is never run *)
Lemma obs_run_owner T s a s' ac i q : Shape s -> s.(actors) !! a = Some ac -> Run i q ∈ obs' T s a s' -> exists n, cnt q ac.(stack) = S n.
Proof.
  intros HS Ea Hin. pose proof (kind_of s a ac HS Ea) as Hkind. unfold obs' in Hin. rewrite Ea in Hin.
  destruct (stack ac) as [|fr rest] eqn:Est; [by apply elem_of_nil in Hin|].
  destruct fr.
  all: try (exfalso; repeat (match type of Hin with context [match ?x with _ => _ end] => destruct x end);
            repeat (apply elem_of_cons in Hin as [Hin|Hin]; [discriminate|]); by apply elem_of_nil in Hin).
  - apply elem_of_list_singleton in Hin. injection Hin as _ <-. exists (cnt q rest). cbn. by rewrite bool_decide_eq_true_2.
  - apply elem_of_list_singleton in Hin. injection Hin as _ <-.
    destruct Hkind as [[_ Hok]|(t & _ & Hok)]; [|by destruct rest as [|? [|]]].
    apply caller_ok_inv in Hok as [(-> & Hf)|[(os & -> & Hsf)|(g & os & -> & Hpo)]]; try done.
    cbn in Hpo. destruct g; try done; apply bool_decide_eq_true in Hpo as <-; eexists; cbn; by rewrite bool_decide_eq_true_2.
  - apply elem_of_list_singleton in Hin. injection Hin as _ <-. exists (cnt q rest). cbn. by rewrite bool_decide_eq_true_2.
Qed.
Lemma jobs_in_pend s q qq j : s.(queues) !! q = Some qq -> j ∈ qq.(jobs) -> j ∈ pend s q.
Proof.
  intros Eq Hj. unfold pend. rewrite (oj_lookup s q qq Eq). destruct (owner qq); [apply elem_of_app; by right|done].
Qed.

Section Stored.
  Context (T : tables) (F : facts) (PF : pfacts) (HT : own_conditions T) (HI : imm_conditions T) (HP : ptab T).

  Lemma stored_stays ps a ps' q i : FInv ps -> panicked ps.(pb) q -> pstep T F PF ps a = Some ps' ->
    i ∈ pids (view ps.(pb)) q -> i ∈ pids (view ps'.(pb)) q.
  Proof.
    intros [HSI HId] Hpq Hs Hj. destruct HSI as [HPI HD HS HW]. pose proof HPI as (HIv & Hd & Hnd).
    assert (Hl1 : forall Y s', Shape Y -> Inv Y -> WF' Y -> panicked Y q -> i ∈ pids (view Y) q -> step T F Y a = Some s' -> i ∈ pids (view s') q).
    { intros Y s' H1 H2 H3 (qq & Eq & Hp) H4 H5. pose proof (step_sim T F HT HI Y a s' H1 H2 H3 H5) as Hsim.
      apply (astep_pids_keep _ _ _ _ q Hsim); [|done]. intros i0 Hin.
      assert (Hex : exists ac, actors Y !! a = Some ac) by (unfold step in H5; destruct (actors Y !! a); [by eexists|done]). destruct Hex as [ac Ea].
      destruct (obs_run_owner T Y a s' ac i0 q H1 Ea Hin) as [n Hc].
      destruct (runner_owns Y a q qq n H2) as [_ Hr]; [by rewrite (stack_cnt_self Y a ac q Ea), Hc|done|congruence]. }
    destruct (pstep_inv T F PF ps a ps' Hs) as [_ [ac _ _ _ Hs1 _|ac r _ _ Hs1 _|ac q0 o rest dies Ea Hp _ -> _]].
    - by eapply (Hl1 (pb ps)).
    - pose proof (reap_inv PF (dead ps) (pb ps) HIv Hnd HD) as G1.
      destruct (reap_shape PF (dead ps) (pb ps) HS HW Hnd HD) as [G2 G3].
      destruct (reap_ids PF (dead ps) (pb ps) Hnd HD) as (_ & _ & G6).
      eapply (Hl1 _ _ G2 G1 G3); [|unfold pids; cbn; by rewrite G6|done]. apply (panicked_view _ (pb ps)); [apply reap_queues|done].
    - destruct (panic_ids (pb ps) a ac q0 o rest dies HS HIv HW Ea Hp) as (_ & _ & _ & G4 & qq0 & Eq0 & Hrun).
      unfold pids; cbn. rewrite G4; [done|]. intros ->. destruct Hpq as (qq & Eq & Hpn). congruence.
  Qed.
End Stored.

Section Desync.
  Context (T : tables) (F : facts) (PF : pfacts) (HT : own_conditions T) (HI : imm_conditions T) (HP : ptab T) (HL : ploud T).

  Lemma stored_run tr ps ps' q i : FInv ps -> panicked ps.(pb) q -> i ∈ pids (view ps.(pb)) q -> prun T F PF ps tr = Some ps' ->
    FInv ps' /\ panicked ps'.(pb) q /\ i ∈ pids (view ps'.(pb)) q.
  Proof.
    intros HF Hq Hj. apply (prun_ind T F PF (fun x => FInv x /\ panicked x.(pb) q /\ i ∈ pids (view x.(pb)) q)); [|done].
    intros x a x' (H1 & H2 & H3) Hs. split; [by eapply (finv_step T F PF HT HI)|]. split; [|by eapply (stored_stays T F PF HT HI)].
    eapply (pstep_keeps_panicked T F PF HP x a x' q); [apply sinv_oinv, H1|done|done].
  Qed.

  Lemma stored_never_runs ps q i : FInv ps -> panicked ps.(pb) q -> i ∈ pids (view ps.(pb)) q -> i ∉ ps.(pb).(ran).
  Proof.
    intros [_ [Hnd _]] (qq & Eq & _) Hj Hin.
    assert (Hq : q < nqs (pb ps)) by (unfold nqs; by eapply lookup_lt_Some).
    unfold Mids, Mv in Hnd. apply NoDup_app in Hnd as (_ & Hdis & _). apply (Hdis _ Hin).
    apply elem_of_app. left. by apply (sumq_elem _ _ q).
  Qed.

  Theorem desync_on_panicked_never_runs nq mx scripts tr0 ps0 c ac q rest qq ps1 tr ps :
    prun T F PF (pinit nq mx scripts) tr0 = Some ps0 ->
    ps0.(pb).(actors) !! c = Some ac -> c ∉ ps0.(dead) -> ac.(stack) = FD1 q :: rest ->
    ps0.(pb).(queues) !! q = Some qq -> qq.(qs) = Panicked ->
    pstep T F PF ps0 c = Some ps1 -> prun T F PF ps1 tr = Some ps ->
    ac.(opctr) ∉ ps.(pb).(ran) /\ ac.(opctr) ∈ pids (view ps.(pb)) q.
  Proof.
    intros Hr0 Ea Hd Est Eq Hp Hs Hr. pose proof (preach_finv T F PF HT HI _ _ _ _ _ Hr0) as HF0.
    pose proof (finv_step T F PF HT HI ps0 c ps1 HF0 Hs) as HF1.
    assert (Hpq0 : panicked (pb ps0) q) by (by exists qq).
    assert (Hpq1 : panicked (pb ps1) q) by (eapply (pstep_keeps_panicked T F PF HP ps0 c ps1 q); [apply sinv_oinv, HF0|done|done]).
    assert (Hj1 : opctr ac ∈ pids (view (pb ps1)) q).
    { apply elem_of_list_fmap. exists (JPlain (opctr ac)). split; [done|]. destruct (pstep_inv_l1 T F PF ps0 c ps1 ac Ea) as [Hs1 _]; [unfold pclos; by rewrite Est|by rewrite Est|done|].
      clear Hs. revert Hs1. generalize (pb ps1). intros s1 Hs. unfold step in Hs. rewrite Ea in Hs. cbn -[setstack updq] in Hs. rewrite Est in Hs. cbn -[setstack updq] in Hs. rewrite Eq in Hs. cbn -[setstack updq] in Hs.
      rewrite Hp, (pl_desync T HL) in Hs. cbn -[setstack updq] in Hs. injection Hs as <-.
      match goal with |- context [updq _ q ?f] => pose proof (queues_ss (pb ps0) c rest q f) as E2 end. rewrite Eq in E2. cbn [fmap option_fmap option_map] in E2.
      eapply jobs_in_pend; [exact E2|]. cbn. apply elem_of_app. right. by left. }
    destruct (stored_run tr ps1 ps q _ HF1 Hpq1 Hj1 Hr) as (HF & Hq & Hj). split; [|done].
    exact (stored_never_runs ps q _ HF Hq Hj).
  Qed.
End Desync.

Lemma call_on_panicked_never_runs (T : tables) (F : facts) (PF : pfacts) :
  own_conditions T -> imm_conditions T -> ptab T -> ploud T ->
  forall nq mx scripts tr0 ps0 c ac o rest q qq ps1 tr ps,
    prun T F PF (pinit nq mx scripts) tr0 = Some ps0 ->
    ps0.(pb).(actors) !! c = Some ac -> c ∉ ps0.(dead) -> ac.(stack) = call_frame o :: rest -> op_q o = q ->
    ps0.(pb).(queues) !! q = Some qq -> qq.(qs) = Panicked ->
    pstep T F PF ps0 c = Some ps1 -> prun T F PF ps1 tr = Some ps -> ac.(opctr) ∉ ps.(pb).(ran).
Proof.
  intros HT HI HP HL nq mx scripts tr0 ps0 c ac o rest q qq ps1 tr ps Hr0 Ea Hd Est Hq Eq Hpn Hs Hr.
  destruct o as [q0|q0|q0]; cbn in Hq, Est; subst q0.
  - by destruct (desync_on_panicked_never_runs T F PF HT HI HP HL nq mx scripts tr0 ps0 c ac q rest qq ps1 tr ps Hr0 Ea Hd Est Eq Hpn Hs Hr).
  - eapply (sync_on_panicked_never_runs T F PF HT HI HL nq mx scripts tr0 ps0 c ac q rest qq ps1 tr ps); eauto.
  - eapply (sync_on_panicked_never_runs T F PF HT HI HL nq mx scripts tr0 ps0 c ac q rest qq ps1 tr ps); eauto.
Qed.
