(* L1p: the ids of the abstract history machine (L1h/Abs.v): where an operation id can be - in ran, in the pending jobs of a
   queue (the owner's hand, then the stored jobs), or with a caller that has called and not yet pushed.  Every step of the abstract
   machine moves ids between these places, adds the fresh id of a call, or drops an id (try_sync Busy, a call that panics). *)
From stdpp Require Import list numbers option.
From RecordUpdate Require Import RecordUpdate.
From L1 Require Import Model Own Shape Stuck.
From L1h Require Import WeakWF Hist Abs SimBase Sim HistFacts AInv.

Definition pre_id (x : aactor) : option nat := match ph x with PPre _ _ => Some (aop x) | _ => None end.
Definition sumq (f : nat -> list nat) (n : nat) : list nat := concat (f <$> seq 0 n).
Definition pids (v : aview) (q : nat) : list nat := job_id <$> v_pend v q.
Definition Mv (v : aview) (n : nat) : list nat := v_ran v ++ sumq (pids v) n ++ omap pre_id (v_acts v).

Lemma sumq_S f n : sumq f (S n) = sumq f n ++ f n.
Proof. unfold sumq. rewrite seq_S, fmap_app, concat_app. cbn. by rewrite app_nil_r. Qed.
Lemma sumq_ext f g n : (forall q, q < n -> f q = g q) -> sumq f n = sumq g n.
Proof. induction n as [|n IH]; intros H; [done|]. rewrite !sumq_S, IH by (intros; apply H; lia). by rewrite H by lia. Qed.
Lemma sumq_upd f g q n : q < n -> (forall q0, q0 <> q -> g q0 = f q0) ->
  exists R, sumq f n ≡ₚ f q ++ R /\ sumq g n ≡ₚ g q ++ R.
Proof.
  intros Hq Hfg. induction n as [|n IH]; [lia|]. rewrite !sumq_S. destruct (decide (q = n)) as [->|Hne].
  - exists (sumq f n). rewrite (sumq_ext g f n) by (intros; apply Hfg; lia). split; apply Permutation_app_comm.
  - destruct IH as (R & H1 & H2); [lia|]. exists (R ++ f n). rewrite (Hfg n) by done. rewrite H1, H2, !(assoc_L (++)). done.
Qed.
Lemma sumq_elem f n q x : q < n -> x ∈ f q -> x ∈ sumq f n.
Proof.
  intros Hq Hx. induction n as [|n IH]; [lia|]. rewrite sumq_S. apply elem_of_app. destruct (decide (q = n)) as [->|]; [by right|left; apply IH; lia].
Qed.

Lemma omap_none {A B} (p : A -> option B) (l : list A) : (forall x, x ∈ l -> p x = None) -> omap p l = [].
Proof. induction l as [|y l IH]; intros H; cbn; [done|]. rewrite (H y) by (by left). apply IH. intros x Hx. apply H. by right. Qed.
Lemma omap_alter_same {A B} (p : A -> option B) g a (l : list A) : (forall x, l !! a = Some x -> p (g x) = p x) -> omap p (alter g a l) = omap p l.
Proof.
  revert a. induction l as [|y l IH]; intros [|a] H; cbn; try done.
  - by rewrite (H y eq_refl).
  - by rewrite IH.
Qed.
Lemma omap_alter_drop {A B} (p : A -> option B) g a (l : list A) x i : l !! a = Some x -> p x = Some i -> p (g x) = None ->
  omap p l ≡ₚ i :: omap p (alter g a l).
Proof.
  revert a. induction l as [|y l IH]; intros [|a] Ha Hp Hg; cbn in *; try done.
  - injection Ha as ->. by rewrite Hp, Hg.
  - destruct (p y); [|by apply IH]. rewrite (IH a Ha Hp Hg). apply perm_swap.
Qed.
Lemma omap_insert_add {A B} (p : A -> option B) a (l : list A) x y i : l !! a = Some x -> p x = None -> p y = Some i ->
  omap p (<[a:=y]> l) ≡ₚ i :: omap p l.
Proof.
  revert a. induction l as [|z l IH]; intros [|a] Ha Hp Hy; cbn in *; try done.
  - injection Ha as ->. by rewrite Hp, Hy.
  - destruct (p z); [|by apply IH]. rewrite (IH a Ha Hp Hy). apply perm_swap.
Qed.

Lemma Mv_veq w v n : veq w v -> Mv w n = Mv v n.
Proof. intros (E1 & E2 & E3 & _). unfold Mv. rewrite E1, E3. f_equal. f_equal. apply sumq_ext. intros q _. unfold pids. by rewrite E2. Qed.

Lemma Mv_pend v q (P' : list job) A' r' n :
  let w := {| v_acts := A'; v_pend := fupd q P' (v_pend v); v_ran := r'; v_next := v_next v |} in
  q < n -> exists R, sumq (pids v) n ≡ₚ (job_id <$> v_pend v q) ++ R /\ sumq (pids w) n ≡ₚ (job_id <$> P') ++ R.
Proof.
  intros w Hq. destruct (sumq_upd (pids v) (pids w) q n Hq) as (R & H1 & H2).
  { intros q0 Hne. unfold pids, w, fupd; cbn. by rewrite decide_False. }
  exists R. split; [done|]. rewrite H2. unfold pids, w, fupd; cbn. by rewrite decide_True.
Qed.
Lemma Mv_pend_out v q (P' : list job) A' r' n :
  let w := {| v_acts := A'; v_pend := fupd q P' (v_pend v); v_ran := r'; v_next := v_next v |} in
  n <= q -> sumq (pids w) n = sumq (pids v) n.
Proof. intros w Hq. apply sumq_ext. intros q0 Hq0. unfold pids, w, fupd; cbn. rewrite decide_False by lia. done. Qed.

Ltac perm := apply (anti_symm submseteq); solve_submseteq.

Lemma pre_id_set_ph p x : pre_id (set_ph p x) = match p with PPre _ _ => Some (aop x) | _ => None end.
Proof. unfold pre_id, set_ph. cbn. by destruct p. Qed.

Lemma astep_ids v a evs w n : (forall q, n <= q -> v_pend v q = []) -> astep v a evs w ->
  exists fresh lost, fresh ++ Mv v n ≡ₚ Mv w n ++ lost /\
    ((fresh = [] /\ v_next w = v_next v) \/ (fresh = [v_next v] /\ v_next w = S (v_next v))) /\
    (forall i, evs = [RetPanic i] \/ evs = [RetBusy i] -> lost = [i] /\ fresh = []) /\
    (forall i q, Run i q ∈ evs -> q < n).
Proof.
  intros Hsup Hst.
  destruct Hst as [w Hv|w Hv|w x k q Ha Hp Hv|w x q d Ha Hp Hv|w x k q Ha Hp Hk Hpe Hv|w x q j Ha Hp Hj Hv|w x q js Ha Hp Hpe Hv
                  |w q j js Hpe Hv|w x q Ha Hp Hfl Hv|w x Ha Hp Hv|w x q Ha Hp Hv|w x k q Ha Hp Hv];
    (assert (Hnx := proj2 (proj2 (proj2 Hv))); cbn in Hnx; rewrite (Mv_veq _ _ n Hv); clear Hv).
  - (* stutter *) exists [], []. split; [by rewrite app_nil_r|]. split; [left; by split|]. split; [intros i [?|?]; done|]. intros i q Hin. by apply elem_of_nil in Hin.
  - (* spawn *) exists [], []. split.
    + unfold Mv; cbn. rewrite omap_app. cbn. rewrite !app_nil_r. done.
    + split; [left; by split|]. split; [intros i [?|?]; done|]. intros i q Hin. by apply elem_of_nil in Hin.
  - (* call *) exists [v_next v], []. split.
    + unfold Mv; cbn. rewrite (omap_insert_add pre_id a (v_acts v) x _ (v_next v) Ha); [| by unfold pre_id; rewrite Hp | done].
      change (sumq (pids {| v_acts := _; v_pend := v_pend v; v_ran := v_ran v; v_next := S (v_next v) |}) n) with (sumq (pids v) n). perm.
    + split; [right; by split|]. split; [intros i [?|?]; done|]. intros i q0 Hin. apply elem_of_list_singleton in Hin. done.
  - (* desync push *)
    assert (Hdrop : omap pre_id (v_acts v) ≡ₚ aop x :: omap pre_id (alter (set_ph (dend_ph d)) a (v_acts v))).
    { apply (omap_alter_drop pre_id _ a _ x); [done|by unfold pre_id; rewrite Hp|rewrite pre_id_set_ph; by destruct d]. }
    destruct (decide (q < n)) as [Hq|Hq].
    + destruct (Mv_pend v q (v_pend v q ++ [JPlain (aop x)]) (alter (set_ph (dend_ph d)) a (v_acts v)) (v_ran v) n Hq) as (R & H1 & H2).
      exists [], []. split.
      * unfold Mv; cbn [v_ran v_acts]. rewrite H2, H1, Hdrop, fmap_app. cbn. perm.
      * split; [left; by split|]. split; [intros i [?|?]; by destruct d|]. intros i q0 Hin. apply elem_of_cons in Hin as [?|Hin]; [done|]. destruct d; cbn in Hin; repeat (apply elem_of_cons in Hin as [?|Hin]; [done|]); by apply elem_of_nil in Hin.
    + exists [], [aop x]. split.
      * unfold Mv; cbn [v_ran v_acts]. rewrite (Mv_pend_out v q _ _ _ n) by lia. rewrite Hdrop. perm.
      * split; [left; by split|]. split; [intros i [?|?]; by destruct d|]. intros i q0 Hin. apply elem_of_cons in Hin as [?|Hin]; [done|]. destruct d; cbn in Hin; repeat (apply elem_of_cons in Hin as [?|Hin]; [done|]); by apply elem_of_nil in Hin.
  - (* immediate *)
    assert (Hdrop : omap pre_id (v_acts v) ≡ₚ aop x :: omap pre_id (alter (set_ph (PHand q)) a (v_acts v))).
    { apply (omap_alter_drop pre_id _ a _ x); [done|by unfold pre_id; rewrite Hp|by rewrite pre_id_set_ph]. }
    destruct (decide (q < n)) as [Hq|Hq].
    + destruct (Mv_pend v q [JPlain (aop x)] (alter (set_ph (PHand q)) a (v_acts v)) (v_ran v) n Hq) as (R & H1 & H2).
      exists [], []. split.
      * unfold Mv; cbn [v_ran v_acts]. rewrite H2, H1, Hdrop, Hpe. cbn. perm.
      * split; [left; by split|]. split; [intros i [?|?]; done|]. intros i q0 Hin. apply elem_of_list_singleton in Hin. done.
    + exists [], [aop x]. split.
      * unfold Mv; cbn [v_ran v_acts]. rewrite (Mv_pend_out v q _ _ _ n) by lia. rewrite Hdrop. perm.
      * split; [left; by split|]. split; [intros i [?|?]; done|]. intros i q0 Hin. apply elem_of_list_singleton in Hin. done.
  - (* sync push *)
    assert (Hdrop : omap pre_id (v_acts v) ≡ₚ aop x :: omap pre_id (alter (set_ph (PWait q)) a (v_acts v))).
    { apply (omap_alter_drop pre_id _ a _ x); [done|by unfold pre_id; rewrite Hp|by rewrite pre_id_set_ph]. }
    assert (Hjid : job_id j = aop x) by (by destruct Hj as [-> | ->]).
    destruct (decide (q < n)) as [Hq|Hq].
    + destruct (Mv_pend v q (v_pend v q ++ [j]) (alter (set_ph (PWait q)) a (v_acts v)) (v_ran v) n Hq) as (R & H1 & H2).
      exists [], []. split.
      * unfold Mv; cbn [v_ran v_acts]. rewrite H2, H1, Hdrop, fmap_app. cbn. rewrite Hjid. perm.
      * split; [left; by split|]. split; [intros i [?|?]; done|]. intros i q0 Hin. apply elem_of_list_singleton in Hin. done.
    + exists [], [aop x]. split.
      * unfold Mv; cbn [v_ran v_acts]. rewrite (Mv_pend_out v q _ _ _ n) by lia. rewrite Hdrop. perm.
      * split; [left; by split|]. split; [intros i [?|?]; done|]. intros i q0 Hin. apply elem_of_list_singleton in Hin. done.
  - (* the immediate closure runs *)
    assert (Hq : q < n). { destruct (decide (q < n)); [done|]. rewrite Hsup in Hpe by lia. done. }
    destruct (Mv_pend v q js (alter (set_ph PPost) a (v_acts v)) (aop x :: v_ran v) n Hq) as (R & H1 & H2).
    exists [], []. split.
    + unfold Mv; cbn [v_ran v_acts]. rewrite H2, H1, Hpe. rewrite (omap_alter_same pre_id) by (intros y Hy; rewrite Ha in Hy; injection Hy as <-; rewrite pre_id_set_ph; unfold pre_id; by rewrite Hp). cbn. perm.
    + split; [left; by split|]. split; [intros i [?|?]; done|]. intros i q0 Hin. apply elem_of_list_singleton in Hin. by injection Hin as _ ->.
  - (* a job runs *)
    assert (Hq : q < n). { destruct (decide (q < n)); [done|]. rewrite Hsup in Hpe by lia. done. }
    destruct (Mv_pend v q js (arun_acts j (v_acts v)) (job_id j :: v_ran v) n Hq) as (R & H1 & H2).
    exists [], []. split.
    + unfold Mv; cbn [v_ran v_acts]. rewrite H2, H1, Hpe.
      assert (Ho : omap pre_id (arun_acts j (v_acts v)) = omap pre_id (v_acts v)).
      { destruct j as [o|o c|o c]; cbn; [done| |]; apply omap_alter_same; intros y _; done. }
      rewrite Ho. cbn. perm.
    + split; [left; by split|]. split; [intros i [?|?]; done|]. intros i q0 Hin. apply elem_of_list_singleton in Hin. by injection Hin as _ ->.
  - (* done *) exists [], []. split.
    + unfold Mv; cbn. rewrite (omap_alter_same pre_id) by (intros y Hy; rewrite Ha in Hy; injection Hy as <-; rewrite pre_id_set_ph; unfold pre_id; by rewrite Hp).
      by rewrite app_nil_r.
    + split; [left; by split|]. split; [intros i [?|?]; done|]. intros i q0 Hin. by apply elem_of_nil in Hin.
  - (* ret *) exists [], []. split.
    + unfold Mv; cbn. rewrite (omap_alter_same pre_id) by (intros y Hy; rewrite Ha in Hy; injection Hy as <-; rewrite pre_id_set_ph; unfold pre_id; by rewrite Hp).
      by rewrite app_nil_r.
    + split; [left; by split|]. split; [intros i [?|?]; done|]. intros i q0 Hin. apply elem_of_list_singleton in Hin. done.
  - (* busy *) exists [], [aop x]. split.
    + unfold Mv; cbn. rewrite (omap_alter_drop pre_id (set_ph PIdle) a (v_acts v) x (aop x) Ha); [|by unfold pre_id; rewrite Hp|by rewrite pre_id_set_ph]. perm.
    + split; [left; by split|]. split; [intros i [[= <-]|[= <-]]; done|]. intros i q0 Hin. apply elem_of_list_singleton in Hin. done.
  - (* panic *) exists [], [aop x]. split.
    + unfold Mv; cbn. rewrite (omap_alter_drop pre_id (set_ph PIdle) a (v_acts v) x (aop x) Ha); [|by unfold pre_id; rewrite Hp|by rewrite pre_id_set_ph]. perm.
    + split; [left; by split|]. split; [intros i [[= <-]|[= <-]]; done|]. intros i q0 Hin. apply elem_of_list_singleton in Hin. done.
Qed.

Lemma astep_pids_keep v a evs w q : astep v a evs w -> (forall i, Run i q ∉ evs) -> forall i, i ∈ pids v q -> i ∈ pids w q.
Proof.
  intros [_ Hq]%astep_law Hno i Hi. specialize (Hq q).
  assert (E : ranq evs q = []) by (destruct (ranq evs q) as [|x l] eqn:E; [done|]; destruct (Hno x); apply elem_of_ranq; rewrite E; by left).
  rewrite E in Hq. cbn in Hq. unfold pids. rewrite Hq. apply elem_of_app. by left.
Qed.
