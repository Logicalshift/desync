(* C15 on the scheduler model, third part: who dies, and where [ran] grows.
   A dead actor is a pool thread sitting at [FTlock t], the frame under the job it was running; so an actor whose stack ends in a script
   frame is alive, and C15p_fails_loudly_bounded holds without the hypothesis `c ∉ dead`.
   One step changes [ran] only by prepending the operation of the closure frame on top of the acting actor's stack (FSIrun: its own
   operation; FROrun / FDRrun: the job in its hand); the panic step, the reap and every other step leave [ran] alone.  (No hypothesis:
   this is a fact about the step function.)  Exactly-once with panics is PropsL1p4. *)
From stdpp Require Import list numbers option.
From L0 Require Import Types.
From Gen Require Import Tables.
From L1 Require Import Model Own Shape Stuck.
From L1p Require Import Model OwnP Absorb MainP Loud DeadP RanP PropsL1p PropsL1p2.

Theorem C15p_only_pool_threads_die : forall (T : tables) (F : facts) (PF : pfacts), own_conditions T ->
  forall nq mx scripts tr ps, prun T F PF (pinit nq mx scripts) tr = Some ps ->
    forall a, a ∈ ps.(dead) -> exists ac t, ps.(pb).(actors) !! a = Some ac /\ ac.(stack) = [FTlock t].
Proof. exact dead_are_pool_threads. Qed.

Theorem C15p_caller_is_alive : forall (T : tables) (F : facts) (PF : pfacts), own_conditions T ->
  forall nq mx scripts tr ps c st fr, prun T F PF (pinit nq mx scripts) tr = Some ps ->
    stack_of ps c = Some st -> list.last st = Some fr -> is_top fr = true -> c ∉ ps.(dead).
Proof. exact caller_alive. Qed.

Theorem C15p_fails_loudly_bounded_callers : forall (T : tables) (F : facts) (PF : pfacts), ploud T -> own_conditions T -> ptab T ->
  forall nq mx scripts tr0 ps0 c o os q,
    prun T F PF (pinit nq mx scripts) tr0 = Some ps0 -> panicked ps0.(pb) q -> op_q o = q ->
    stack_of ps0 c = Some [FTop (o :: os)] ->
    forall tr ps, prun T F PF ps0 tr = Some ps ->
      match ccount c tr with
      | 0 => stack_of ps c = Some [FTop (o :: os)] /\ c ∉ ps.(dead) /\ is_Some (pstep T F PF ps c)
      | 1 => stack_of ps c = Some [call_frame o; FTop os] /\ c ∉ ps.(dead) /\
             exists ps2, pstep T F PF ps c = Some ps2 /\ stack_of ps2 c = Some [FTop os] /\ ps2.(pb).(ran) = ps.(pb).(ran)
      | _ => True
      end.
Proof.
  exact (fun T F PF HL HT HP nq mx scripts tr0 ps0 c o os q Hr0 Hq Hoq Hst =>
           C15p_fails_loudly_bounded T F PF HL HT HP nq mx scripts tr0 ps0 c o os q Hr0 Hq
             (caller_alive T F PF HT nq mx scripts tr0 ps0 c [FTop (o :: os)] (FTop (o :: os)) Hr0 Hst eq_refl eq_refl) Hoq Hst).
Qed.

Theorem C15p_ran_grows_only_at_closure_frames : forall (T : tables) (F : facts) (PF : pfacts) ps a ps',
  pstep T F PF ps a = Some ps' ->
  ps'.(pb).(ran) = ps.(pb).(ran) \/
  exists ac i, ps.(pb).(actors) !! a = Some ac /\ clos_id ac = Some i /\ ps'.(pb).(ran) = i :: ps.(pb).(ran).
Proof. exact pstep_ran. Qed.

Print Assumptions C15p_only_pool_threads_die.
Print Assumptions C15p_caller_is_alive.
Print Assumptions C15p_fails_loudly_bounded_callers.
Print Assumptions C15p_ran_grows_only_at_closure_frames.
