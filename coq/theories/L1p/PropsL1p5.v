(* C15 on the scheduler model, fifth part: what is true, and what is not, about "the pool replaces the thread it lost".

   NOT true, even with the code's reap (f_reap_ignores_busy = true): "in a reachable state in which nobody can move every healthy queue
   is Idle and empty".  Pool maximum 1, D0[panic] by caller 0, D1[] by caller 1 issued WHILE the only pool thread is inside the doomed
   job (schedule_thread finds it busy, cannot spawn, and relies on that thread coming back to the schedule); the thread panics; nothing
   is scheduled afterwards: object 1 stays Pending with its job; the dead thread keeps the slot (busy still set) until the NEXT
   scheduling call.  (Confirmed on the real crate; outside C15's quantifier - programs issued after the unwinding.)
   With f_reap_ignores_busy = false (the seeded change) the slot is lost for ever, also for work scheduled AFTER the panic.
   TRUE, for the code's reap and all tables, facts, programs, schedules: the first step of a scheduling call (remove_finished_threads +
   the threads lock of the dormant scan, frame FSTlock) leaves [dead] empty and a fresh dormant thread in every slot that was dead; such
   a slot stays available under every step except the scan step (FSTscan t) that wakes it, and the woken thread can move.
   In every reachable state in which nobody can move no queue is Running and every actor that is not a dead pool thread is at the end of
   its script, inside the condition-variable wait of sync_background, or a dormant pool thread.
   The complete form with [dead] empty (healthy queues Idle and empty, the callers left waiting wait on Panicked queues) is PropsL1p6 and
   PropsL1p7.  (imm_conditions in the hypotheses below is not used.) *)
From stdpp Require Import list numbers list_numbers option.
From L0 Require Import Types.
From Gen Require Import Tables.
From L1 Require Import Model Own Shape Stuck.
From L1h Require Import Sim.
From L1p Require Import Model OwnP Absorb MainP Loud DeadP RanP ShapeP IdAbs IdInv OnceP QuietP FreshP PropsL1p PropsL1p2 PropsL1p4.

Theorem C15p_next_scheduling_call_restores_capacity : forall (T : tables) (F : facts) (PF : pfacts),
  own_conditions T -> imm_conditions T -> PF.(f_reap_ignores_busy) = true ->
  forall nq mx scripts tr ps a ac rest ps',
    prun T F PF (pinit nq mx scripts) tr = Some ps ->
    ps.(pb).(actors) !! a = Some ac -> ac.(stack) = FSTlock :: rest -> pstep T F PF ps a = Some ps' ->
    ps'.(dead) = [] /\ forall b, b ∈ ps.(dead) -> fresh_slot ps'.(pb) b.
Proof.
  exact (fun T F PF HT HI HPF nq mx scripts tr ps a ac rest ps' Hr =>
           scheduling_call_restores_capacity T F PF HPF ps a ac rest ps' (preach_sinv T F PF HT nq mx scripts tr ps Hr)).
Qed.

Theorem C15p_reaped_slot_stays_available_until_woken : forall (T : tables) (F : facts) (PF : pfacts), own_conditions T -> imm_conditions T ->
  forall nq mx scripts tr0 ps0 b, prun T F PF (pinit nq mx scripts) tr0 = Some ps0 -> fresh_slot ps0.(pb) b ->
    (forall a ps', pstep T F PF ps0 a = Some ps' ->
       fresh_slot ps'.(pb) b \/ exists t, woken ps0.(pb) ps'.(pb) a t b /\ stack_of ps' b = Some [FTrecv t] /\ b ∉ ps'.(dead)) /\
    (forall tr ps', prun T F PF ps0 tr = Some ps' ->
       fresh_slot ps'.(pb) b \/
       exists tr1 a tr2 ps1 ps2 t, tr = tr1 ++ a :: tr2 /\ prun T F PF ps0 tr1 = Some ps1 /\ pstep T F PF ps1 a = Some ps2 /\
         woken ps1.(pb) ps2.(pb) a t b /\ is_Some (pstep T F PF ps2 b)).
Proof.
  exact (fun T F PF HT HI nq mx scripts tr0 ps0 b Hr Hf =>
           let HS := preach_sinv T F PF HT nq mx scripts tr0 ps0 Hr in
           conj (fun a ps' Hs => fresh_until_woken T F PF ps0 a ps' b HS Hf Hs)
                (fun tr ps' Hr' => fresh_run T F PF HT tr ps0 ps' b HS Hf Hr')).
Qed.

Theorem C15p_terminal_partial : forall (T : tables) (F : facts) (PF : pfacts), own_conditions T -> imm_conditions T ->
  forall nq mx scripts tr ps, wf_scripts nq (map fst <$> scripts) ->
    prun T F PF (pinit nq mx scripts) tr = Some ps -> pterminal T F PF ps ->
    (forall a ac, ps.(pb).(actors) !! a = Some ac -> a ∉ ps.(dead) -> stuck_ok ps.(pb) ac.(stack)) /\
    (forall q qq, ps.(pb).(queues) !! q = Some qq -> qq.(qs) <> Running).
Proof.
  exact (fun T F PF HT HI nq mx scripts tr ps Hwf Hr =>
           pterminal_stuck T F PF ps (preach_sinv T F PF HT nq mx scripts tr ps Hr)
             (wf_run T F PF tr (pinit nq mx scripts) ps (init_wf nq mx _ Hwf) Hr)).
Qed.

Definition exQ_scripts : list (list (op * bool)) := [[(ODesync 0, true)]; [(ODesync 1, false)]].
Definition exQ_tr : list nat := [0; 0; 0; 0; 0; 0; 0; 0; 2; 2; 2; 2; 2; 2; 1; 1; 1; 1; 1; 1; 1; 2].
Lemma exQ_run : exists ps, prun gen_tables gen_facts pf_code (pinit 2 1 exQ_scripts) exQ_tr = Some ps /\
  pterminal_b gen_tables gen_facts pf_code ps = true /\
  (qs <$> ps.(pb).(queues)) = [Panicked; Pending] /\ ((fun q => length q.(jobs)) <$> ps.(pb).(queues)) = [0; 1] /\ ps.(pb).(sched) = [1] /\
  ps.(dead) = [2] /\ (busy <$> ps.(pb).(threads)) = [true] /\ ps.(pb).(ran) = [] /\
  tops ps = [Some (FTop []); Some (FTop []); Some (FTlock 0)].
Proof. eexists. split; [vm_compute; reflexivity|]. repeat split. Qed.

Example exQ_stranded : exists ps, prun gen_tables gen_facts pf_code (pinit 2 1 exQ_scripts) exQ_tr = Some ps /\
  pterminal_b gen_tables gen_facts pf_code ps = true /\ exists q, (qs <$> ps.(pb).(queues)) !! q = Some Pending.
Proof. eexists. split; [vm_compute; reflexivity|]. split; [reflexivity|]. exists 1. reflexivity. Qed.
Example exM_stranded : exists ps, prun gen_tables gen_facts pf_mut (pinit 2 1 exP_scripts) exP_tr_mut = Some ps /\
  pterminal_b gen_tables gen_facts pf_mut ps = true /\ exists q, (qs <$> ps.(pb).(queues)) !! q = Some Pending.
Proof. eexists. split; [vm_compute; reflexivity|]. split; [reflexivity|]. exists 1. reflexivity. Qed.

Theorem C15p_work_scheduled_during_doomed_job_is_stranded_refuted :
  ~ (forall nq mx scripts tr ps, 1 <= mx -> prun gen_tables gen_facts pf_code (pinit nq mx scripts) tr = Some ps ->
       pterminal gen_tables gen_facts pf_code ps ->
       forall q qq, ps.(pb).(queues) !! q = Some qq -> qq.(qs) <> Panicked -> qq.(qs) = Idle /\ qq.(jobs) = []).
Proof.
  exact (stranded_refutes gen_tables gen_facts pf_code 2 1 exQ_scripts exQ_tr (le_n 1) exQ_stranded).
Qed.

Theorem C15p_capacity_lost_for_ever_when_reap_skips_busy :
  ~ (forall nq mx scripts tr ps, 1 <= mx -> prun gen_tables gen_facts pf_mut (pinit nq mx scripts) tr = Some ps ->
       pterminal gen_tables gen_facts pf_mut ps ->
       forall q qq, ps.(pb).(queues) !! q = Some qq -> qq.(qs) <> Panicked -> qq.(qs) = Idle /\ qq.(jobs) = []).
Proof.
  exact (stranded_refutes gen_tables gen_facts pf_mut 2 1 exP_scripts exP_tr_mut (le_n 1) exM_stranded).
Qed.

(* the stranded scenario, followed by one more scheduling call: D2 by caller 1 *)
Definition exR_scripts : list (list (op * bool)) := [[(ODesync 0, true)]; [(ODesync 1, false); (ODesync 2, false)]].
Definition exR_tr : list nat :=
  [0; 0; 0; 0; 0; 0; 0; 0; 2; 2; 2; 2; 2; 2; 1; 1; 1; 1; 1; 1; 1; 1; 1; 2; 1; 1; 1; 2; 2; 2; 2; 2; 2; 2; 2; 2; 2; 2; 2; 2; 2; 2; 2; 2; 2; 2; 2; 2].
Example C15p_capacity_restored_example :
  exists ps, prun gen_tables gen_facts pf_code (pinit 3 1 exR_scripts) exR_tr = Some ps /\
    pterminal_b gen_tables gen_facts pf_code ps = true /\
    (qs <$> ps.(pb).(queues)) = [Panicked; Idle; Idle] /\ ((fun q => length q.(jobs)) <$> ps.(pb).(queues)) = [0; 0; 0] /\
    ps.(pb).(sched) = [] /\ ps.(dead) = [] /\ (busy <$> ps.(pb).(threads)) = [false] /\ ps.(pb).(ran) = [2; 1] /\
    tops ps = [Some (FTop []); Some (FTop []); Some (FTrecv 0)].
Proof. eexists. split; [vm_compute; reflexivity|]. repeat split. Qed.

Print Assumptions C15p_next_scheduling_call_restores_capacity.
Print Assumptions C15p_reaped_slot_stays_available_until_woken.
Print Assumptions C15p_terminal_partial.
Print Assumptions C15p_work_scheduled_during_doomed_job_is_stranded_refuted.
Print Assumptions C15p_capacity_lost_for_ever_when_reap_skips_busy.
Print Assumptions C15p_capacity_restored_example.
