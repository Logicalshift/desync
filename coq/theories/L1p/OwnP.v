(* L1p: exclusive ownership (C01) survives panics: the invariant Inv of L1/Own.v holds in every reachable state of the panic model *)
From stdpp Require Import list numbers option.
From RecordUpdate Require Import RecordUpdate.
From L1 Require Import Model Own Shape Stuck.
From L1p Require Import Model StepP DeadP.

Definition dead_ok (ps : pstate) : Prop :=
  forall a, a ∈ ps.(dead) -> exists ac, ps.(pb).(actors) !! a = Some ac /\ forall q, cnt q ac.(stack) = 0.
Definition PInv (ps : pstate) : Prop := Inv ps.(pb) /\ dead_ok ps.

Lemma drop_job_obs s j : obs_eq (drop_job s j) s.
Proof.
  apply (drop_job_closed (fun s' => obs_eq s' s)); [| |by split].
  - intros s0 c (Q1 & C1 & L1). split; [done|]. split; [|by rewrite length_actors_upda]. intros b q. by rewrite stack_cnt_upda.
  - intros s0 w ac q rest (Q1 & C1 & L1) Ew Est. split; [done|]. split; [|by rewrite length_actors_setstack].
    intros b q0. rewrite stack_cnt_setstack. case_decide as Hcb; [subst b|by apply C1].
    rewrite <- C1. unfold stack_cnt. rewrite Ew. cbn. by rewrite Est.
Qed.

(* the invariant of the runs.  PInv' below (a field of ShapeP.SInv) is this with dead_ok for dead_lock, which implies it. *)
Definition OInv (ps : pstate) : Prop := Inv ps.(pb) /\ dead_lock ps /\ NoDup ps.(dead).

Section OwnP.
  Context (T : tables) (F : facts) (PF : pfacts) (HT : own_conditions T).

  Definition PInv' (ps : pstate) : Prop := Inv ps.(pb) /\ dead_ok ps /\ NoDup ps.(dead).

  Lemma oinv_pinv ps : OInv ps -> PInv' ps.
  Proof.
    intros (HI & HL & Hnd). split; [done|]. split; [|done]. intros a Ha. destruct (HL a Ha) as (ac & t & Ea & Est).
    exists ac. split; [done|]. intros q. by rewrite Est.
  Qed.

  Lemma reap_inv ds s : Inv s -> NoDup ds -> (forall a, a ∈ ds -> dead_at s a) -> Inv (reap PF s ds).1.
  Proof.
    intros HI Hnd Hd. apply (reap_preserves_dead PF Inv ds); [|done..].
    intros s0 a s1 HI0 (ac & t0 & Ea & Est) (t & th & _ & _ & ->)%reap_one_form.
    eapply (inv_update_noq s0 _ a (fun _ => 0) [FTrecv t] HI0).
    - intros q'. by rewrite (stack_cnt_self s0 a ac q' Ea), Est.
    - done.
    - intros b q'. rewrite stack_cnt_setstack' by (by eexists). by rewrite stack_cnt_updt.
    - by rewrite length_actors_setstack.
    - done.
  Qed.

  Lemma panic_inv s a ac q o rest dies : Inv s -> s.(actors) !! a = Some ac -> pclos ac = Some (q, o, rest, dies) ->
    Inv (setstack (updq (drop_job s (top_job ac)) q panicked_queue) a rest).
  Proof.
    intros HI Ea Hp. set (s1 := drop_job s (top_job ac)).
    assert (HI1 : Inv s1) by (eapply Inv_obs; [apply drop_job_obs|done]).
    destruct (drop_job_self s (top_job ac) a ac q o rest dies Ea Hp) as (ac1 & Ea1 & Est1 & _).
    eapply (inv_update s1 _ a (fun q' => cnt q' (stack ac)) q panicked_queue rest HI1).
    - intros q'. by rewrite (stack_cnt_self s1 a ac1 q' Ea1), Est1.
    - intros q'. by rewrite queues_setstack, queues_updq.
    - intros b q'. rewrite stack_cnt_setstack' by (by eexists). by rewrite stack_cnt_updq.
    - by rewrite length_actors_setstack.
    - intros q' Hne. by rewrite (pclos_cnt ac q o rest dies q' Hp), bool_decide_eq_false_2 by congruence.
    - intros qq Hq. right; right. split; [|done]. by rewrite (pclos_cnt ac q o rest dies q Hp), bool_decide_eq_true_2.
  Qed.

  Theorem oinv_step ps a ps' : OInv ps -> pstep T F PF ps a = Some ps' -> OInv ps'.
  Proof.
    intros (HI & HL & Hnd) Hs. destruct (dead_lock_step T F PF ps a ps' Hnd HL Hs) as [HL' Hnd']. split; [|done].
    destruct (pstep_inv T F PF ps a ps' Hs) as [_ [ac _ _ _ Hs1 _|ac r _ _ Hs1 _|ac q o rest dies Ea Hp _ -> _]].
    - by eapply (step_inv T F HT).
    - eapply (step_inv T F HT); [|done]. by apply reap_inv.
    - by apply (panic_inv _ a ac q o rest dies).
  Qed.
End OwnP.
