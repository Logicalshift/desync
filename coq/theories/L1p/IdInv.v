(* L1p: the id-placement invariant on runs of the panic model.
   Mids ps: the ids in ran, in the pending jobs of the queues (owner's hand, then the stored jobs), and of callers that have called and
   not yet pushed.  IdInv: Mids has no duplicates and every member is below nextop (was issued). *)
From stdpp Require Import list numbers option.
From RecordUpdate Require Import RecordUpdate.
From L1 Require Import Model Own Shape Stuck.
From L1h Require Import WeakWF Hist Abs SimBase Sim HistFacts AInv.
From L1p Require Import Model StepP OwnP Absorb MainP Loud DeadP RanP ShapeP IdAbs.

Definition nqs (s : state) : nat := length s.(queues).
Definition Mids (s : state) : list nat := Mv (view s) (nqs s).

Lemma pend_out s q : nqs s <= q -> pend s q = [].
Proof. intros H. unfold pend, oj. rewrite lookup_ge_None_2 by done. done. Qed.

Lemma drop_job_view s j :
  hsame (drop_job s j) s /\ omap pre_id (acts (drop_job s j)) = omap pre_id (acts s).
Proof.
  apply (drop_job_closed (fun s' => hsame s' s /\ omap pre_id (acts s') = omap pre_id (acts s))); [| |done].
  - intros s0 c [H1 H2]. split; [eapply hsame_trans; [|exact H1]; by apply hsame_upda|]. rewrite <- H2.
    pose (g := fun x : aactor => x <| ardy := true |>).
    assert (E : acts (upda s0 c (fun x => x <| ready := true |>)) = alter g c (acts s0)) by exact (acts_upda_gen s0 c (fun x : actor => x <| ready := true |>) g (fun _ => eq_refl)).
    rewrite E. apply omap_alter_same. by intros.
  - intros s0 w ac q rest [H1 H2] Ew Es. split.
    + eapply hsame_trans; [|exact H1]. split.
      * intros b q'. rewrite hv_setstack. case_decide; subst; [|done]. unfold hv. rewrite Ew. cbn. by rewrite Es.
      * intros b. rewrite actors_setstack_lookup. case_decide; [subst b; by rewrite Ew|done].
    + rewrite acts_setstack, <- H2. apply omap_alter_same. intros y Hy. rewrite (acts_lookup s0 w ac Ew) in Hy. injection Hy as <-.
      rewrite pre_id_set_ph. unfold pre_id. cbn -[aph]. rewrite aph_wake, <- Es. by destruct (aph (stack ac)).
Qed.

Lemma length_queues_updq s q f : nqs (updq s q f) = nqs s.
Proof. unfold nqs, updq; cbn. by rewrite alter_length. Qed.

Lemma panic_ids s a ac q o rest dies :
  Shape s -> Inv s -> WF' s -> s.(actors) !! a = Some ac -> pclos ac = Some (q, o, rest, dies) ->
  let s' := setstack (updq (drop_job s (top_job ac)) q panicked_queue) a rest in
  Mids s ≡ₚ o :: Mids s' /\ s'.(nextop) = s.(nextop) /\ nqs s' = nqs s /\ (forall q0, q0 <> q -> pend s' q0 = pend s q0) /\
  exists qq, s.(queues) !! q = Some qq /\ qs qq = Running.
Proof.
  intros HS HI HW Ea Hp s'.
  destruct (drop_job_view s (top_job ac)) as ([Hh1 Hh2] & Hpre).
  destruct (drop_job_frame s (top_job ac)) as [A Hfr].
  assert (Hnx : nextop (drop_job s (top_job ac)) = nextop s) by (by rewrite Hfr).
  assert (Hq1 : queues (drop_job s (top_job ac)) = queues s) by (by rewrite Hfr).
  assert (Hran1 : ran (drop_job s (top_job ac)) = ran s) by (by rewrite Hfr).
  clear A Hfr.
  destruct (drop_job_self s (top_job ac) a ac q o rest dies Ea Hp) as (ac1 & Ea1 & Est1 & Hop1 & _).
  set (s1 := drop_job s (top_job ac)) in *.
  (* the shapes: the hand for q is one job with id o, no hand for another queue; the new stack holds nothing *)
  assert (Hshape : (exists jx, handl q (opctr ac) (stack ac) = [jx] /\ job_id jx = o) /\ (forall q0, q0 <> q -> handl q0 (opctr ac) (stack ac) = []) /\
                   (forall q0 oo, handl q0 oo rest = []) /\ cnt q (stack ac) = 1 /\ (forall q0, q0 <> q -> cnt q0 (stack ac) = 0) /\
                   pre_id (aact ac) = None /\ (match aph rest with PPre _ _ => False | _ => True end) /\ q < nqs s).
  { pose proof (WF'_self s a ac HW Ea) as Hw.
    destruct (pclos_shape s a ac q o rest dies HS Ea Hp) as [os E _|j g0 os E Hg0 _|j t0 E _]; rewrite E in *; cbn in Hw;
      apply andb_true_iff in Hw as [Hw _]; apply bool_decide_eq_true in Hw.
    - split; [exists (JPlain (opctr ac)); cbn; by rewrite decide_True|]. split; [intros q0 Hne; cbn; by rewrite decide_False|].
      split; [done|]. split; [cbn; by rewrite bool_decide_eq_true_2|]. split; [intros q0 Hne; cbn; by rewrite bool_decide_eq_false_2|].
      split; [unfold pre_id; cbn; by rewrite E|]. split; [done|]. unfold nqs; lia.
    - split; [exists j; cbn; rewrite decide_True by done; split; [by destruct Hg0 as [-> | ->]|symmetry; apply job_op_id]|].
      split; [intros q0 Hne; cbn; rewrite decide_False by done; by destruct Hg0 as [-> | ->]|].
      split; [done|]. split; [destruct Hg0 as [-> | ->]; cbn; by rewrite bool_decide_eq_true_2|].
      split; [intros q0 Hne; destruct Hg0 as [-> | ->]; cbn; by rewrite bool_decide_eq_false_2|].
      split; [unfold pre_id; cbn; rewrite E; by destruct Hg0 as [-> | ->]|]. split; [done|]. unfold nqs; lia.
    - split; [exists j; cbn; rewrite decide_True by done; split; [done|symmetry; apply job_op_id]|].
      split; [intros q0 Hne; cbn; by rewrite decide_False|].
      split; [done|]. split; [cbn; by rewrite bool_decide_eq_true_2|]. split; [intros q0 Hne; cbn; by rewrite bool_decide_eq_false_2|].
      split; [unfold pre_id; cbn; by rewrite E|]. split; [done|]. unfold nqs; lia. }
  destruct Hshape as ((jx & Hhand & Hjx) & Hnohand & Hrest & Hcq & Hcn & Hprea & Hphr & Hqn).
  destruct (lookup_lt_is_Some_2 _ _ Hqn) as [qq Eq].
  destruct (runner_owns s a q qq 0 HI) as [Hown Hrun]; [by rewrite (stack_cnt_self s a ac q Ea), Hcq|done|].
  assert (Hn' : nqs s' = nqs s) by (unfold s'; unfold nqs; rewrite queues_setstack; fold (nqs (updq s1 q panicked_queue)); rewrite length_queues_updq; unfold nqs; by rewrite Hq1).
  (* the three parts of Mids *)
  assert (Hran : ran s' = ran s) by exact Hran1.
  assert (Hpre' : omap pre_id (acts s') = omap pre_id (acts s)).
  { unfold s'. rewrite acts_setstack. change (acts (updq s1 q panicked_queue)) with (acts s1). rewrite <- Hpre. apply omap_alter_same.
    intros y Hy. rewrite (acts_lookup s1 a ac1 Ea1) in Hy. injection Hy as <-. rewrite pre_id_set_ph.
    assert (pre_id (aact ac1) = None) as -> by (unfold pre_id in *; cbn in *; by rewrite Est1, Hop1).
    by destruct (aph rest). }
  assert (Hpq : pend s q = jx :: pend s' q).
  { rewrite (pend_self s a ac q (jobs qq) Ea) by (by rewrite (oj_lookup s q qq Eq), Hown). rewrite Hhand. cbn. f_equal.
    unfold pend, s'. rewrite oj_setstack, oj_updq, decide_True by done. rewrite Hq1, Eq. done. }
  assert (Hpo : forall q0, q0 <> q -> pend s' q0 = pend s q0).
  { intros q0 Hne. unfold pend, s'. rewrite oj_setstack, oj_updq, decide_False by done. rewrite (oj_queues s1 s q0 Hq1).
    destruct (oj s q0) as [[[b|] js]|] eqn:Eo; [|done|done]. f_equal.
    rewrite hv_setstack. case_decide as Hab.
    - subst b. change (actors (updq s1 q panicked_queue)) with (actors s1). rewrite Ea1. cbn. rewrite Hrest. unfold hv. rewrite Ea. cbn. by rewrite Hnohand.
    - change (hv (updq s1 q panicked_queue) b q0) with (hv s1 b q0). by rewrite Hh1. }
  split; [|split; [exact Hnx|split; [exact Hn'|split; [exact Hpo|by exists qq]]]].
  unfold Mids. rewrite Hn'. unfold Mv. cbn [v_ran v_acts view]. rewrite Hran, Hpre'.
  destruct (sumq_upd (pids (view s)) (pids (view s')) q (nqs s) Hqn) as (R & H1 & H2).
  { intros q0 Hne. unfold pids; cbn. by rewrite Hpo. }
  rewrite H1, H2. unfold pids; cbn. rewrite Hpq. cbn. rewrite Hjx. perm.
Qed.

Section StepIds.
  Context (T : tables) (F : facts) (HT : own_conditions T) (HI : imm_conditions T).

  Lemma step_nqs s a s' : step T F s a = Some s' -> nqs s' = nqs s.
  Proof. intros (ac & fr & rest & m & new & _ & _ & He & ->)%step_eff. exact (eff_queues_length T F s a ac fr m new He). Qed.

  (* one L1 step: ids move, a call adds the fresh id nextop, Busy / Panic answers and pushes to missing queues drop an id *)
  Lemma step_ids s a s' : Shape s -> Inv s -> WF' s -> step T F s a = Some s' ->
    exists fresh lost, fresh ++ Mids s ≡ₚ Mids s' ++ lost /\
      ((fresh = [] /\ s'.(nextop) = s.(nextop)) \/ (fresh = [s.(nextop)] /\ s'.(nextop) = S s.(nextop))) /\
      (forall i, obs' T s a s' = [RetPanic i] \/ obs' T s a s' = [RetBusy i] -> lost = [i] /\ fresh = []).
  Proof.
    intros HS HIv HW Hs. pose proof (step_sim T F HT HI s a s' HS HIv HW Hs) as Hsim.
    destruct (astep_ids (view s) a _ (view s') (nqs s) (pend_out s) Hsim) as (fresh & lost & H1 & H2 & H3 & _).
    exists fresh, lost. unfold Mids. rewrite (step_nqs s a s' Hs). done.
  Qed.
End StepIds.

Definition IdInv (s : state) : Prop := NoDup (Mids s) /\ Forall (fun i => i < s.(nextop)) (Mids s).

Lemma idinv_move s s' fresh lost : IdInv s -> fresh ++ Mids s ≡ₚ Mids s' ++ lost ->
  ((fresh = [] /\ s'.(nextop) = s.(nextop)) \/ (fresh = [s.(nextop)] /\ s'.(nextop) = S s.(nextop))) -> IdInv s'.
Proof.
  intros [Hnd Hlt] Hp Hf.
  assert (Hnd2 : NoDup (fresh ++ Mids s)).
  { destruct Hf as [(-> & _)|(-> & _)]; [done|]. cbn. constructor; [|done]. intros Hin. rewrite list.Forall_forall in Hlt. specialize (Hlt _ Hin). lia. }
  rewrite Hp in Hnd2. apply NoDup_app in Hnd2 as (Hnd' & _ & _). split; [done|].
  apply list.Forall_forall. intros i Hi.
  assert (Hin : i ∈ fresh ++ Mids s) by (rewrite Hp; apply elem_of_app; by left).
  rewrite list.Forall_forall in Hlt. apply elem_of_app in Hin as [Hin|Hin].
  - destruct Hf as [(-> & _)|(-> & ->)]; [by apply elem_of_nil in Hin|]. apply elem_of_list_singleton in Hin. lia.
  - specialize (Hlt _ Hin). destruct Hf as [(_ & ->)|(_ & ->)]; lia.
Qed.

Lemma reap_one_ids PF s a s1 : dead_at s a -> reap_one PF s a = Some s1 -> Mids s1 = Mids s /\ forall q, pend s1 q = pend s q.
Proof.
  intros (ac & t0 & Ea & Est) (t & th & _ & _ & ->)%reap_one_form.
  assert (Hpend : forall q, pend (setstack (updt s t (fun x => x <| busy := false |> <| held := false |> <| chan := 0 |>)) a [FTrecv t]) q = pend s q).
  { intros q. apply pend_view; [done|].
    intros b. rewrite hv_setstack. case_decide as Hab; [|done]. subst b. change (actors (updt s t _)) with (actors s). rewrite Ea. cbn.
    unfold hv. rewrite Ea. cbn. by rewrite Est. }
  split; [|done]. unfold Mids. change (nqs (setstack _ a [FTrecv t])) with (nqs s). unfold Mv. cbn [view v_ran v_acts]. f_equal. f_equal.
  - apply sumq_ext. intros q _. unfold pids; cbn. f_equal. apply Hpend.
  - rewrite acts_setstack. change (acts (updt s t _)) with (acts s). apply omap_alter_same.
    intros y Hy. rewrite (acts_lookup s a ac Ea) in Hy. injection Hy as <-. rewrite pre_id_set_ph. unfold pre_id. cbn. by rewrite Est.
Qed.

Lemma reap_ids PF ds s : NoDup ds -> (forall a, a ∈ ds -> dead_at s a) ->
  Mids (reap PF s ds).1 = Mids s /\ (reap PF s ds).1.(nextop) = s.(nextop) /\ (forall q, pend (reap PF s ds).1 q = pend s q).
Proof.
  intros Hnd Hd. split; [|split; [by destruct (reap_frame PF ds s) as (A & Th & ->)|]].
  - apply (reap_preserves_dead PF (fun s' => Mids s' = Mids s) ds); [|done..]. intros s0 a s1 <- Ha E. by apply (reap_one_ids PF s0 a s1).
  - apply (reap_preserves_dead PF (fun s' => forall q, pend s' q = pend s q) ds); [|done..].
    intros s0 a s1 H0 Ha E q. rewrite <- H0. by apply (reap_one_ids PF s0 a s1).
Qed.

Record FInv (ps : pstate) : Prop := { fi_s : SInv ps; fi_i : IdInv ps.(pb) }.

Section Full.
  Context (T : tables) (F : facts) (PF : pfacts) (HT : own_conditions T) (HI : imm_conditions T).

  Lemma pstep_ids ps a ps' : SInv ps -> pstep T F PF ps a = Some ps' ->
    exists fresh lost, fresh ++ Mids ps.(pb) ≡ₚ Mids ps'.(pb) ++ lost /\
      ((fresh = [] /\ ps'.(pb).(nextop) = ps.(pb).(nextop)) \/ (fresh = [ps.(pb).(nextop)] /\ ps'.(pb).(nextop) = S ps.(pb).(nextop))).
  Proof.
    intros [HP HD HS HW] Hs. pose proof HP as (HIv & Hd & Hnd).
    destruct (pstep_inv T F PF ps a ps' Hs) as [_ [ac _ _ _ Hs1 _|ac r _ _ Hs1 _|ac q0 o rest dies Ea Hp _ -> _]].
    - destruct (step_ids T F HT HI (pb ps) a _ HS HIv HW Hs1) as (fresh & lost & G1 & G2 & _). eauto.
    - pose proof (reap_inv PF (dead ps) (pb ps) HIv Hnd HD) as G1.
      destruct (reap_shape PF (dead ps) (pb ps) HS HW Hnd HD) as [G2 G3].
      destruct (reap_ids PF (dead ps) (pb ps) Hnd HD) as (G4 & G5 & _).
      destruct (step_ids T F HT HI _ a _ G2 G1 G3 Hs1) as (fresh & lost & K1 & K2 & _). exists fresh, lost. rewrite <- G4, <- G5. done.
    - destruct (panic_ids (pb ps) a ac q0 o rest dies HS HIv HW Ea Hp) as (G1 & G2 & _).
      exists [], [o]. split; [rewrite app_nil_l, G1; apply Permutation_cons_append|]. left. done.
  Qed.

  Theorem finv_step ps a ps' : FInv ps -> pstep T F PF ps a = Some ps' -> FInv ps'.
  Proof.
    intros [HSI HId] Hs. split; [by eapply (sinv_step T F PF HT)|].
    destruct (pstep_ids ps a ps' HSI Hs) as (fresh & lost & G1 & G2). by eapply idinv_move.
  Qed.
End Full.
