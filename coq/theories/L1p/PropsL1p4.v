(* C15 on the scheduler model, fourth part: exactly-once with panics (the id-placement invariant, L1p/IdAbs.v IdInv.v OnceP.v).

   Mids s: the operation ids that are somewhere: in [ran], in the pending jobs of a queue (the job in the owner's hand, then the stored
   jobs), or with a caller that has called and not yet pushed.  Ids are given out by the global counter nextop at the call.
   In every reachable state Mids has no duplicates and all its members are below nextop.  On L1 steps this goes through the abstract
   history machine of L1h (every rule moves an id, adds the fresh one, or drops one), which needs Shape and WF' on runs with panics
   (L1p/ShapeP.v); the panic step drops the id in the runner's hand; the reap moves nothing.
   The "never runs" theorems are corollaries: an issued id that is nowhere stays nowhere (sync / try_sync on a Panicked queue, the
   closure whose runner panics); the job desync has pushed stays among the pending jobs of the Panicked queue for ever, so it cannot
   also be in ran.  Hypotheses: own_conditions, imm_conditions (L1h), for the calls on a Panicked queue also ptab and ploud. *)
From stdpp Require Import list numbers option.
From L0 Require Import Types.
From Gen Require Import Tables.
From L1 Require Import Model Own Shape Stuck.
From L1h Require Import Abs Sim Inst.
From L1p Require Import Model OwnP Absorb MainP Loud DeadP RanP ShapeP IdAbs IdInv OnceP PropsL1p PropsL1p2.

Theorem C15p_id_placement_invariant : forall (T : tables) (F : facts) (PF : pfacts), own_conditions T -> imm_conditions T ->
  forall nq mx scripts tr ps, prun T F PF (pinit nq mx scripts) tr = Some ps ->
    NoDup (Mids ps.(pb)) /\ Forall (fun i => i < ps.(pb).(nextop)) (Mids ps.(pb)).
Proof. exact (fun T F PF HT HI nq mx scripts tr ps Hr => fi_i ps (preach_finv T F PF HT HI nq mx scripts tr ps Hr)). Qed.

Theorem C15p_exactly_once : forall (T : tables) (F : facts) (PF : pfacts), own_conditions T -> imm_conditions T ->
  forall nq mx scripts tr ps, prun T F PF (pinit nq mx scripts) tr = Some ps ->
    NoDup ps.(pb).(ran) /\ forall i, i ∈ ps.(pb).(ran) -> i < ps.(pb).(nextop).
Proof. exact exactly_once_p. Qed.

Theorem C15p_panicked_closure_never_runs_again : forall (T : tables) (F : facts) (PF : pfacts), own_conditions T -> imm_conditions T ->
  forall nq mx scripts tr0 ps0 a ac q o rest dies ps1 tr ps,
    prun T F PF (pinit nq mx scripts) tr0 = Some ps0 ->
    ps0.(pb).(actors) !! a = Some ac -> a ∉ ps0.(dead) -> pclos ac = Some (q, o, rest, dies) -> default false (ps0.(pan) !! o) = true ->
    pstep T F PF ps0 a = Some ps1 -> prun T F PF ps1 tr = Some ps -> o ∉ ps.(pb).(ran).
Proof. exact panicked_closure_never_runs. Qed.

Theorem C15p_call_on_panicked_queue_never_runs : forall (T : tables) (F : facts) (PF : pfacts),
  own_conditions T -> imm_conditions T -> ptab T -> ploud T ->
  forall nq mx scripts tr0 ps0 c ac o rest q qq ps1 tr ps,
    prun T F PF (pinit nq mx scripts) tr0 = Some ps0 ->
    ps0.(pb).(actors) !! c = Some ac -> c ∉ ps0.(dead) -> ac.(stack) = call_frame o :: rest -> op_q o = q ->
    ps0.(pb).(queues) !! q = Some qq -> qq.(qs) = Panicked ->
    pstep T F PF ps0 c = Some ps1 -> prun T F PF ps1 tr = Some ps -> ac.(opctr) ∉ ps.(pb).(ran).
Proof. exact call_on_panicked_never_runs. Qed.

Lemma clp_imm : imm_conditions gen_tables.
Proof. exact clh_imm. Qed.
Theorem C15p_exactly_once_now : forall (F : facts) (PF : pfacts) nq mx scripts tr ps,
  prun gen_tables F PF (pinit nq mx scripts) tr = Some ps -> NoDup ps.(pb).(ran) /\ forall i, i ∈ ps.(pb).(ran) -> i < ps.(pb).(nextop).
Proof. exact (fun F PF => C15p_exactly_once gen_tables F PF clp_own clp_imm). Qed.
Theorem C15p_call_on_panicked_queue_never_runs_now : forall (F : facts) (PF : pfacts) nq mx scripts tr0 ps0 c ac o rest q qq ps1 tr ps,
  prun gen_tables F PF (pinit nq mx scripts) tr0 = Some ps0 ->
  ps0.(pb).(actors) !! c = Some ac -> c ∉ ps0.(dead) -> ac.(stack) = call_frame o :: rest -> op_q o = q ->
  ps0.(pb).(queues) !! q = Some qq -> qq.(qs) = Panicked ->
  pstep gen_tables F PF ps0 c = Some ps1 -> prun gen_tables F PF ps1 tr = Some ps -> ac.(opctr) ∉ ps.(pb).(ran).
Proof. exact (fun F PF => C15p_call_on_panicked_queue_never_runs gen_tables F PF clp_own clp_imm clp_ptab clp_ploud). Qed.

Print Assumptions C15p_id_placement_invariant.
Print Assumptions C15p_exactly_once.
Print Assumptions C15p_panicked_closure_never_runs_again.
Print Assumptions C15p_call_on_panicked_queue_never_runs.
Print Assumptions C15p_exactly_once_now.
Print Assumptions C15p_call_on_panicked_queue_never_runs_now.
