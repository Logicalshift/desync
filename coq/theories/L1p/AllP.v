(* L1's liveness invariants for runs with panics: QInv and KInv hold of the masked state (Panicked queues replaced by idle, empty ones),
   PoolInv and JInv of the state itself. *)
From stdpp Require Import list numbers list_numbers option.
From RecordUpdate Require Import RecordUpdate.
From L1 Require Import Model Own Shape Stuck Live Wait Help Final Pool.
From L1p Require Import Model OwnP Absorb MaskP TouchP.

Definition Pof (s : state) (q : nat) : bool :=
  match s.(queues) !! q with Some qq => match qq.(qs) with Panicked => true | _ => false end | None => false end.
Definition mask (s : state) : state := maskP (Pof s) s.

Lemma Pof_true s q : Pof s q = true <-> panicked s q.
Proof.
  unfold Pof, panicked. split.
  - destruct (queues s !! q) as [qq|]; [|done]. destruct (qs qq) eqn:E; try done. eauto.
  - intros (qq & -> & ->). done.
Qed.
Lemma Pof_queues s1 s : s1.(queues) = s.(queues) -> Pof s1 = Pof s.
Proof. intros H. unfold Pof. by rewrite H. Qed.
Lemma maskP_ext P1 P2 s : (forall q, P1 q = P2 q) -> maskP P1 s = maskP P2 s.
Proof. intros H. unfold maskP. assert (E : mqs P1 (queues s) = mqs P2 (queues s)) by (unfold mqs; apply imap_ext; intros i x _; by rewrite H). by rewrite E. Qed.

Lemma Inv_mask s : Inv s -> Inv (mask s).
Proof.
  intros [I1 I2 I3]. split.
  - intros b q qq n Hc Hq. cbn in Hq. rewrite mqs_lookup in Hq. destruct (queues s !! q) as [qr|] eqn:E; [|done]. cbn in Hq. injection Hq as <-.
    destruct (Pof s q) eqn:HP.
    + cbn. rewrite decide_False by done. specialize (I1 b q qr n Hc E). rewrite I1. apply decide_False. intros Ho.
      assert (Hr : qs qr = Running) by (apply (I2 q qr E); by rewrite Ho). unfold Pof in HP. rewrite E, Hr in HP. done.
    + by apply (I1 b q qr n Hc E).
  - intros q qq Hq. cbn in Hq. rewrite mqs_lookup in Hq. destruct (queues s !! q) as [qr|] eqn:E; [|done]. cbn in Hq. injection Hq as <-.
    destruct (Pof s q); [|exact (I2 q qr E)]. cbn. split; [by intros [? ?]|done].
  - intros q qq b Hq Ho. cbn in Hq. rewrite mqs_lookup in Hq. destruct (queues s !! q) as [qr|] eqn:E; [|done]. cbn in Hq. injection Hq as <-.
    destruct (Pof s q); [done|]. by apply (I3 q qr b E).
Qed.

Record LInv (s : state) : Prop := { li_q : QInv (mask s); li_k : KInv (mask s) }.

Section LStep.
  Context (T : tables) (F : facts) (HK : core_tables T) (HT : own_conditions T) (HF : F.(f_dormant_blocks) = true) (HPT : ptab T).

  Lemma step_linv s a s' : Shape s -> Inv s -> PoolInv s -> 1 <= s.(maxt) -> LInv s -> step T F s a = Some s' -> LInv s'.
  Proof.
    intros HS HI HP Hm [HQ HKI] Hstep.
    assert (Hboth : QInv (maskP (Pof s) s') /\ KInv (maskP (Pof s) s')).
    { pose proof Hstep as Hstep0. unfold step in Hstep0.
      destruct (actors s !! a) as [ac|] eqn:Ea; cbn in Hstep0; [|congruence].
      destruct (stack ac) as [|fr rest] eqn:Est; [congruence|]. clear Hstep0.
      assert (Hsim : (forall q, touched fr = Some q -> Pof s q = false) -> QInv (maskP (Pof s) s') /\ KInv (maskP (Pof s) s')).
      { intros Hto. assert (Hs : step T F (mask s) a = Some (maskP (Pof s) s')).
        { eapply (step_mask T F (Pof s) s a s' ac fr rest Ea Est Hto); [|apply (k_next_i _ HK)|exact Hstep].
          intros q qq Hp Hq. unfold Pof in Hp. rewrite Hq in Hp. destruct (qs qq); try done. apply (pt_next _ HPT). }
        split.
        - eapply step_q with (s := mask s) (a := a); try eassumption; first [by apply Shape_mask|by apply Inv_mask].
        - eapply step_k with (s := mask s) (a := a); try eassumption; first [by apply Shape_mask|by apply Inv_mask|exact HP|exact Hm]. }
      destruct (touched fr) as [q0|] eqn:Ht; [|by apply Hsim].
      destruct (Pof s q0) eqn:HP0; [|apply Hsim; by intros q [= <-]].
      pose proof HP0 as HP1. unfold Pof in HP1. destruct (queues s !! q0) as [qq0|] eqn:Hq0; [|done].
      assert (Hpan : qs qq0 = Panicked) by (by destruct (qs qq0)).
      by eapply (step_touch T F (Pof s) HT HPT s a s' ac fr rest q0 qq0). }
    destruct Hboth as [HQ' HK'].
    assert (Hext : forall q, Pof s q = Pof s' q).
    { intros q. destruct (Pof s q) eqn:E1.
      - symmetry. apply Pof_true. eapply step_keeps_panicked; eauto. by apply Pof_true.
      - destruct (Pof s' q) eqn:E2; [|done]. exfalso. unfold Pof in E2. destruct (queues s' !! q) as [qq'|] eqn:Hq'; [|done].
        assert (Hl : queues (maskP (Pof s) s') !! q = Some qq') by (by rewrite mask_lookup_out).
        destruct (qc_core _ _ _ (HQ' q qq' Hl)) as [Hc|[Hc|Hc]]; rewrite Hc in E2; done. }
    split; unfold mask; rewrite <- (maskP_ext (Pof s) (Pof s') s' Hext); done.
  Qed.
End LStep.
