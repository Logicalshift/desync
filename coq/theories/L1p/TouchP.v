(* A step of the L1 model that reads or writes a Panicked queue leaves the liveness invariants of the masked state intact:
   on the masked state it is a step that changes no queue. *)
From stdpp Require Import list numbers list_numbers option.
From RecordUpdate Require Import RecordUpdate.
From L1 Require Import Model Own Shape Stuck Live Wait Help Final Pool.
From L1p Require Import Model OwnP Absorb MaskP.

Lemma mask_updq_in P s q f : P q = true -> maskP P (updq s q f) = maskP P s.
Proof. intros H. unfold maskP, updq. cbn -[mqs]. by rewrite mqs_alter_in. Qed.
Lemma mask_sched P s l : maskP P (s <| sched := l |>) = (maskP P s) <| sched := l |>.
Proof. done. Qed.

(* the frames at which a step reads a queue it does not own: the entry of a call, the registration and the claim of a waiting sync,
   reschedule_queue *)
Definition entry_frame (fr : frame) : bool :=
  match fr with FD1 _ | FS1 _ | FTS1 _ | FSBreg _ | FSBpush _ | FSBclaim _ | FSBdone _ | FRQ1 _ => true | _ => false end.

(* a Panicked queue is not Running, so nobody has an owner's frame of it: it is touched at an entry frame, by a caller *)
Lemma touch_entry s a ac fr rest q0 qq0 : Shape s -> Inv s -> s.(actors) !! a = Some ac -> ac.(stack) = fr :: rest ->
  touched fr = Some q0 -> s.(queues) !! q0 = Some qq0 -> qq0.(qs) = Panicked -> entry_frame fr = true /\ a < ncallers s.
Proof.
  intros HS HI Ea Est Ht Hq0 Hpan.
  assert (Hno : cnt q0 (fr :: rest) = 0).
  { destruct (cnt q0 (fr :: rest)) as [|n] eqn:Hc; [done|].
    destruct (runner_owns s a q0 qq0 n HI) as [_ Hr]; [by rewrite (stack_cnt_self s a ac q0 Ea), Est, Hc|done|congruence]. }
  pose proof (shape_top s a ac fr rest HS Ea Est) as Hsh.
  destruct fr; try discriminate Ht; cbn in Ht; injection Ht as ->; shape_inv Hsh; try done;
    cbn in Hno; rewrite ?bool_decide_eq_true_2 in Hno by done; discriminate Hno.
Qed.

(* what a liveness invariant reads stays as it is when a caller at an entry frame of q0 replaces its stack, if q0 is idle and empty *)
Lemma touch_close sM X a ac fr rest st q0 : QInv sM -> KInv sM -> sM.(actors) !! a = Some ac -> ac.(stack) = fr :: rest ->
  a < ncallers sM -> entry_frame fr = true -> touched fr = Some q0 -> (forall qq, sM.(queues) !! q0 = Some qq -> qs qq = Idle /\ jobs qq = []) ->
  stacks X = <[a := st]> (stacks sM) -> X.(queues) = sM.(queues) -> X.(sched) = sM.(sched) -> X.(threads) = sM.(threads) ->
  QInv X /\ KInv X.
Proof.
  intros HQ HK Ea Est Hlt Hen Ht Hidle Hst Hq Hsc Hth.
  assert (Hn : ncallers X = ncallers sM).
  { unfold ncallers. rewrite Hth. f_equal. apply (f_equal length) in Hst. unfold stacks in Hst. by rewrite insert_length, !fmap_length in Hst. }
  split.
  - eapply (QInv_update sM X a ac q0 id st HQ Ea Hst).
    + intros q'. rewrite Hq. case_decide; [by destruct (queues sM !! q')|done].
    + intros q' _. by rewrite Hsc.
    + intros f Hh Hf. rewrite Est in Hh. injection Hh as <-. destruct fr; try discriminate. injection Ht as ->. eauto.
    + intros qq Hqq _. destruct (Hidle qq Hqq) as [M1 M2]. split; cbn; [by left|by rewrite M1|by rewrite M2].
  - eapply (K_update sM X a ac st HK Ea Hst); [by rewrite Hth| | |].
    + intros (q & qq & H1 & H2 & H3). exists q, qq. by rewrite <- Hsc, <- Hq.
    + intros _. apply (live_mono_caller sM X a ac st Ea Hlt Hst Hn). intros t th Ht'. exists th. by rewrite Hth.
    + intros Hh. rewrite Est in Hh. by destruct fr.
Qed.

Section Touch.
  Context (T : tables) (F : facts) (P : nat -> bool) (HT : own_conditions T) (HPT : ptab T).

  Lemma sync_panicked e st' act : T.(t_sync) Panicked e = (st', act) -> act <> SAImmediate /\ act <> SADrain.
  Proof.
    intros E. pose proof (c_sync T HT _ _ _ _ E) as X. pose proof (pt_sync T HPT e) as Y. rewrite E in Y. cbn in Y.
    split; intros ->; destruct X; congruence.
  Qed.
  Lemma trysync_panicked e st' act : T.(t_trysync) Panicked e = (st', act) -> act <> TAImmediate.
  Proof.
    intros E. pose proof (c_try T HT _ _ _ _ E) as X. pose proof (pt_try T HPT e) as Y. rewrite E in Y. cbn in Y.
    intros ->. destruct X. congruence.
  Qed.

  (* reschedule_queue notifies the waiters first: the invariants of the masked state survive that, the caller keeps its stack *)
  Lemma resched_touch s a ac rest q0 ws f st : Shape s -> QInv (maskP P s) -> KInv (maskP P s) ->
    s.(actors) !! a = Some ac -> ac.(stack) = FRQ1 q0 :: rest -> a < ncallers s -> P q0 = true ->
    (forall qq, queues (maskP P s) !! q0 = Some qq -> qs qq = Idle /\ jobs qq = []) ->
    let X := maskP P (setstack (updq (foldl (notify F) s ws) q0 f) a st) in QInv X /\ KInv X.
  Proof.
    intros HS HQ HK Ea Est Hlt HP0 Hmq X. subst X. rewrite mask_setstack, mask_updq_in, mask_foldl_notify by done.
    destruct (foldl_notify_self F ws (maskP P s) a ac Ea) as (ac1 & Ea1 & Est1); [by rewrite Est|]. rewrite Est in Est1.
    destruct (foldl_notify_frame F ws (maskP P s)) as (A & Hfr).
    eapply (touch_close (foldl (notify F) (maskP P s) ws) _ a ac1 _ rest st q0); try done.
    - by apply QInv_foldl_notify.
    - apply KInv_foldl_notify; [by apply Shape_mask|done].
    - unfold ncallers in *. by rewrite foldl_notify_len, Hfr.
    - by rewrite Hfr.
    - ob_stacks.
  Qed.

  Lemma step_touch s a s' ac fr rest q0 qq0 : Shape s -> Inv s -> s.(actors) !! a = Some ac -> ac.(stack) = fr :: rest ->
    touched fr = Some q0 -> P q0 = true -> s.(queues) !! q0 = Some qq0 -> qq0.(qs) = Panicked ->
    QInv (maskP P s) -> KInv (maskP P s) -> step T F s a = Some s' -> QInv (maskP P s') /\ KInv (maskP P s').
  Proof.
    intros HS HI Ea Est Ht HP0 Hq0 Hpan HQ HKI (ac' & fr' & rest' & m & new & Ea' & Est' & He & ->)%step_eff.
    rewrite Ea in Ea'. injection Ea' as <-. rewrite Est in Est'. injection Est' as <- <-.
    destruct (touch_entry s a ac fr rest q0 qq0 HS HI Ea Est Ht Hq0 Hpan) as [Hen Hlt].
    assert (Hmq : forall qq, queues (maskP P s) !! q0 = Some qq -> qs qq = Idle /\ jobs qq = [])
      by (intros qq Hqq; cbn in Hqq; rewrite mqs_lookup, HP0, Hq0 in Hqq; by injection Hqq as <-).
    destruct He; try discriminate Hen; cbn in Ht; injection Ht as ->.
    (* Eq, Etab: the lookup of q0 and the table entry for Panicked *)
    all: try (rewrite Hq0 in Eq; injection Eq as <-; rewrite Hpan in * ).
    all: lazymatch goal with
      | Etab : t_sync _ _ _ = (_, SAImmediate) |- _ => by destruct (sync_panicked _ _ _ Etab)
      | Etab : t_sync _ _ _ = (_, SADrain) |- _ => by destruct (sync_panicked _ _ _ Etab)
      | Etab : t_trysync _ _ _ = (_, TAImmediate) |- _ => by destruct (trysync_panicked _ _ _ Etab)
      | Etab : t_claim _ _ = Some _ |- _ => by rewrite (pt_claim T HPT) in Etab
      | Hidle : Panicked = Idle |- _ => discriminate Hidle
      | |- context [foldl (notify _) _ _] => exact (resched_touch s a ac rest q0 _ _ _ HS HQ HKI Ea Est Hlt HP0 Hmq)
      | _ => (* on the masked state only the caller's stack (and its kicked flag) changes *)
          rewrite mask_setstack, ?mask_upda, ?mask_updq_in by done;
          eapply (touch_close (maskP P s) _ a ac _ rest _ q0 HQ HKI Ea Est Hlt Hen eq_refl Hmq); [ob_stacks|done..]
      end.
  Qed.
End Touch.
