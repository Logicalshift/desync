(* L1p: states of the panic model in which no actor can move: the dead pool threads sit at [FTlock t] for ever, everybody else is
   stuck as in L1 and no queue is being run.  The next scheduling call reaps every dead thread (f_reap_ignores_busy = true) and
   re-initialises its slot. *)
From stdpp Require Import list numbers list_numbers option.
From RecordUpdate Require Import RecordUpdate.
From L1 Require Import Model Own Shape Stuck Live Wait Help Final Pool.
From L1h Require Import WeakWF.
From L1p Require Import Model StepP OwnP Absorb MainP Loud DeadP RanP ShapeP.

Lemma drop_job_wf s j : WF s -> WF (drop_job s j).
Proof. apply drop_job_closed; [intros s0 c; by apply WF_kick|apply WF_wake]. Qed.

Section WFP.
  Context (T : tables) (F : facts) (PF : pfacts).

  Lemma panic_wf s a ac q o rest dies g : WF s -> s.(actors) !! a = Some ac -> pclos ac = Some (q, o, rest, dies) ->
    WF (setstack (updq (drop_job s (top_job ac)) q g) a rest).
  Proof.
    intros HW Ea Hp.
    destruct (drop_job_self s (top_job ac) a ac q o rest dies Ea Hp) as (ac1 & Ea1 & Est1 & _).
    set (s2 := updq (drop_job s (top_job ac)) q g).
    assert (HW2 : WF s2) by (eapply (WF_view s2 (drop_job s (top_job ac))); [done|unfold s2, updq; cbn; by rewrite alter_length|by apply drop_job_wf]).
    eapply (WF_update s2 _ a rest HW2); [apply stacks_setstack|done|].
    pose proof (WF_self s2 a ac1 HW2 Ea1) as Hw. rewrite Est1 in Hw.
    destruct (pclos_stack ac q o rest dies Hp) as [(E & _)|[(j & g0 & E & _)|(j & t0 & E & -> & _)]]; rewrite E in Hw; cbn in Hw.
    - by apply andb_true_iff in Hw as [_ Hw].
    - apply andb_true_iff in Hw as [_ Hw]. by apply andb_true_iff in Hw as [_ Hw].
    - by apply andb_true_iff in Hw as [_ Hw].
  Qed.

  Lemma reap_wf ds s : WF s -> WF (reap PF s ds).1.
  Proof.
    apply reap_preserves. intros s0 a s1 _ HW (t & th & _ & _ & ->)%reap_one_form.
    eapply (WF_update s0 _ a [FTrecv t] HW); [by rewrite stacks_setstack|done|done].
  Qed.

  Lemma wf_step ps a ps' : WF ps.(pb) -> pstep T F PF ps a = Some ps' -> WF ps'.(pb).
  Proof.
    intros HW Hs. destruct (pstep_inv T F PF ps a ps' Hs) as [_ [ac _ _ _ Hs1 _|ac r _ _ Hs1 _|ac q0 o rest dies Ea Hp _ -> _]].
    - by eapply step_wf.
    - eapply step_wf; [|done]. by apply reap_wf.
    - by eapply panic_wf.
  Qed.

  Lemma wf_run tr : forall ps ps', WF ps.(pb) -> prun T F PF ps tr = Some ps' -> WF ps'.(pb).
  Proof. apply (prun_ind T F PF (fun x => WF x.(pb))), wf_step. Qed.
End WFP.

Section TerminalP.
  Context (T : tables) (F : facts) (PF : pfacts).

  (* the dead hold no lock ([FTlock t] is before the thread takes its busy lock), so the analysis of L1/Stuck.v applies to the others *)
  Theorem pterminal_stuck ps : SInv ps -> WF ps.(pb) -> pterminal T F PF ps ->
    (forall a ac, ps.(pb).(actors) !! a = Some ac -> a ∉ ps.(dead) -> stuck_ok ps.(pb) ac.(stack)) /\
    (forall q qq, ps.(pb).(queues) !! q = Some qq -> qq.(qs) <> Running).
  Proof.
    intros [(HIv & _ & _) HD HS HW'] HW Hterm.
    assert (HB : held_at (fun fr => exists t, fr = FTlock t) (pb ps) (dead ps)).
    { intros a Ha. destruct (HD a Ha) as (ac & t & Ea & Est). exists ac, (FTlock t), []. eauto. }
    assert (Hstuck : forall a ac, actors (pb ps) !! a = Some ac -> a ∉ dead ps -> stuck_ok (pb ps) (stack ac)).
    { apply (stuck_frames_at T F (dead ps) (fun fr => exists t, fr = FTlock t)); [by intros fr [t ->]|done..|]. intros a Ha. by apply (pstep_none T F PF). }
    split; [exact Hstuck|].
    intros q qq Hq Hr. destruct (running_owner _ q qq HIv Hq Hr) as (b & ab & _ & Eb & H1).
    destruct (decide (b ∈ dead ps)) as [Hin|Hn].
    - destruct (HD b Hin) as (ab' & t & Eb' & Est). rewrite Eb in Eb'. injection Eb' as <-. by rewrite Est in H1.
    - by rewrite (stuck_cnt0 _ b ab q HS Eb (Hstuck b ab Eb Hn)) in H1.
  Qed.
End TerminalP.

(* every reaped slot is a fresh dormant thread *)
Definition fresh_slot (s : state) (b : nat) : Prop :=
  exists t th acb, s.(threads) !! t = Some th /\ th.(tactor) = b /\ th.(busy) = false /\ th.(held) = false /\ th.(chan) = 0 /\
                   s.(actors) !! b = Some acb /\ acb.(stack) = [FTrecv t].

Lemma reap_keeps_fresh PF r s x : x ∉ r -> fresh_slot s x -> fresh_slot (reap PF s r).1 x.
Proof.
  intros Hx. apply (reap_preserves PF (fun s' => fresh_slot s' x)). intros s0 a s1 Ha (t0 & th0 & acb & F1 & F2 & F3 & F4 & F5 & F6 & F7) (t & th & Et & Hta & ->)%reap_one_form.
  assert (Hxa : a <> x) by (by intros ->).
  assert (Hne : t <> t0) by (intros ->; rewrite Et in F1; injection F1 as ->; congruence).
  exists t0, th0, acb. rewrite threads_setstack, threads_updt_lookup, decide_False by done. split; [done|]. repeat (split; [done|]).
  by rewrite actors_setstack_lookup, decide_False by done.
Qed.

Section Reaps.
  Context (T : tables) (F : facts) (PF : pfacts) (HPF : PF.(f_reap_ignores_busy) = true).

  (* the thread of a dead actor is found, whatever its busy flag says *)
  Lemma reap_one_fresh s a : Shape s -> dead_at s a -> exists s1, reap_one PF s a = Some s1 /\ fresh_slot s1 a.
  Proof.
    intros HS (ac & t0 & Ea & Est).
    destruct (kind_of s a ac HS Ea) as [[_ Hok]|(t & -> & Hok)]; rewrite Est in Hok; [done|].
    assert (Ht : t < length (threads s)) by (apply lookup_lt_Some in Ea; unfold ncallers in *; lia).
    destruct (lookup_lt_is_Some_2 _ _ Ht) as [th Eth]. pose proof (sh_tactor s HS t th Eth) as Hta.
    unfold reap_one, pool_thread_of.
    destruct (list_find (fun th0 => tactor th0 = ncallers s + t) (threads s)) as [[t1 th1]|] eqn:Ef.
    - apply list_find_Some in Ef as (E1 & E2 & _). assert (t1 = t) as -> by (rewrite (sh_tactor s HS t1 th1 E1) in E2; lia).
      cbn. rewrite Eth. cbn. rewrite HPF. cbn. eexists. split; [reflexivity|].
      exists t, (th <| busy := false |> <| held := false |> <| chan := 0 |>), (ac <| stack := [FTrecv t] |>).
      split; [rewrite threads_setstack, threads_updt_lookup, decide_True by done; by rewrite Eth|]. repeat (split; [done|]).
      split; [rewrite actors_setstack_lookup, decide_True by done; change (actors (updt s t _)) with (actors s); by rewrite Ea|done].
    - exfalso. apply list_find_None in Ef. rewrite list.Forall_forall in Ef. by apply (Ef th (elem_of_list_lookup_2 _ _ _ Eth)).
  Qed.

  Lemma reap_all_fresh ds : forall s, Shape s -> WF' s -> NoDup ds -> (forall a, a ∈ ds -> dead_at s a) ->
    (reap PF s ds).2 = [] /\ forall b, b ∈ ds -> fresh_slot (reap PF s ds).1 b.
  Proof.
    induction ds as [|a r IH]; intros s HS HW Hnd Hd; [split; [done|]; by intros b Hb%elem_of_nil|].
    rewrite reap_cons. apply list.NoDup_cons in Hnd as [Har Hnd].
    destruct (reap_one_fresh s a HS) as (s1 & E & Hf); [apply Hd; by left|]. rewrite E.
    destruct (reap_one_shape PF s a s1 (conj HS HW)) as [HS1 HW1]; [apply Hd; by left|done|].
    destruct (IH s1 HS1 HW1 Hnd) as [G1 G2].
    { intros b Hb. unfold dead_at. rewrite (reap_one_actors PF s a s1 b E) by (intros ->; done). apply Hd. by right. }
    split; [done|]. intros b [->|Hb]%elem_of_cons; [by apply reap_keeps_fresh|by apply G2].
  Qed.

  (* the first step of a scheduling call (remove_finished_threads, then the threads lock of the dormant scan): no dead thread is left,
     every slot of a dead thread is a fresh dormant thread *)
  Theorem scheduling_call_restores_capacity ps a ac rest ps' : SInv ps -> ps.(pb).(actors) !! a = Some ac -> ac.(stack) = FSTlock :: rest ->
    pstep T F PF ps a = Some ps' -> ps'.(dead) = [] /\ forall b, b ∈ ps.(dead) -> fresh_slot ps'.(pb) b.
  Proof.
    intros [(_ & _ & Hnd) HD HS HW'] Ea Est Hs.
    destruct (reap_all_fresh (dead ps) (pb ps) HS HW' Hnd HD) as [Hall Hfresh].
    destruct (pstep_inv T F PF ps a ps' Hs) as [Hdead _]. destruct (pstep_inv_reap T F PF ps a ps' ac rest Ea Est Hs) as [Hs1 ->].
    split; [done|]. pose proof (reap_other PF (dead ps) (pb ps) a Hdead) as Hro.
    rewrite Ea in Hro. rewrite (step_lock T F _ a ac rest Hro Est) in Hs1.
    destruct (free (threads_held _)); [|done]. injection Hs1 as <-.
    intros b Hb. assert (Hba : a <> b) by (intros ->; done).
    destruct (Hfresh b Hb) as (t & th & acb & F1 & F2 & F3 & F4 & F5 & F6 & F7).
    exists t, th, acb. split; [done|]. repeat (split; [done|]). cbn. by rewrite list_lookup_alter_ne.
  Qed.
End Reaps.

(* refuting "every healthy queue ends Idle and empty" from one computed run *)
Lemma pterminal_b_sound T F PF ps : pterminal_b T F PF ps = true -> pterminal T F PF ps.
Proof.
  unfold pterminal_b. rewrite forallb_forall. intros H a.
  destruct (decide (a < length (actors (pb ps)))) as [Hlt|Hge].
  - specialize (H a). rewrite <- elem_of_list_In, elem_of_seq in H. specialize (H ltac:(lia)). by destruct (pstep T F PF ps a).
  - destruct (pstep T F PF ps a) as [ps'|] eqn:E; [|done]. by apply pstep_actor in E.
Qed.

Lemma stranded_refutes T F PF nq mx scripts tr : 1 <= mx ->
  (exists ps, prun T F PF (pinit nq mx scripts) tr = Some ps /\ pterminal_b T F PF ps = true /\
     exists q, (qs <$> ps.(pb).(queues)) !! q = Some Pending) ->
  ~ (forall nq mx scripts tr ps, 1 <= mx -> prun T F PF (pinit nq mx scripts) tr = Some ps -> pterminal T F PF ps ->
       forall q qq, ps.(pb).(queues) !! q = Some qq -> qq.(qs) <> Panicked -> qq.(qs) = Idle /\ qq.(jobs) = []).
Proof.
  intros Hmx (ps & Hr & Ht & q & Hq) H.
  specialize (H nq mx scripts tr ps Hmx Hr (pterminal_b_sound _ _ _ _ Ht)). clear Hr Ht.
  rewrite list_lookup_fmap in Hq. destruct (queues (pb ps) !! q) as [qq|] eqn:E; [|discriminate Hq]. cbn in Hq. injection Hq as Hq.
  destruct (H q qq E) as [Hi _]; [rewrite Hq; discriminate|]. rewrite Hq in Hi. discriminate Hi.
Qed.
