(* L1p: a Panicked queue stays Panicked under every step of the L1 model (tables that map Panicked to Panicked; exclusive ownership:
   the plain assignments `state = Idle` are executed by the owner of a Running queue only) *)
From stdpp Require Import list numbers option.
From RecordUpdate Require Import RecordUpdate.
From L1 Require Import Model Own Shape Stuck.
From L1p Require Import Model StepP.

Record ptab (T : tables) : Prop := {
  pt_desync : fst (T.(t_desync) Panicked) = Panicked;
  pt_sync : forall e, fst (T.(t_sync) Panicked e) = Panicked;
  pt_try : forall e, fst (T.(t_trysync) Panicked e) = Panicked;
  pt_resched : forall ne, fst (T.(t_resched) Panicked ne) = Panicked;
  pt_next : T.(t_next) Panicked = None;
  pt_claim : T.(t_claim) Panicked = None;
  pt_fin : forall e, fst (T.(t_drain_fin) Panicked e) = Panicked;
}.

Definition panicked (s : state) (q : nat) : Prop := exists qq, s.(queues) !! q = Some qq /\ qq.(qs) = Panicked.

Lemma panicked_view s1 s q : s1.(queues) = s.(queues) -> panicked s q -> panicked s1 q.
Proof. unfold panicked. by intros ->. Qed.
Lemma panicked_updq s q0 f q : panicked s q -> (forall qq, s.(queues) !! q = Some qq -> q0 = q -> qs qq = Panicked -> qs (f qq) = Panicked) ->
  panicked (updq s q0 f) q.
Proof.
  intros (qq & Hq & Hp) Hf. unfold panicked. rewrite queues_updq. case_decide as E; [subst q0|by exists qq].
  rewrite Hq. cbn. exists (f qq). split; [done|]. by apply Hf.
Qed.

Section Absorb.
  Context (T : tables) (F : facts) (HP : ptab T).

  Lemma step_keeps_panicked s a s' q : Inv s -> step T F s a = Some s' -> panicked s q -> panicked s' q.
  Proof.
    intros HI (ac & fr & rest & m & new & Ea & Est & He & ->)%step_eff (qq & Hq & Hp).
    destruct (proj1 (eff_others T F s a ac fr m new He) q qq Hq) as (qq' & Hq' & Hst). exists qq'. split; [done|].
    rewrite Hp in Hst. destruct Hst as [?|[Htab|[Hown _]]]; [done| |].
    - (* the tables keep Panicked *)
      destruct Htab as [->|[[e ->]|[[e ->]|[[ne ->]|[Hn|[Hc|[e ->]]]]]]];
        [apply (pt_desync T HP)|apply (pt_sync T HP)|apply (pt_try T HP)|apply (pt_resched T HP)| | |apply (pt_fin T HP)].
      + by rewrite (pt_next T HP) in Hn.
      + by rewrite (pt_claim T HP) in Hc.
    - (* the plain assignments `state = Idle` are made by the owner: q would be Running *)
      destruct (runner_owns s a q qq (cnt q rest) HI) as [_ Hr]; [|done|congruence].
      by rewrite (stack_cnt_self s a ac q Ea), Est; cbn; rewrite Hown.
  Qed.
End Absorb.
