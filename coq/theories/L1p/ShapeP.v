(* L1p: the stack shapes (Shape) and the existence of the queues the frames mention (WF') survive the panic step and the reap *)
From stdpp Require Import list numbers option.
From RecordUpdate Require Import RecordUpdate.
From L1 Require Import Model Own Shape Stuck.
From L1h Require Import WeakWF.
From L1p Require Import Model StepP DeadP OwnP Absorb MainP.

Lemma drop_job_shape s j : Shape s -> Shape (drop_job s j).
Proof. apply drop_job_closed; [intros s0 c; by apply Shape_kick|apply Shape_wake]. Qed.
Lemma drop_job_wf' s j : WF' s -> WF' (drop_job s j).
Proof. apply drop_job_closed; [intros s0 c; by apply WF'_kick|apply WF'_wake]. Qed.
Lemma drop_job_len s j : length (drop_job s j).(queues) = length s.(queues).
Proof. by rewrite drop_job_queues. Qed.

Section ShapeP.
  Context (T : tables) (F : facts) (PF : pfacts).

  Lemma panic_shape s a ac q o rest dies g :
    Shape s -> WF' s -> s.(actors) !! a = Some ac -> pclos ac = Some (q, o, rest, dies) ->
    Shape (setstack (updq (drop_job s (top_job ac)) q g) a rest) /\ WF' (setstack (updq (drop_job s (top_job ac)) q g) a rest).
  Proof.
    intros HS HW Ea Hp.
    destruct (drop_job_self s (top_job ac) a ac q o rest dies Ea Hp) as (ac1 & Ea1 & _ & _ & Hp1).
    set (s2 := updq (drop_job s (top_job ac)) q g).
    assert (HS2 : Shape s2) by (eapply (Shape_view s2 (drop_job s (top_job ac))); try done; by apply drop_job_shape).
    assert (HW2 : WF' s2) by (eapply (WF'_view s2 (drop_job s (top_job ac))); [done|unfold s2, updq; cbn; by rewrite alter_length|by apply drop_job_wf']).
    assert (Ea2 : actors s2 !! a = Some ac1) by done.
    pose proof (pclos_shape s2 a ac1 q o rest dies HS2 Ea2 Hp1) as Hc.
    split.
    - eapply (Shape_update s2 _ a ac1 rest HS2 Ea2); [apply stacks_setstack|done|..].
      + intros t th' Ht. exists th'. split; [done|]. split; [done|]. case_decide as Hat; [|done]. subst a. rewrite (sh_held s2 HS2 t th' ac1 Ht Ea2).
        destruct Hc as [os Est Hlt|j g0 os Est Hg Hlt|j t0 Est Hat]; [lia|lia|by rewrite Est].
      + intros Hlt. destruct Hc as [os Est _|j g0 os Est Hg _|j t0 Est Hat]; [done|done|lia].
      + intros t1 Hat1. destruct Hc as [os Est Hlt|j g0 os Est Hg Hlt|j t0 Est Hat]; [lia|lia|]. cbn. apply bool_decide_eq_true. lia.
      + by destruct Hc as [os -> _|j g0 os -> _ _|j t0 -> _].
      + by destruct Hc.
      + by destruct Hc as [os -> _|j g0 os -> _ _|j t0 -> _].
      + by destruct Hc.
    - eapply (WF'_update s2 _ a rest HW2); [apply stacks_setstack|done|].
      pose proof (WF'_self s2 a ac1 HW2 Ea2) as Hw.
      destruct Hc as [os Est _|j g0 os Est _ _|j t0 Est _]; rewrite Est in Hw; cbn in Hw.
      + by apply andb_true_iff in Hw as [_ Hw].
      + apply andb_true_iff in Hw as [_ Hw]. by apply andb_true_iff in Hw as [_ Hw].
      + by apply andb_true_iff in Hw as [_ Hw].
  Qed.

  Lemma reap_one_shape s a s1 : Shape s /\ WF' s -> dead_at s a -> reap_one PF s a = Some s1 -> Shape s1 /\ WF' s1.
  Proof.
    intros [HS HW] (ac & t0 & Ea & Est) (t & th & Et & Hta & ->)%reap_one_form.
    pose proof HS as [L Ta Ca Po He Sh Th].
    assert (Hat : a = ncallers s + t) by (rewrite <- Hta; by apply Ta).
    split.
    - eapply (Shape_update s _ a ac [FTrecv t] HS Ea).
      + by rewrite stacks_setstack.
      + rewrite threads_setstack. apply length_threads_updt.
      + intros t' th' Ht'. rewrite threads_setstack, threads_updt_lookup in Ht'. case_decide as Htt.
        * subst t'. rewrite Et in Ht'. cbn in Ht'. injection Ht' as <-. exists th. split; [done|]. split; [done|]. cbn. by rewrite decide_True.
        * exists th'. split; [done|]. split; [done|]. rewrite decide_False; [done|]. intros E. apply Htt. lia.
      + intros Hlt. lia.
      + intros t1 E. assert (t1 = t) as -> by lia. cbn. by rewrite bool_decide_eq_true_2.
      + cbn. by rewrite Est.
      + done.
      + cbn. by rewrite Est.
      + done.
    - eapply (WF'_update s _ a [FTrecv t] HW); [by rewrite stacks_setstack|done|done].
  Qed.

  Lemma reap_shape ds s : Shape s -> WF' s -> NoDup ds -> (forall a, a ∈ ds -> dead_at s a) -> Shape (reap PF s ds).1 /\ WF' (reap PF s ds).1.
  Proof. intros HS HW Hnd Hd. by apply (reap_preserves_dead PF (fun s => Shape s /\ WF' s) ds reap_one_shape). Qed.

  Context (HT : own_conditions T).

  Record SInv (ps : pstate) : Prop := { si_p : PInv' ps; si_d : dead_lock ps; si_s : Shape ps.(pb); si_w : WF' ps.(pb) }.

  Lemma pinit_sinv nq mx scripts : SInv (pinit nq mx scripts).
  Proof. split; [apply oinv_pinv, pinit_inv|intros a Ha; by apply elem_of_nil in Ha|apply init_shape|apply init_wf']. Qed.

  Lemma sinv_oinv ps : SInv ps -> OInv ps.
  Proof. intros [(HI & _ & Hnd) HD _ _]. by split. Qed.

  Lemma sinv_step ps a ps' : SInv ps -> pstep T F PF ps a = Some ps' -> SInv ps'.
  Proof.
    intros HSI Hs. pose proof (oinv_step T F PF HT ps a ps' (sinv_oinv ps HSI) Hs) as HO. destruct HSI as [(_ & _ & Hnd) HD HS HW].
    assert (H : Shape ps'.(pb) /\ WF' ps'.(pb)).
    { destruct (pstep_inv T F PF ps a ps' Hs) as [_ [ac _ _ _ Hs1 _|ac r _ _ Hs1 _|ac q0 o rest dies Ea Hp _ -> _]].
      - split; [by eapply step_shape|by eapply step_wf'].
      - destruct (reap_shape (dead ps) (pb ps) HS HW Hnd HD) as [G1 G2]. split; [by eapply step_shape|by eapply step_wf'].
      - by eapply panic_shape. }
    destruct H. split; [by apply oinv_pinv|by destruct HO as (_ & ? & _)|done|done].
  Qed.

  Lemma prun_sinv tr : forall ps ps', SInv ps -> prun T F PF ps tr = Some ps' -> SInv ps'.
  Proof. apply prun_ind, sinv_step. Qed.
  Theorem preach_sinv nq mx scripts tr ps : prun T F PF (pinit nq mx scripts) tr = Some ps -> SInv ps.
  Proof. apply prun_sinv, pinit_sinv. Qed.
End ShapeP.
