(* A fresh dormant slot (QuietP.fresh_slot: what the reap leaves in place of a dead pool thread) stays a fresh dormant slot until the
   scan of a scheduling call reaches it; that scan step wakes it: marks it busy and sends it its one wake-up message. *)
From stdpp Require Import list numbers list_numbers option.
From RecordUpdate Require Import RecordUpdate.
From L1 Require Import Model Own Shape Stuck Live Wait Help Final Pool.
From L1h Require Import WeakWF.
From L1p Require Import Model StepP OwnP Absorb MainP Loud DeadP RanP ShapeP QuietP.

Lemma tframe_owner s a ac fr rest t : Shape s -> s.(actors) !! a = Some ac -> ac.(stack) = fr :: rest -> tframe fr = Some t -> a = ncallers s + t.
Proof.
  intros HS Ea Est Hf. destruct (kind_of _ a ac HS Ea) as [[_ Hok]|(t1 & -> & Hok)]; rewrite Est in Hok.
  - exfalso. destruct fr; try discriminate Hf. all: destruct rest as [|g [|h [|? ?]]]; cbn in Hok; rewrite ?andb_false_r in Hok; discriminate Hok.
  - destruct fr; try discriminate Hf. all: cbn in Hf; injection Hf as ->. all: destruct rest as [|g rest]; cbn in Hok; [by case_bool_decide; subst|discriminate Hok].
Qed.

Definition woken (s s' : state) (a t b : nat) : Prop :=
  (exists ac rest, s.(actors) !! a = Some ac /\ ac.(stack) = FSTscan t :: rest) /\
  exists th', s'.(threads) !! t = Some th' /\ th'.(tactor) = b /\ th'.(busy) = true /\ th'.(chan) = 1.

Section Fresh.
  Context (T : tables) (F : facts).

  Lemma step_fresh_thread s a s' t th : Shape s -> step T F s a = Some s' -> a <> th.(tactor) ->
    s.(threads) !! t = Some th -> th.(busy) = false -> th.(held) = false -> th.(chan) = 0 ->
    s'.(threads) !! t = Some th \/ woken s s' a t th.(tactor).
  Proof.
    intros HS (ac & fr & rest & m & new & Ea & Est & He & ->)%step_eff Hab Htt Hb Hh Hc.
    destruct (proj2 (eff_others T F s a ac fr m new He) t th Htt) as [Hl|(-> & _ & _ & Hm)]; [|by left|].
    - intros Hf. apply Hab. rewrite (sh_tactor s HS t th Htt). by eapply tframe_owner.
    - right. split; [by eauto|]. eexists. split; [exact Hm|]. cbn. by rewrite Hc.
  Qed.

  Context (PF : pfacts) (HT : own_conditions T).

  Theorem fresh_until_woken ps a ps' b : SInv ps -> fresh_slot ps.(pb) b -> pstep T F PF ps a = Some ps' ->
    fresh_slot ps'.(pb) b \/ exists t, woken ps.(pb) ps'.(pb) a t b /\ stack_of ps' b = Some [FTrecv t] /\ b ∉ ps'.(dead).
  Proof.
    intros HSI (t & th & acb & Et & Hta & Hb & Hh & Hc & Eb & Estb) Hs. pose proof HSI as [HP HD HS HW'].
    assert (Hbd : b ∉ dead ps). { intros Hin. destruct (HD b Hin) as (ab & t0 & E1 & E2). rewrite Eb in E1. injection E1 as <-. by rewrite Estb in E2. }
    assert (Hab : a <> b).
    { intros ->. destruct (pstep_inv_l1 T F PF ps b ps' acb Eb) as [Hs1 _]; [unfold pclos; by rewrite Estb|by rewrite Estb|done|].
      unfold step in Hs1. rewrite Eb in Hs1. cbn in Hs1. rewrite Estb in Hs1. cbn in Hs1. rewrite Et in Hs1. cbn in Hs1. by rewrite Hc in Hs1. }
    destruct (pstep_other T F PF ps a ps' b [FTrecv t] Hs Hab Hbd) as [Hst' Hbd']; [unfold stack_of; by rewrite Eb; cbn; rewrite Estb|done|].
    unfold stack_of in Hst'. destruct (actors (pb ps') !! b) as [acb'|] eqn:Eb'; [|done]. cbn in Hst'. injection Hst' as Estb'.
    assert (Hthr : threads (pb ps') !! t = Some th \/ woken (pb ps) (pb ps') a t th.(tactor)).
    { destruct (pstep_inv T F PF ps a ps' Hs) as [Hdead [ac Ea _ _ Hs1 _|ac r Ea Est Hs1 _|ac q0 o rest dies _ _ _ -> _]].
      - eapply step_fresh_thread; eauto. by rewrite Hta.
      - destruct HP as (HI & Hd & Hnd). destruct (reap_shape PF (dead ps) (pb ps) HS HW' Hnd HD) as [G1 G2].
        destruct (reap_keeps_fresh PF (dead ps) (pb ps) b Hbd) as (t1 & th1 & acb1 & Et1 & Hta1 & Hb1 & Hh1 & Hc1 & Eb1 & Estb1); [exists t, th, acb; by repeat split|].
        pose proof (reap_other PF (dead ps) (pb ps) a Hdead) as Hro.
        rewrite (reap_other PF (dead ps) (pb ps) b Hbd), Eb in Eb1. injection Eb1 as <-. rewrite Estb in Estb1. injection Estb1 as <-.
        assert (th1 = th) as -> by (destruct th, th1; cbn in *; congruence).
        destruct (step_fresh_thread _ a _ t th G1 Hs1 ltac:(by rewrite Hta) Et1 Hb Hh Hc) as [Hl|[(ac1 & r1 & E1 & E2) _]]; [by left|].
        rewrite Hro, Ea in E1. injection E1 as <-. by rewrite Est in E2.
      - left. cbn. by rewrite drop_job_threads. }
    destruct Hthr as [Hl|Hw].
    - left. exists t, th, acb'. by repeat split.
    - right. exists t. subst b. split; [done|]. split; [|done]. unfold stack_of. rewrite Eb'. cbn. by rewrite Estb'.
  Qed.

  Lemma woken_enabled ps0 ps a t b : woken ps0 ps.(pb) a t b -> stack_of ps b = Some [FTrecv t] -> b ∉ ps.(dead) -> is_Some (pstep T F PF ps b).
  Proof.
    intros [_ (th' & Et & Hta & Hb & Hc)] Hst Hbd. unfold stack_of in Hst. destruct (actors (pb ps) !! b) as [acb|] eqn:Eb; [|done]. cbn in Hst. injection Hst as Est.
    assert (Hs : is_Some (step T F (pb ps) b)) by (unfold step; rewrite Eb; cbn; rewrite Est; cbn; rewrite Et; cbn; by rewrite Hc).
    destruct Hs as [s' Hs]. destruct (pstep_l1 T F PF ps b acb s' Hbd Eb Hs) as (ps' & -> & _); [unfold pclos; by rewrite Est|by rewrite Est|done].
  Qed.

  Theorem fresh_run tr : forall ps ps' b, SInv ps -> fresh_slot ps.(pb) b -> prun T F PF ps tr = Some ps' ->
    fresh_slot ps'.(pb) b \/
    exists tr1 a tr2 ps1 ps2 t, tr = tr1 ++ a :: tr2 /\ prun T F PF ps tr1 = Some ps1 /\ pstep T F PF ps1 a = Some ps2 /\ woken ps1.(pb) ps2.(pb) a t b /\
      is_Some (pstep T F PF ps2 b).
  Proof.
    induction tr as [|a tr IH]; intros ps ps' b HSI Hf Hr; [unfold prun in Hr; cbn in Hr; injection Hr as <-; by left|].
    rewrite prun_cons in Hr. destruct (pstep T F PF ps a) as [ps1|] eqn:E; [|done]. cbn in Hr.
    destruct (fresh_until_woken ps a ps1 b HSI Hf E) as [Hf1|(t & Hw & Hst1 & Hbd1)].
    - destruct (IH ps1 ps' b (sinv_step T F PF HT ps a ps1 HSI E) Hf1 Hr) as [Hl|(tr1 & a1 & tr2 & p1 & p2 & t & -> & H1 & H2 & H3)]; [by left|].
      right. exists (a :: tr1), a1, tr2, p1, p2, t. split; [done|]. split; [|done]. rewrite prun_cons, E. done.
    - right. exists [], a, tr, ps, ps1, t. split; [done|]. split; [done|]. split; [done|]. split; [done|]. by eapply woken_enabled.
  Qed.
End Fresh.
