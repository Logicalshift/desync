(* The ids at a reachable terminal state without dead threads: what is accounted for (Mids: run, pending, or about to be pushed) is
   exactly the ids that ran and the ids of the jobs stored on Panicked queues. *)
From stdpp Require Import list numbers list_numbers option.
From RecordUpdate Require Import RecordUpdate.
From L1 Require Import Model Own Shape Stuck Live Wait Help Final Pool.
From L1h Require Import WeakWF Hist Abs.
From L1p Require Import Model OwnP Absorb MainP DeadP ShapeP QuietP IdAbs IdInv MaskP AllP QuietAll.

Definition stored_panicked (s : state) (q : nat) : list nat :=
  match s.(queues) !! q with Some qq => match qq.(qs) with Panicked => job_id <$> qq.(jobs) | _ => [] end | None => [] end.

Lemma stuck_not_pre s a ac : Shape s -> s.(actors) !! a = Some ac -> stuck_ok s ac.(stack) -> pre_id (aact ac) = None.
Proof.
  intros HS Ea Hsk. unfold pre_id, aact; cbn. destruct (kind_of s a ac HS Ea) as [[_ Hok]|(t & _ & Hok)].
  - destruct (stack ac) as [|fr rest] eqn:Es; [done|]. pose proof (stuck_hd s _ fr Hsk eq_refl) as Hf.
    apply caller_ok_inv in Hok as [(-> & Hfr)|[(os & -> & Hsf)|(g & os & -> & Hpo)]]; destruct fr; try done; cbn; try done.
    all: try (by destruct g).
  - destruct (stack ac) as [|fr rest] eqn:Es; [done|]. apply pool_ok_inv in Hok as [(-> & Hfr)|(-> & Hfr)]; destruct fr; done.
Qed.

Section Ids.
  Context (T : tables) (F : facts) (PF : pfacts).

  Theorem ids_at_terminal ps : AllP ps -> pterminal T F PF ps -> ps.(dead) = [] ->
    Mids ps.(pb) = ps.(pb).(ran) ++ sumq (stored_panicked ps.(pb)) (nqs ps.(pb)).
  Proof.
    intros HA Hterm Hdead. destruct (quiescent_reaped T F PF ps HA Hterm Hdead) as (C1 & _ & C3).
    destruct HA as [HSI _ _ _ _]. destruct HSI as [(HI & _ & _) _ HS _]. revert HI HS C1 C3. generalize (pb ps). clear. intros s HI HS C1 C3.
    unfold Mids, Mv. cbn [view v_ran v_acts v_pend].
    assert (E1 : omap pre_id (acts s) = []).
    { apply omap_none. intros x Hx. unfold acts in Hx. apply elem_of_list_fmap in Hx as (ac & -> & Hin). apply elem_of_list_lookup in Hin as [a Ea].
      eapply stuck_not_pre; eauto. }
    rewrite E1, app_nil_r. f_equal. apply sumq_ext. intros q _. unfold pids, stored_panicked. cbn [view v_pend]. unfold pend, oj.
    destruct (queues s !! q) as [qq|] eqn:Hq; [|done]. cbn.
    assert (Ho : owner qq = None).
    { destruct HI as [_ I2 _]. destruct (owner qq) as [b|] eqn:Eo; [|done]. exfalso.
      assert (Hr : qs qq = Running) by (apply (I2 q qq Hq); by rewrite Eo).
      destruct (C1 q qq Hq) as [Hi _]; [by rewrite Hr|]. congruence. }
    rewrite Ho. destruct (qs qq) eqn:E; try done; (destruct (C1 q qq Hq) as [_ Hj]; [by rewrite E|]; by rewrite Hj).
  Qed.
End Ids.
