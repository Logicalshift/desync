(* C15 on the scheduler model: panicking closures (layer L1p, see L1p/Model.v: L1's step plus the panic step of a closure,
   thread death and the reap pass; L1 itself is not changed).

   This file: the safety of the objects.  For all tables with own_conditions and ptab (every table maps Panicked to Panicked), all
   facts, programs, schedules and panic positions: exclusive ownership (C01) holds in every reachable state, of panicked and healthy
   objects alike; a Panicked queue stays Panicked; nobody holds a runner frame of it, so none of its stored jobs is dequeued or run.
   Three scenarios by vm_compute on the generated tables: with the seeded reap (f_reap_ignores_busy = false) a thread that died inside a
   job keeps the pool's only slot; with the code's reap the slot is used again; and an OBSERVATION outside C15 (which speaks about attempts
   made after the unwinding has finished; seen on the crate too: DESIGN 9.6): a sync caller that is ALREADY WAITING in sync_background when
   the runner of its object panics is never woken. *)
From stdpp Require Import list numbers option.
From L0 Require Import Types.
From Gen Require Import Tables.
From L1 Require Import Model Own Shape Stuck.
From L1h Require Import Inst.
From L1p Require Import Model OwnP Absorb MainP.

Theorem C15p_ownership_survives_panics : forall (T : tables) (F : facts) (PF : pfacts), own_conditions T ->
  forall nq mx scripts tr ps, prun T F PF (pinit nq mx scripts) tr = Some ps -> Inv ps.(pb).
Proof. exact preach_inv. Qed.
Theorem C15p_one_runner_per_object : forall (T : tables) (F : facts) (PF : pfacts), own_conditions T ->
  forall nq mx scripts tr ps a b q na nb qq,
    prun T F PF (pinit nq mx scripts) tr = Some ps -> ps.(pb).(queues) !! q = Some qq ->
    stack_cnt ps.(pb) a q = Some (S na) -> stack_cnt ps.(pb) b q = Some (S nb) -> a = b.
Proof. exact exclusive_p. Qed.
Theorem C15p_panicked_is_absorbing : forall (T : tables) (F : facts) (PF : pfacts), own_conditions T -> ptab T ->
  forall nq mx scripts tr1 tr2 ps1 ps2 q,
    prun T F PF (pinit nq mx scripts) tr1 = Some ps1 -> prun T F PF ps1 tr2 = Some ps2 -> panicked ps1.(pb) q -> panicked ps2.(pb) q.
Proof. exact panicked_absorbing. Qed.
Theorem C15p_panicked_queue_is_never_run : forall (T : tables) (F : facts) (PF : pfacts), own_conditions T ->
  forall nq mx scripts tr ps q a n,
    prun T F PF (pinit nq mx scripts) tr = Some ps -> panicked ps.(pb) q -> stack_cnt ps.(pb) a q <> Some (S n).
Proof. exact panicked_no_runner. Qed.

(* the reap rule is read from the source on every check: fact_reap_tests_only_is_finished (core.rs remove_finished_threads tests is_finished() and nothing else) *)
Definition pf_code : pfacts := {| f_reap_ignores_busy := fact_reap_tests_only_is_finished |}.
Definition pf_mut : pfacts := {| f_reap_ignores_busy := false |}.
Definition tops (ps : pstate) : list (option frame) := (fun ac => hd_error ac.(stack)) <$> ps.(pb).(actors).
Definition exP_scripts : list (list (op * bool)) := [[(ODesync 0, true); (ODesync 1, false)]].
Definition exP_tr_mut : list nat := [0; 0; 0; 0; 0; 0; 0; 0; 0; 1; 1; 1; 1; 1; 1; 1; 0; 0; 0; 0; 0; 0].
Definition exP_tr_code : list nat := [0; 0; 0; 0; 0; 0; 0; 0; 0; 1; 1; 1; 1; 1; 1; 1; 0; 0; 0; 0; 1; 1; 1; 1; 1; 1; 1; 1; 1; 1; 1; 1; 1].

Example C15p_pool_capacity_lost_when_reap_skips_busy :
  exists ps, prun gen_tables gen_facts pf_mut (pinit 2 1 exP_scripts) exP_tr_mut = Some ps /\
    pterminal_b gen_tables gen_facts pf_mut ps = true /\
    (qs <$> ps.(pb).(queues)) = [Panicked; Pending] /\ ((fun q => length q.(jobs)) <$> ps.(pb).(queues)) = [0; 1] /\ ps.(pb).(sched) = [1] /\
    ps.(dead) = [1] /\ (busy <$> ps.(pb).(threads)) = [true] /\ ps.(pb).(ran) = [].
Proof. eexists. split; [vm_compute; reflexivity|]. repeat split. Qed.

Example C15p_pool_capacity_restored_example :
  exists ps, prun gen_tables gen_facts pf_code (pinit 2 1 exP_scripts) exP_tr_code = Some ps /\
    pterminal_b gen_tables gen_facts pf_code ps = true /\
    (qs <$> ps.(pb).(queues)) = [Panicked; Idle] /\ ((fun q => length q.(jobs)) <$> ps.(pb).(queues)) = [0; 0] /\ ps.(pb).(sched) = [] /\
    ps.(dead) = [] /\ (busy <$> ps.(pb).(threads)) = [false] /\ ps.(pb).(ran) = [1] /\ tops ps = [Some (FTop []); Some (FTrecv 0)].
Proof. eexists. split; [vm_compute; reflexivity|]. repeat split. Qed.

(* caller 1 waits in sync_background on object 0 while the pool thread runs the panicking job of caller 0 *)
Definition exW_scripts : list (list (op * bool)) := [[(ODesync 0, true)]; [(OSync 0, false)]].
Definition exW_tr : list nat := [0; 0; 0; 0; 0; 0; 0; 0; 2; 2; 2; 2; 2; 2; 1; 1; 1; 1; 1; 1; 1; 2].
Example C15p_waiter_on_panicked_queue_is_stranded :
  exists ps, prun gen_tables gen_facts pf_code (pinit 1 1 exW_scripts) exW_tr = Some ps /\
    pterminal_b gen_tables gen_facts pf_code ps = true /\
    tops ps = [Some (FTop []); Some (FSBwait 0); Some (FTlock 0)] /\ (qs <$> ps.(pb).(queues)) = [Panicked] /\
    ((fun q => length q.(jobs)) <$> ps.(pb).(queues)) = [1] /\ ps.(dead) = [2].
Proof. eexists. split; [vm_compute; reflexivity|]. repeat split. Qed.

Lemma clp_own : own_conditions gen_tables.
Proof. exact clh_own. Qed.
Lemma clp_ptab : ptab gen_tables.
Proof. split; cbn; try done; by intros []. Qed.
Lemma clp_dormant_reaps_first : fact_dormant_reaps_first = true. Proof. reflexivity. Qed.
Lemma clp_reap_tests_only_is_finished : fact_reap_tests_only_is_finished = true. Proof. reflexivity. Qed.

Theorem C15p_panicked_is_absorbing_now : forall (F : facts) (PF : pfacts) nq mx scripts tr1 tr2 ps1 ps2 q,
  prun gen_tables F PF (pinit nq mx scripts) tr1 = Some ps1 -> prun gen_tables F PF ps1 tr2 = Some ps2 -> panicked ps1.(pb) q -> panicked ps2.(pb) q.
Proof. exact (fun F PF => C15p_panicked_is_absorbing gen_tables F PF clp_own clp_ptab). Qed.
Theorem C15p_ownership_now : forall (F : facts) (PF : pfacts) nq mx scripts tr ps,
  prun gen_tables F PF (pinit nq mx scripts) tr = Some ps -> Inv ps.(pb).
Proof. exact (fun F PF => C15p_ownership_survives_panics gen_tables F PF clp_own). Qed.

Print Assumptions C15p_ownership_survives_panics.
Print Assumptions C15p_one_runner_per_object.
Print Assumptions C15p_panicked_is_absorbing.
Print Assumptions C15p_panicked_queue_is_never_run.
Print Assumptions C15p_pool_capacity_lost_when_reap_skips_busy.
Print Assumptions C15p_pool_capacity_restored_example.
Print Assumptions C15p_waiter_on_panicked_queue_is_stranded.
Print Assumptions C15p_panicked_is_absorbing_now.
Print Assumptions C15p_ownership_now.
