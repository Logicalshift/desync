(* L1p: what the proofs use of the panic model instead of unfolding it: one reap and the whole pass, the wake-up hidden in drop_job,
   the stacks pclos accepts, the three kinds of pstep, induction along prun. *)
From stdpp Require Import list numbers option.
From RecordUpdate Require Import RecordUpdate.
From L1 Require Import Model Own Shape.
From L1p Require Import Model.

Definition panicked_queue (x : queue) : queue := x <| qs := Panicked |> <| owner := None |>.

Definition dead_at (s : state) (a : nat) : Prop := exists ac t, s.(actors) !! a = Some ac /\ ac.(stack) = [FTlock t].

Lemma reap_one_form PF s a s1 : reap_one PF s a = Some s1 ->
  exists t th, s.(threads) !! t = Some th /\ th.(tactor) = a /\
    s1 = setstack (updt s t (fun x => x <| busy := false |> <| held := false |> <| chan := 0 |>)) a [FTrecv t].
Proof.
  unfold reap_one, pool_thread_of. destruct (list_find _ _) as [[t th]|] eqn:E; [|done]. cbn.
  apply list_find_Some in E as (Et & Hta & _). rewrite Et. cbn. destruct (_ || _); [|done]. intros [= <-]. by exists t, th.
Qed.
Lemma reap_one_actors PF s a s1 b : reap_one PF s a = Some s1 -> b <> a -> s1.(actors) !! b = s.(actors) !! b.
Proof. intros (t & th & _ & _ & ->)%reap_one_form Hne. by rewrite actors_setstack_lookup, decide_False. Qed.

Lemma reap_cons PF s a r :
  reap PF s (a :: r) = match reap_one PF s a with Some s1 => reap PF s1 r | None => ((reap PF s r).1, a :: (reap PF s r).2) end.
Proof. cbn [reap]. destruct (reap_one PF s a); [done|]. by destruct (reap PF s r). Qed.

Lemma reap_preserves PF (P : state -> Prop) ds : (forall s a s1, a ∈ ds -> P s -> reap_one PF s a = Some s1 -> P s1) ->
  forall s, P s -> P (reap PF s ds).1.
Proof.
  induction ds as [|a r IH]; intros Hone s HP; [done|]. rewrite reap_cons.
  assert (Hr : forall s0 b s1, b ∈ r -> P s0 -> reap_one PF s0 b = Some s1 -> P s1) by (intros s0 b s1 Hb; apply Hone; by right).
  destruct (reap_one PF s a) as [s1|] eqn:E; [|by apply IH]. apply IH; [done|]. eapply Hone; [by left|done..].
Qed.
Lemma reap_preserves_dead PF (P : state -> Prop) ds : (forall s a s1, P s -> dead_at s a -> reap_one PF s a = Some s1 -> P s1) ->
  forall s, NoDup ds -> (forall a, a ∈ ds -> dead_at s a) -> P s -> P (reap PF s ds).1.
Proof.
  intros Hone. induction ds as [|a r IH]; intros s Hnd Hd HP; [done|]. rewrite reap_cons.
  apply list.NoDup_cons in Hnd as [Har Hnd].
  destruct (reap_one PF s a) as [s1|] eqn:E; [|apply IH; [done| |done]; intros b Hb; apply Hd; by right].
  apply IH; [done| |eapply Hone; [done|apply Hd; by left|done]].
  intros b Hb. unfold dead_at. rewrite (reap_one_actors PF s a s1 b E) by (intros ->; done). apply Hd. by right.
Qed.

Lemma reap_frame PF ds s : exists A Th, (reap PF s ds).1 = s <| threads := Th |> <| actors := A |>.
Proof.
  apply reap_preserves; [|by exists (actors s), (threads s); destruct s].
  intros s0 a s1 _ (A & Th & ->) (t & th & _ & _ & ->)%reap_one_form. by eexists _, _.
Qed.
Lemma reap_other PF ds s b : b ∉ ds -> (reap PF s ds).1.(actors) !! b = s.(actors) !! b.
Proof.
  intros Hb. apply (reap_preserves PF (fun s' => actors s' !! b = actors s !! b)); [|done].
  intros s0 a s1 Ha <- E. apply (reap_one_actors PF s0 a s1 b E). by intros ->.
Qed.
Lemma reap_sub PF ds : forall s x, x ∈ (reap PF s ds).2 -> x ∈ ds.
Proof.
  induction ds as [|a r IH]; intros s x; [done|]. rewrite reap_cons. destruct (reap_one PF s a); [right; by eapply IH|].
  intros [->|Hx]%elem_of_cons; [by left|right; by eapply IH].
Qed.
Lemma reap_nodup PF ds : forall s, NoDup ds -> NoDup (reap PF s ds).2.
Proof.
  induction ds as [|a r IH]; intros s Hnd; [done|]. rewrite reap_cons. apply list.NoDup_cons in Hnd as [Har Hnd].
  destruct (reap_one PF s a); [by apply IH|]. constructor; [|by apply IH]. intros Hin. by apply Har, (reap_sub PF r s).
Qed.
Lemma reap_keeps PF ds : forall s, NoDup ds -> forall b, b ∈ (reap PF s ds).2 -> (reap PF s ds).1.(actors) !! b = s.(actors) !! b.
Proof.
  induction ds as [|a r IH]; intros s Hnd b; [done|]. rewrite reap_cons. apply list.NoDup_cons in Hnd as [Har Hnd].
  destruct (reap_one PF s a) as [s1|] eqn:E1.
  - intros Hb. rewrite (IH s1 Hnd b Hb). apply (reap_one_actors PF s a s1 b E1). intros ->. apply Har. by eapply reap_sub.
  - intros [->|Hb]%elem_of_cons; [by apply reap_other|by apply IH].
Qed.

(* drop_job gives the waiting caller its ready flag and, if it is inside the wait, its wake-up: the two moves L1's notify makes *)
Lemma drop_job_closed (P : state -> Prop) :
  (forall s c, P s -> P (upda s c (fun x => x <| ready := true |>))) ->
  (forall s w ac q rest, P s -> s.(actors) !! w = Some ac -> ac.(stack) = FSBwait q :: rest -> P (setstack s w (FSBwoken q :: rest))) ->
  forall s j, P s -> P (drop_job s j).
Proof.
  intros Hkick Hwake s j HP. destruct j as [[o|o c|o c]|]; cbn [drop_job]; try done.
  specialize (Hkick s c HP). set (s1 := upda s c _) in *.
  destruct (actors s1 !! c) as [ac|] eqn:Ec; [|done]. destruct (stack ac) as [|[] rest] eqn:Es; try done. by eapply Hwake.
Qed.
Lemma drop_job_frame s j : exists A, drop_job s j = s <| actors := A |>.
Proof.
  apply (drop_job_closed (fun s' => exists A, s' = s <| actors := A |>)); [| |exists (actors s); by destruct s].
  - intros s0 c (A & ->). by eexists.
  - intros s0 w ac q rest (A & ->) _ _. by eexists.
Qed.
Lemma drop_job_queues s j : (drop_job s j).(queues) = s.(queues).
Proof. by destruct (drop_job_frame s j) as [A ->]. Qed.
Lemma drop_job_threads s j : (drop_job s j).(threads) = s.(threads).
Proof. by destruct (drop_job_frame s j) as [A ->]. Qed.
Lemma drop_job_setq s Q j : drop_job (s <| queues := Q |>) j = drop_job s j <| queues := Q |>.
Proof.
  destruct j as [[o|o c|o c]|]; cbn [drop_job]; try done.
  set (s1 := upda s c _). change (upda (s <| queues := Q |>) c (fun x => x <| ready := true |>)) with (s1 <| queues := Q |>).
  change (actors (s1 <| queues := Q |>)) with (actors s1). destruct (actors s1 !! c) as [ac|]; [|done]. by destruct (stack ac) as [|[] ?].
Qed.
Lemma drop_job_actor s j a ac : s.(actors) !! a = Some ac -> (forall q r, ac.(stack) <> FSBwait q :: r) ->
  exists ac1, (drop_job s j).(actors) !! a = Some ac1 /\ ac1.(stack) = ac.(stack) /\ ac1.(opctr) = ac.(opctr).
Proof.
  intros Ea Hnw. apply (drop_job_closed (fun s' => exists ac1, actors s' !! a = Some ac1 /\ stack ac1 = stack ac /\ opctr ac1 = opctr ac)); [| |by exists ac].
  - intros s0 c (ac1 & E1 & H1 & H2). rewrite actors_upda_lookup. case_decide; subst; rewrite E1; cbn; eauto.
  - intros s0 w acw q rest (ac1 & E1 & H1 & H2) Ew Est. rewrite actors_setstack_lookup. case_decide; [|eauto].
    subst w. rewrite E1 in Ew. injection Ew as <-. rewrite H1 in Est. by destruct (Hnw q rest).
Qed.

Lemma pclos_stack ac q o rest dies : pclos ac = Some (q, o, rest, dies) ->
  (ac.(stack) = FSIrun q :: rest /\ dies = false /\ o = ac.(opctr)) \/
  (exists j g, ac.(stack) = FROrun q j :: g :: rest /\ (g = FSDloop q \/ g = FSBsteal q) /\ dies = false /\ o = job_op j) \/
  (exists j t, ac.(stack) = [FDRrun q j; FTlock t] /\ rest = [FTlock t] /\ dies = true /\ o = job_op j).
Proof.
  unfold pclos. destruct (stack ac) as [|fr st]; [done|]. destruct fr; try done.
  - intros [= <- <- <- <-]. by left.
  - destruct st as [|gf st]; [done|]. destruct gf; try done; (case_decide as Hq; [|done]); intros [= <- <- <- <-]; subst; right; left; eexists _, _; (split; [reflexivity|]); (split; [eauto|]); done.
  - destruct st as [|[] [|]]; try done. intros [= <- <- <- <-]. right; right. eexists _, _. done.
Qed.

Lemma pclos_cnt ac q o rest dies q0 : pclos ac = Some (q, o, rest, dies) ->
  cnt q0 ac.(stack) = (if bool_decide (q = q0) then 1 else 0) + cnt q0 rest.
Proof. by intros [(-> & _)|[(j & g & -> & [-> | ->] & _)|(j & t & -> & -> & _)]]%pclos_stack. Qed.

Lemma drop_job_self s j a ac q o rest dies : s.(actors) !! a = Some ac -> pclos ac = Some (q, o, rest, dies) ->
  exists ac1, (drop_job s j).(actors) !! a = Some ac1 /\ ac1.(stack) = ac.(stack) /\ ac1.(opctr) = ac.(opctr) /\ pclos ac1 = Some (q, o, rest, dies).
Proof.
  intros Ea Hp. destruct (drop_job_actor s j a ac Ea) as (ac1 & E1 & H1 & H2); [intros q0 r E; unfold pclos in Hp; by rewrite E in Hp|].
  exists ac1. repeat (split; [done|]). rewrite <- Hp. unfold pclos. by rewrite H1, H2.
Qed.

Inductive pclos_case (s : state) (a : nat) (ac : actor) (q : nat) : nat -> list frame -> bool -> Prop :=
| PCimm os : ac.(stack) = [FSIrun q; FTop os] -> a < ncallers s -> pclos_case s a ac q ac.(opctr) [FTop os] false
| PCjob j g os : ac.(stack) = [FROrun q j; g; FTop os] -> g = FSDloop q \/ g = FSBsteal q -> a < ncallers s ->
    pclos_case s a ac q (job_op j) [FTop os] false
| PCpool j t : ac.(stack) = [FDRrun q j; FTlock t] -> a = ncallers s + t -> pclos_case s a ac q (job_op j) [FTlock t] true.

Lemma pclos_shape s a ac q o rest dies : Shape s -> s.(actors) !! a = Some ac -> pclos ac = Some (q, o, rest, dies) -> pclos_case s a ac q o rest dies.
Proof.
  intros HS Ea Hp. pose proof (kind_of s a ac HS Ea) as Hkind.
  destruct (pclos_stack ac q o rest dies Hp) as [(E & -> & ->)|[(j & g & E & Hg & -> & ->)|(j & t & E & -> & -> & ->)]]; rewrite E in Hkind.
  - destruct Hkind as [[Hlt Hok]|(t1 & _ & Hok)]; [|by destruct rest as [|? [|]]].
    apply caller_ok_inv in Hok as [(-> & Hf)|[(os & -> & Hsf)|(g1 & os & -> & Hpo)]]; try done. by apply PCimm.
  - destruct Hkind as [[Hlt Hok]|(t1 & _ & Hok)]; [|by destruct rest as [|? [|]]].
    apply caller_ok_inv in Hok as [(E2 & Hf)|[(os & E2 & Hsf)|(g1 & os & E2 & Hpo)]]; try done. injection E2 as <- ->. by apply (PCjob s a ac q j g os).
  - destruct Hkind as [[_ Hok]|(t1 & Hat & Hok)]; [done|]. cbn in Hok. apply bool_decide_eq_true in Hok as ->. by apply PCpool.
Qed.

Definition tframe (fr : frame) : option nat :=
  match fr with FTrecv t | FTlock t | FTnext t | FTexam t | FTrelnone t | FTrelsome t _ => Some t | _ => None end.
Definition table_step (T : tables) (st st' : qstate) : Prop :=
  st' = fst (T.(t_desync) st) \/ (exists e, st' = fst (T.(t_sync) st e)) \/ (exists e, st' = fst (T.(t_trysync) st e)) \/
  (exists ne, st' = fst (T.(t_resched) st ne)) \/ T.(t_next) st = Some st' \/ T.(t_claim) st = Some st' \/
  exists e, st' = fst (T.(t_drain_fin) st e).
Definition qs_step (T : tables) (fr : frame) (q : nat) (st st' : qstate) : Prop :=
  st' = st \/ table_step T st st' \/ (owns_b q fr = true /\ st' = Idle).

Lemma updq_updq s q f g : updq (updq s q f) q g = updq s q (g ∘ f).
Proof. unfold updq; cbn. by rewrite list_alter_compose. Qed.

Section Eff.
  Context (T : tables) (F : facts).

  Lemma qs_step_updq fr X s q0 f : queues X = queues s ->
    (forall qq, queues s !! q0 = Some qq -> qs_step T fr q0 (qs qq) (qs (f qq))) ->
    forall q qq, queues s !! q = Some qq -> exists qq', queues (updq X q0 f) !! q = Some qq' /\ qs_step T fr q (qs qq) (qs qq').
  Proof.
    intros HX Hf q qq Hq. rewrite queues_updq, HX, Hq. case_decide; [subst q0|]; eexists; (split; [done|]); [by apply Hf|by left].
  Qed.

  Lemma eff_others s a ac fr m new : eff T F s a ac fr m new ->
    (forall q qq, queues s !! q = Some qq -> exists qq', queues m !! q = Some qq' /\ qs_step T fr q (qs qq) (qs qq')) /\
    (forall t th, threads s !! t = Some th -> tframe fr <> Some t ->
       threads m !! t = Some th \/
       (fr = FSTscan t /\ held th = false /\ busy th = false /\ threads m !! t = Some (th <| busy := true |> <| chan := S (chan th) |>))).
  Proof.
    destruct 1; (split; [|intros t0 th0 Ht0 Hfr]); rewrite ?queues_upda.
    all: lazymatch goal with
      | |- forall x y, _ -> exists z, queues (updq _ _ _) !! _ = _ /\ _ =>
          (* one queue is updated: Eq, Etab are the lookup and the table entry of the constructor *)
          rewrite ?updq_updq; apply qs_step_updq; [first [done | apply wk_queues, woken_foldl_notify]|];
          intros qq0 Hqq0; rewrite ?Eq in Hqq0; try injection Hqq0 as <-; cbn;
          try (apply (f_equal fst) in Etab; cbn in Etab; subst st');
          first [by left | right; right; split; [cbn; by rewrite bool_decide_eq_true_2|done] | right; left; unfold table_step; eauto 10]
      | |- forall x y, _ -> exists z, _ =>
          intros q0 qq0 Hq0; exists qq0; split; [|by left]; first [done | by rewrite (wk_queues _ _ (woken_run_job _ _ _))]
      | |- threads ?m !! _ = _ \/ _ =>
          (* the threads are untouched (also by wake-ups), one is appended, or the actor's own thread is updated *)
          try change (threads m) with (threads (foldl (notify F) s (wake_blocked qq)));
          first [ by left | left; by apply lookup_app_l_Some
                | left; by rewrite (wk_threads _ _ (woken_run_job _ _ _)) | left; by rewrite (wk_threads _ _ (woken_foldl_notify _ _ _))
                | left; rewrite threads_updt_lookup, decide_False; [done|intros ->; by apply Hfr]
                | idtac ]
      end.
    (* E_scan_claim: the scan takes the dormant thread i *)
    rewrite threads_updt_lookup. destruct (decide (i = t0)) as [->|]; [right|by left].
    rewrite Ht0 in Et. injection Et as <-. repeat (split; [done|]). change (threads (s <| threads_held := None |>)) with (threads s). by rewrite Ht0.
  Qed.
End Eff.

Section StepP.
  Context (T : tables) (F : facts) (PF : pfacts).

  Lemma step_none s a : s.(actors) !! a = None -> step T F s a = None.
  Proof. intros E. unfold step. by rewrite E. Qed.
  Lemma step_lock s a ac r : s.(actors) !! a = Some ac -> ac.(stack) = FSTlock :: r ->
    step T F s a = if free s.(threads_held) then Some (setstack (s <| threads_held := Some a |>) a (FSTscan 0 :: r)) else None.
  Proof. intros Ea Est. unfold step. rewrite Ea. cbn [mbind option_bind]. by rewrite Est. Qed.

  (* pstep treats all top frames but two alike: with top_kind a proof splits three ways, not once per frame *)
  Inductive kind := KIssue | KLock | KElse.
  Definition top_kind (st : list frame) : kind := match st with FTop (_ :: _) :: _ => KIssue | FSTlock :: _ => KLock | _ => KElse end.
  Definition pstep_else (ps : pstate) (a : nat) (ac : actor) : option pstate :=
    match pclos ac with
    | Some (q, o, rest, dies) =>
        if default false (ps.(pan) !! o) then
          Some (ps <| pb := setstack (updq (drop_job ps.(pb) (top_job ac)) q panicked_queue) a rest |> <| dead := if dies then a :: ps.(dead) else ps.(dead) |>)
        else s' ← step T F ps.(pb) a; Some (ps <| pb := s' |>)
    | None => s' ← step T F ps.(pb) a; Some (ps <| pb := s' |>)
    end.
  Lemma pstep_eq ps a : pstep T F PF ps a =
    if bool_decide (a ∈ ps.(dead)) then None else
    ac ← ps.(pb).(actors) !! a;
    match top_kind ac.(stack) with
    | KIssue => s' ← step T F ps.(pb) a;
           let fl := default [] (ps.(pflags) !! a) in
           Some (ps <| pb := s' |> <| pan := ps.(pan) ++ [default false (head fl)] |> <| pflags := <[a := tail fl]> ps.(pflags) |>)
    | KLock => let '(s1, d1) := reap PF ps.(pb) ps.(dead) in s' ← step T F s1 a; Some (ps <| pb := s' |> <| dead := d1 |>)
    | KElse => pstep_else ps a ac
    end.
  Proof.
    unfold pstep. destruct (bool_decide _); [done|]. destruct (actors (pb ps) !! a) as [ac|]; [|done]. cbn [mbind option_bind].
    destruct (stack ac) as [|[] r]; try done. by destruct script.
  Qed.
  Lemma top_kind_issue st : top_kind st = KIssue -> exists o os r, st = FTop (o :: os) :: r.
  Proof. destruct st as [|[] r]; try done. destruct script; [done|]. eauto. Qed.
  Lemma top_kind_lock st : top_kind st = KLock -> exists r, st = FSTlock :: r.
  Proof. destruct st as [|[] r]; try done; [by destruct script|eauto]. Qed.

  (* the issue of an operation also records its panic flag (pan, pflags); no invariant reads them, so it counts as a step of L1 *)
  Inductive pstep_case (ps : pstate) (a : nat) (ps' : pstate) : Prop :=
  | PL1 ac : ps.(pb).(actors) !! a = Some ac -> (forall r, ac.(stack) <> FSTlock :: r) ->
      (forall q o rest dies, pclos ac = Some (q, o, rest, dies) -> default false (ps.(pan) !! o) = false) ->
      step T F ps.(pb) a = Some ps'.(pb) -> ps'.(dead) = ps.(dead) -> pstep_case ps a ps'
  | PReap ac r : ps.(pb).(actors) !! a = Some ac -> ac.(stack) = FSTlock :: r ->
      step T F (reap PF ps.(pb) ps.(dead)).1 a = Some ps'.(pb) -> ps'.(dead) = (reap PF ps.(pb) ps.(dead)).2 -> pstep_case ps a ps'
  | PPanic ac q o rest dies : ps.(pb).(actors) !! a = Some ac -> pclos ac = Some (q, o, rest, dies) ->
      default false (ps.(pan) !! o) = true ->
      ps'.(pb) = setstack (updq (drop_job ps.(pb) (top_job ac)) q panicked_queue) a rest ->
      ps'.(dead) = (if dies then a :: ps.(dead) else ps.(dead)) -> pstep_case ps a ps'.

  Lemma pstep_inv ps a ps' : pstep T F PF ps a = Some ps' -> a ∉ ps.(dead) /\ pstep_case ps a ps'.
  Proof.
    rewrite pstep_eq. case_bool_decide as Hdead; [done|]. intros Hs. split; [done|].
    destruct (actors (pb ps) !! a) as [ac|] eqn:Ea; [|done]. cbn [mbind option_bind] in Hs.
    assert (Hl1 : forall s' pn pf, (forall r, stack ac <> FSTlock :: r) ->
              (forall q o rest dies, pclos ac = Some (q, o, rest, dies) -> default false (pan ps !! o) = false) ->
              step T F (pb ps) a = Some s' -> pstep_case ps a {| pb := s'; pan := pn; pflags := pf; dead := dead ps |}).
    { intros s' pn pf Hnl Hnp Hst. by apply (PL1 _ _ _ ac). }
    destruct (top_kind (stack ac)) eqn:Hk.
    - destruct (top_kind_issue _ Hk) as (o & os & r & Est).
      destruct (step T F (pb ps) a) as [s'|] eqn:Hst; [|done]. injection Hs as <-. apply Hl1; [by rewrite Est| |done].
      intros ? ? ? ? Hp. unfold pclos in Hp. by rewrite Est in Hp.
    - destruct (top_kind_lock _ Hk) as [r Est]. destruct (reap PF (pb ps) (dead ps)) as [s1 d1] eqn:Er.
      destruct (step T F s1 a) as [s'|] eqn:Hst; [|done]. injection Hs as <-. apply (PReap _ _ _ ac r); rewrite ?Er; done.
    - assert (Hnl : forall r, stack ac <> FSTlock :: r) by (intros r E; by rewrite E in Hk).
      unfold pstep_else in Hs. destruct (pclos ac) as [[[[q o] rest] dies]|] eqn:Hp.
      + destruct (default false (pan ps !! o)) eqn:Hpan.
        * injection Hs as <-. by apply (PPanic _ _ _ ac q o rest dies).
        * destruct (step T F (pb ps) a) as [s'|] eqn:Hst; [|done]. injection Hs as <-. apply Hl1; [done| |done].
          by intros q1 o1 r1 d1 [= _ <- _ _].
      + destruct (step T F (pb ps) a) as [s'|] eqn:Hst; [|done]. injection Hs as <-. by apply Hl1.
  Qed.

  Lemma pstep_actor ps a ps' : pstep T F PF ps a = Some ps' -> a < length ps.(pb).(actors).
  Proof. intros [_ [ac Ea _ _ _ _|ac r Ea _ _ _|ac q o rest dies Ea _ _ _ _]]%pstep_inv; by apply lookup_lt_Some in Ea. Qed.

  Lemma pstep_complete ps a ps' : a ∉ ps.(dead) -> pstep_case ps a ps' ->
    exists ps1, pstep T F PF ps a = Some ps1 /\ ps1.(pb) = ps'.(pb) /\ ps1.(dead) = ps'.(dead).
  Proof.
    intros Hdead Hc. rewrite pstep_eq, bool_decide_eq_false_2 by done.
    destruct Hc as [ac Ea Hnl Hnp Hst Hd|ac r Ea Est Hst Hd|ac q o rest dies Ea Hp Hpan Hb Hd]; rewrite Ea; cbn [mbind option_bind].
    - rewrite Hd. destruct (top_kind (stack ac)) eqn:Hk.
      + rewrite Hst. by eexists.
      + destruct (top_kind_lock _ Hk) as [r Est]. by destruct (Hnl r).
      + unfold pstep_else. rewrite Hst. destruct (pclos ac) as [[[[q o] rest] dies]|]; [rewrite (Hnp q o rest dies eq_refl)|]; by eexists.
    - rewrite Est. cbn [top_kind]. destruct (reap PF (pb ps) (dead ps)) as [s1 d1]. cbn in Hst. rewrite Hst. by eexists.
    - assert (Hk : top_kind (stack ac) = KElse) by (by destruct (pclos_stack ac q o rest dies Hp) as [(-> & _)|[(j & g & -> & _)|(j & t & -> & _)]]).
      rewrite Hk. unfold pstep_else. rewrite Hp, Hpan, Hb, Hd. by eexists.
  Qed.

  Lemma pstep_none ps a : a ∉ ps.(dead) -> pstep T F PF ps a = None -> step T F ps.(pb) a = None.
  Proof.
    intros Hdead. rewrite pstep_eq, bool_decide_eq_false_2 by done.
    destruct (actors (pb ps) !! a) as [ac|] eqn:Ea; [|intros _; by apply step_none]. cbn [mbind option_bind].
    destruct (top_kind (stack ac)) eqn:Hk.
    - by destruct (step T F (pb ps) a).
    - destruct (top_kind_lock _ Hk) as [r Est]. rewrite (step_lock (pb ps) a ac r Ea Est).
      destruct (reap_frame PF (dead ps) (pb ps)) as (A & Th & Er). pose proof (reap_other PF (dead ps) (pb ps) a Hdead) as Hro.
      destruct (reap PF (pb ps) (dead ps)) as [s1 d1]. cbn [fst] in *. rewrite Ea in Hro.
      rewrite (step_lock s1 a ac r Hro Est), Er. cbn [threads_held set]. by destruct (free (threads_held (pb ps))).
    - unfold pstep_else. destruct (pclos ac) as [[[[q o] rest] dies]|]; [destruct (default false (pan ps !! o)); [done|]|]; by destruct (step T F (pb ps) a).
  Qed.

  Lemma pstep_l1 ps a ac s' : a ∉ ps.(dead) -> ps.(pb).(actors) !! a = Some ac -> step T F ps.(pb) a = Some s' ->
    pclos ac = None -> (forall r, ac.(stack) <> FSTlock :: r) ->
    exists ps', pstep T F PF ps a = Some ps' /\ ps'.(pb) = s' /\ ps'.(dead) = ps.(dead).
  Proof.
    intros Hdead Ea Hst Hp Hnl. apply (pstep_complete ps a {| pb := s'; pan := pan ps; pflags := pflags ps; dead := dead ps |} Hdead), (PL1 _ _ _ ac); try done.
    intros q o rest dies E. by rewrite Hp in E.
  Qed.

  Lemma pstep_inv_l1 ps a ps' ac : ps.(pb).(actors) !! a = Some ac -> pclos ac = None -> (forall r, ac.(stack) <> FSTlock :: r) ->
    pstep T F PF ps a = Some ps' -> step T F ps.(pb) a = Some ps'.(pb) /\ ps'.(dead) = ps.(dead).
  Proof.
    intros Ea Hp Hnl Hs. destruct (pstep_inv ps a ps' Hs) as [_ [ac' _ _ _ Hs1 Hd|ac' r Ea' Est _ _|ac' q o rest dies Ea' Hp' _ _ _]]; [done|..];
      rewrite Ea in Ea'; injection Ea' as <-; [by destruct (Hnl r)|by rewrite Hp in Hp'].
  Qed.
  Lemma pstep_inv_reap ps a ps' ac r : ps.(pb).(actors) !! a = Some ac -> ac.(stack) = FSTlock :: r -> pstep T F PF ps a = Some ps' ->
    step T F (reap PF ps.(pb) ps.(dead)).1 a = Some ps'.(pb) /\ ps'.(dead) = (reap PF ps.(pb) ps.(dead)).2.
  Proof.
    intros Ea Est Hs. destruct (pstep_inv ps a ps' Hs) as [_ [ac' Ea' Hnl _ _ _|ac' r' _ _ Hs1 Hd|ac' q o rest dies Ea' Hp _ _ _]]; [|done|];
      rewrite Ea in Ea'; injection Ea' as <-; [by destruct (Hnl r)|unfold pclos in Hp; by rewrite Est in Hp].
  Qed.
  Lemma pstep_inv_panic ps a ps' ac q o rest dies : ps.(pb).(actors) !! a = Some ac -> pclos ac = Some (q, o, rest, dies) ->
    default false (ps.(pan) !! o) = true -> pstep T F PF ps a = Some ps' ->
    ps'.(pb) = setstack (updq (drop_job ps.(pb) (top_job ac)) q panicked_queue) a rest /\ ps'.(dead) = (if dies then a :: ps.(dead) else ps.(dead)).
  Proof.
    intros Ea Hp Hpan Hs. destruct (pstep_inv ps a ps' Hs) as [_ [ac' Ea' _ Hnp _ _|ac' r Ea' Est _ _|ac' q' o' rest' dies' Ea' Hp' _ Hb Hd]];
      rewrite Ea in Ea'; injection Ea' as <-.
    - by rewrite (Hnp _ _ _ _ Hp) in Hpan.
    - unfold pclos in Hp. by rewrite Est in Hp.
    - rewrite Hp in Hp'. by injection Hp' as <- <- <- <-.
  Qed.

  Lemma prun_cons ps a tr : prun T F PF ps (a :: tr) = ps1 ← pstep T F PF ps a; prun T F PF ps1 tr.
  Proof. unfold prun; cbn. destruct (pstep T F PF ps a); cbn; [done|]. induction tr; cbn; done. Qed.
  Lemma prun_snoc ps tr a : prun T F PF ps (tr ++ [a]) = ps1 ← prun T F PF ps tr; pstep T F PF ps1 a.
  Proof. unfold prun. rewrite foldl_app. done. Qed.

  Lemma prun_ind (P : pstate -> Prop) : (forall ps a ps', P ps -> pstep T F PF ps a = Some ps' -> P ps') ->
    forall tr ps ps', P ps -> prun T F PF ps tr = Some ps' -> P ps'.
  Proof.
    intros Hstep. induction tr as [|a tr IH]; intros ps ps' H0 Hr; [unfold prun in Hr; cbn in Hr; by injection Hr as <-|].
    rewrite prun_cons in Hr. destruct (pstep T F PF ps a) as [ps1|] eqn:E; [|done]. eapply IH; [|exact Hr]. by eapply Hstep.
  Qed.
End StepP.
