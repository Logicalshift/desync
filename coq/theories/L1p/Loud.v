(* L1p: a call that STARTS on a Panicked queue fails loudly: the caller is never blocked and is back at its script after two of its
   own steps.  The model has no separate "panicked outcome" of a call: the call returns to the script at once with its closure not in
   [ran] (in the code: the panic raised by the call, caught per operation by the harness). *)
From stdpp Require Import list numbers option.
From RecordUpdate Require Import RecordUpdate.
From L1 Require Import Model Own Shape Stuck.
From L1n Require Import Eff.
From L1p Require Import Model StepP DeadP OwnP Absorb MainP.

Record ploud (T : tables) : Prop := {
  pl_desync : T.(t_desync) Panicked = (Panicked, DAPanic);
  pl_sync : forall e, T.(t_sync) Panicked e = (Panicked, SAPanic);
  pl_try : forall e, T.(t_trysync) Panicked e = (Panicked, TAPanic);
}.

Definition call_frame (o : op) : frame := match o with ODesync q => FD1 q | OSync q => FS1 q | OTrySync q => FTS1 q end.
Definition stack_of (ps : pstate) (c : nat) : option (list frame) := stack <$> ps.(pb).(actors) !! c.
Definition jobs_of (ps : pstate) (q : nat) : option (list job) := jobs <$> ps.(pb).(queues) !! q.

Lemma queues_ss Y c st q f : queues (setstack (updq Y q f) c st) !! q = f <$> queues Y !! q.
Proof. rewrite queues_setstack, queues_updq, decide_True by done. done. Qed.

Lemma panicked_ss Y c st q f qq : queues Y !! q = Some qq -> qs (f qq) = Panicked -> panicked (setstack (updq Y q f) c st) q.
Proof. intros H1 H2. exists (f qq). split; [|done]. by rewrite queues_ss, H1. Qed.

Section Loud.
  Context (T : tables) (F : facts) (PF : pfacts) (HL : ploud T).

  Lemma loud_call ps c o os : c ∉ ps.(dead) -> stack_of ps c = Some [FTop (o :: os)] ->
    exists ps1, pstep T F PF ps c = Some ps1 /\ stack_of ps1 c = Some [call_frame o; FTop os] /\
      ps1.(pb).(ran) = ps.(pb).(ran) /\ ps1.(pb).(queues) = ps.(pb).(queues) /\ ps1.(dead) = ps.(dead).
  Proof.
    intros Hd Hst. unfold stack_of in Hst. destruct (actors (pb ps) !! c) as [ac|] eqn:Ea; [|done]. cbn in Hst. injection Hst as Hst.
    assert (Hs : exists s', step T F (pb ps) c = Some s' /\ stack <$> actors s' !! c = Some [call_frame o; FTop os] /\ ran s' = ran (pb ps) /\ queues s' = queues (pb ps)).
    { unfold step. rewrite Ea. cbn. rewrite Hst. destruct o; cbn; eexists; (split; [reflexivity|]); cbn;
        (split; [rewrite list_lookup_alter; rewrite list_lookup_alter, Ea; done|done]). }
    destruct Hs as (s' & Hs & H1 & H2 & H3).
    destruct (pstep_l1 T F PF ps c ac s' Hd Ea Hs) as (ps1 & G1 & <- & G3); [unfold pclos; by rewrite Hst|by rewrite Hst|]. by exists ps1.
  Qed.

  Lemma loud_return ps c o os q qq : c ∉ ps.(dead) -> op_q o = q -> stack_of ps c = Some [call_frame o; FTop os] ->
    ps.(pb).(queues) !! q = Some qq -> qq.(qs) = Panicked ->
    exists ps2 ac, pstep T F PF ps c = Some ps2 /\ stack_of ps2 c = Some [FTop os] /\ ps.(pb).(actors) !! c = Some ac /\
      ps2.(pb).(ran) = ps.(pb).(ran) /\ panicked ps2.(pb) q /\ ps2.(dead) = ps.(dead) /\
      jobs_of ps2 q = Some (match o with ODesync _ => qq.(jobs) ++ [JPlain ac.(opctr)] | _ => qq.(jobs) end).
  Proof.
    intros Hd Hq Hst Eq Hp. unfold stack_of in Hst. destruct (actors (pb ps) !! c) as [ac|] eqn:Ea; [|done]. cbn in Hst. injection Hst as Hst.
    assert (Hs : exists f, step T F (pb ps) c = Some (setstack (updq (pb ps) q f) c [FTop os]) /\ qs (f qq) = Panicked /\
                 jobs (f qq) = match o with ODesync _ => jobs qq ++ [JPlain (opctr ac)] | _ => jobs qq end).
    { unfold step. rewrite Ea. cbn -[setstack updq]. rewrite Hst.
      destruct o as [q0|q0|q0]; cbn in Hq; subst q0; cbn -[setstack updq]; rewrite Eq; cbn -[setstack updq]; rewrite Hp;
        [rewrite (pl_desync T HL)|rewrite (pl_sync T HL)|rewrite (pl_try T HL)]; eexists; (split; [reflexivity|done]). }
    destruct Hs as (f & Hs & Hf1 & Hf2).
    destruct (pstep_l1 T F PF ps c ac _ Hd Ea Hs) as (ps2 & G1 & G2 & G3); [unfold pclos; rewrite Hst; by destruct o|rewrite Hst; by destruct o|].
    exists ps2, ac. split; [done|]. unfold stack_of, jobs_of. rewrite G2.
    split; [rewrite actors_setstack_lookup, decide_True by done; change (actors (updq ?Y _ _)) with (actors Y); by rewrite Ea|].
    split; [done|]. split; [done|]. split; [by apply (panicked_ss _ _ _ _ _ qq Eq)|]. split; [done|]. by rewrite queues_ss, Eq, <- Hf2.
  Qed.

  Context (HT : own_conditions T) (HP : ptab T).

  Lemma pstep_other ps a ps' c st : pstep T F PF ps a = Some ps' -> a <> c -> c ∉ ps.(dead) ->
    stack_of ps c = Some st -> (forall q r, st <> FSBwait q :: r) -> stack_of ps' c = Some st /\ c ∉ ps'.(dead).
  Proof.
    intros Hs Hne Hcd Hst Hnw. unfold stack_of in *.
    destruct (actors (pb ps) !! c) as [acc|] eqn:Ec; [|done]. cbn in Hst. injection Hst as Hst.
    assert (Hl1 : forall Y s', actors Y !! c = Some acc -> step T F Y a = Some s' -> stack <$> actors s' !! c = Some st).
    { intros Y s' EY HY. destruct (step_others T F Y a s' HY c acc (not_eq_sym Hne) EY) as (x' & -> & [E|(q & r & E1 & E2)]); cbn; [by rewrite E, Hst|].
      rewrite Hst in E1. by destruct (Hnw q r). }
    destruct (pstep_inv T F PF ps a ps' Hs) as [Hdead [ac _ _ _ Hs1 Hdd|ac r _ _ Hs1 Hdd|ac q0 o rest dies _ _ _ Hb Hdd]]; rewrite Hdd.
    - split; [by eapply Hl1|done].
    - split; [|intros Hin; by eapply Hcd, reap_sub]. eapply Hl1; [|done]. by rewrite reap_other.
    - rewrite Hb. split.
      + rewrite actors_setstack_lookup, decide_False by done. change (actors (updq ?Y _ _)) with (actors Y).
        destruct (drop_job_actor (pb ps) (top_job ac) c acc Ec) as (x & -> & Hx & _); [rewrite Hst; exact Hnw|]. cbn. by rewrite Hx, Hst.
      + destruct dies; [|done]. intros [E|Hin]%elem_of_cons; [by apply Hne|done].
  Qed.

  Definition ccount (c : nat) (tr : list nat) : nat := length (filter (fun a => a = c) tr).

  (* the whole call: whatever the other actors do in between, the caller can always move, and after two steps of its own it is
     back at its script; nothing is recorded as run by its steps (loud_call, loud_return) *)
  Theorem loud_bounded ps0 c o os q : OInv ps0 -> panicked ps0.(pb) q -> c ∉ ps0.(dead) -> op_q o = q ->
    stack_of ps0 c = Some [FTop (o :: os)] ->
    forall tr ps, prun T F PF ps0 tr = Some ps ->
      match ccount c tr with
      | 0 => stack_of ps c = Some [FTop (o :: os)] /\ c ∉ ps.(dead) /\ is_Some (pstep T F PF ps c)
      | 1 => stack_of ps c = Some [call_frame o; FTop os] /\ c ∉ ps.(dead) /\
             exists ps2, pstep T F PF ps c = Some ps2 /\ stack_of ps2 c = Some [FTop os] /\ ps2.(pb).(ran) = ps.(pb).(ran)
      | _ => True
      end.
  Proof.
    intros HI0 Hq0 Hd0 Hoq Hst0 tr. induction tr as [|a tr IH] using rev_ind; intros ps Hr.
    - unfold prun in Hr; cbn in Hr. injection Hr as <-. cbn. split; [done|]. split; [done|].
      destruct (loud_call ps0 c o os Hd0 Hst0) as (ps1 & H1 & _). by eexists.
    - rewrite prun_snoc in Hr. destruct (prun T F PF ps0 tr) as [ps1|] eqn:Hr1; [|done]. cbn in Hr. specialize (IH ps1 eq_refl).
      assert (HI1 : OInv ps1) by (eapply prun_inv; eauto).
      assert (Hq : panicked (pb ps) q).
      { eapply pstep_keeps_panicked with (ps := ps1) (a := a); try eassumption. eapply prun_panicked with (ps := ps0) (tr := tr); eassumption. }
      unfold ccount in *. rewrite list.filter_app, app_length. destruct (decide (a = c)) as [->|Hne].
      + rewrite filter_cons_True by done. cbn [length filter]. rewrite Nat.add_1_r.
        destruct (length (filter (fun a => a = c) tr)) as [|[|n]]; [|done|done].
        destruct IH as (Hst1 & Hd1 & _). destruct (loud_call ps1 c o os Hd1 Hst1) as (ps' & H1 & H2 & H3 & H4 & H5).
        rewrite Hr in H1. injection H1 as <-. split; [done|]. split; [by rewrite H5|].
        destruct Hq as (qq & Eq & Hp). destruct (loud_return ps c o os q qq) as (ps2 & ac & G1 & G2 & _ & G4 & _); try done; [by rewrite H5|].
        by exists ps2.
      + rewrite filter_cons_False by done. cbn [length filter]. rewrite Nat.add_0_r.
        destruct (length (filter (fun a => a = c) tr)) as [|[|n]]; [| |done].
        * destruct IH as (Hst1 & Hd1 & _). destruct (pstep_other ps1 a ps c _ Hr Hne Hd1 Hst1) as [H1 H2]; [done|].
          split; [done|]. split; [done|]. destruct (loud_call ps c o os H2 H1) as (ps' & G1 & _). by eexists.
        * destruct IH as (Hst1 & Hd1 & _). destruct (pstep_other ps1 a ps c _ Hr Hne Hd1 Hst1) as [H1 H2]; [by destruct o|].
          split; [done|]. split; [done|].
          destruct Hq as (qq & Eq & Hp). destruct (loud_return ps c o os q qq) as (ps2 & ac & G1 & G2 & _ & G4 & _); try done. by exists ps2.
  Qed.

  Corollary caller_alive nq mx scripts tr ps c st fr : prun T F PF (pinit nq mx scripts) tr = Some ps ->
    stack_of ps c = Some st -> list.last st = Some fr -> is_top fr = true -> c ∉ ps.(dead).
  Proof.
    intros Hr Hst Hl Ht Hin. destruct (dead_are_pool_threads T F PF HT _ _ _ _ _ Hr c Hin) as (ac & t & Ea & Est).
    unfold stack_of in Hst. rewrite Ea in Hst. cbn in Hst. injection Hst as <-. rewrite Est in Hl. cbn in Hl. injection Hl as <-. done.
  Qed.
End Loud.
