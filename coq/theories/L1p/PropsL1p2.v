(* C15 on the scheduler model, second part: a call that STARTS on a Panicked queue fails loudly (L1p/Loud.v).

   Hypotheses: own_conditions, ptab, and ploud T: the entry tables answer Panic on a Panicked queue.
   The bound is 2: from any reachable state in which q is Panicked and the live caller c is at its script with sync / try_sync / desync
   on q next, whatever the other actors do in between (further panics and reaps included), c can move as long as it has made fewer than
   two steps of its own, and its second step puts it back at its script with [ran] unchanged: it reaches no FSBwait and no lock frame.
   sync and try_sync leave the stored jobs as they are; desync has appended its job (schedule_job_desync pushes before it looks at the
   state).  The model has no separate "panicked outcome" of a call: the call returns to the script at once, its closure not run.
   That the operation is not run LATER either is PropsL1p4.C15p_call_on_panicked_queue_never_runs; that every caller satisfies
   `c ∉ dead` is PropsL1p3 (only pool threads die: the panic step marks an actor dead only at FDRrun). *)
From stdpp Require Import list numbers option.
From L0 Require Import Types.
From Gen Require Import Tables.
From L1 Require Import Model Own Shape Stuck.
From L1p Require Import Model OwnP Absorb MainP Loud PropsL1p.

Theorem C15p_call_on_panicked_queue_starts : forall (T : tables) (F : facts) (PF : pfacts) ps c o os,
  c ∉ ps.(dead) -> stack_of ps c = Some [FTop (o :: os)] ->
  exists ps1, pstep T F PF ps c = Some ps1 /\ stack_of ps1 c = Some [call_frame o; FTop os] /\
    ps1.(pb).(ran) = ps.(pb).(ran) /\ ps1.(pb).(queues) = ps.(pb).(queues) /\ ps1.(dead) = ps.(dead).
Proof. exact loud_call. Qed.

Theorem C15p_call_on_panicked_queue_returns : forall (T : tables) (F : facts) (PF : pfacts), ploud T ->
  forall ps c o os q qq, c ∉ ps.(dead) -> op_q o = q -> stack_of ps c = Some [call_frame o; FTop os] ->
    ps.(pb).(queues) !! q = Some qq -> qq.(qs) = Panicked ->
    exists ps2 ac, pstep T F PF ps c = Some ps2 /\ stack_of ps2 c = Some [FTop os] /\ ps.(pb).(actors) !! c = Some ac /\
      ps2.(pb).(ran) = ps.(pb).(ran) /\ panicked ps2.(pb) q /\ ps2.(dead) = ps.(dead) /\
      jobs_of ps2 q = Some (match o with ODesync _ => qq.(jobs) ++ [JPlain ac.(opctr)] | _ => qq.(jobs) end).
Proof. exact loud_return. Qed.

Theorem C15p_fails_loudly_bounded : forall (T : tables) (F : facts) (PF : pfacts), ploud T -> own_conditions T -> ptab T ->
  forall nq mx scripts tr0 ps0 c o os q,
    prun T F PF (pinit nq mx scripts) tr0 = Some ps0 -> panicked ps0.(pb) q -> c ∉ ps0.(dead) -> op_q o = q ->
    stack_of ps0 c = Some [FTop (o :: os)] ->
    forall tr ps, prun T F PF ps0 tr = Some ps ->
      match ccount c tr with
      | 0 => stack_of ps c = Some [FTop (o :: os)] /\ c ∉ ps.(dead) /\ is_Some (pstep T F PF ps c)
      | 1 => stack_of ps c = Some [call_frame o; FTop os] /\ c ∉ ps.(dead) /\
             exists ps2, pstep T F PF ps c = Some ps2 /\ stack_of ps2 c = Some [FTop os] /\ ps2.(pb).(ran) = ps.(pb).(ran)
      | _ => True
      end.
Proof.
  exact (fun T F PF HL HT HP nq mx scripts tr0 ps0 c o os q Hr0 =>
           loud_bounded T F PF HL HT HP ps0 c o os q (prun_inv T F PF HT tr0 _ _ (pinit_inv nq mx scripts) Hr0)).
Qed.

Lemma clp_ploud : ploud gen_tables.
Proof. split; cbn; try done; by intros []. Qed.
Theorem C15p_fails_loudly_bounded_now : forall (F : facts) (PF : pfacts) nq mx scripts tr0 ps0 c o os q,
  prun gen_tables F PF (pinit nq mx scripts) tr0 = Some ps0 -> panicked ps0.(pb) q -> c ∉ ps0.(dead) -> op_q o = q ->
  stack_of ps0 c = Some [FTop (o :: os)] ->
  forall tr ps, prun gen_tables F PF ps0 tr = Some ps ->
    match ccount c tr with
    | 0 => stack_of ps c = Some [FTop (o :: os)] /\ c ∉ ps.(dead) /\ is_Some (pstep gen_tables F PF ps c)
    | 1 => stack_of ps c = Some [call_frame o; FTop os] /\ c ∉ ps.(dead) /\
           exists ps2, pstep gen_tables F PF ps c = Some ps2 /\ stack_of ps2 c = Some [FTop os] /\ ps2.(pb).(ran) = ps.(pb).(ran)
    | _ => True
    end.
Proof. exact (fun F PF => C15p_fails_loudly_bounded gen_tables F PF clp_ploud clp_own clp_ptab). Qed.

(* non-vacuity: caller 0: D0[panic]; after the pool thread (actor 2) has panicked, caller 1 calls sync, try_sync and desync on object 0:
   six steps, each call returns at once, nothing runs, only the desync's job (operation 3) is stored in the Panicked queue *)
Definition exL_scripts : list (list (op * bool)) := [[(ODesync 0, true)]; [(OSync 0, false); (OTrySync 0, false); (ODesync 0, false)]].
Definition exL_tr0 : list nat := [0; 0; 0; 0; 0; 0; 0; 0; 2; 2; 2; 2; 2; 2; 2].
Example C15p_fails_loudly_example :
  (exists ps0, prun gen_tables gen_facts pf_code (pinit 1 1 exL_scripts) exL_tr0 = Some ps0 /\
     (qs <$> ps0.(pb).(queues)) = [Panicked] /\ ps0.(dead) = [2] /\
     stack_of ps0 1 = Some [FTop [OSync 0; OTrySync 0; ODesync 0]]) /\
  (exists ps, prun gen_tables gen_facts pf_code (pinit 1 1 exL_scripts) (exL_tr0 ++ [1; 1; 1; 1; 1; 1]) = Some ps /\
     stack_of ps 1 = Some [FTop []] /\ (qs <$> ps.(pb).(queues)) = [Panicked] /\ (jobs <$> ps.(pb).(queues)) = [[JPlain 3]] /\
     ps.(pb).(ran) = [] /\ pterminal_b gen_tables gen_facts pf_code ps = true).
Proof. split; eexists; (split; [vm_compute; reflexivity|]); repeat split. Qed.

Print Assumptions C15p_call_on_panicked_queue_starts.
Print Assumptions C15p_call_on_panicked_queue_returns.
Print Assumptions C15p_fails_loudly_bounded.
Print Assumptions C15p_fails_loudly_bounded_now.
Print Assumptions C15p_fails_loudly_example.
