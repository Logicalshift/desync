(* The panic step (a closure panics: its queue becomes Panicked, the thread unwinds) preserves the liveness invariants. *)
From stdpp Require Import list numbers list_numbers option.
From RecordUpdate Require Import RecordUpdate.
From L1 Require Import Model Own Shape Stuck Live Wait Help Final Pool.
From L1p Require Import Model StepP OwnP Absorb MainP ShapeP MaskP TouchP AllP.

Lemma mask_drop_job P s j : maskP P (drop_job s j) = drop_job (maskP P s) j.
Proof. unfold maskP. by rewrite drop_job_queues, drop_job_setq. Qed.
Lemma drop_job_updq s j q f : drop_job (updq s q f) j = updq (drop_job s j) q f.
Proof. unfold updq. by rewrite drop_job_setq, drop_job_queues. Qed.
Lemma QInv_drop_job s j : QInv s -> QInv (drop_job s j).
Proof. apply drop_job_closed; [|apply QInv_wake]. intros s0 c. apply QInv_same; [by apply stacks_upda_same|done..]. Qed.
Lemma KInv_drop_job s j : Shape s -> KInv s -> KInv (drop_job s j).
Proof.
  intros HS HK. apply (drop_job_closed (fun s => Shape s /\ KInv s)); [| |done].
  - intros s0 c [H1 H2]. split; [by apply Shape_kick|by apply KInv_kick].
  - intros s0 w ac q rest [H1 H2] Ew Es. split; [by eapply Shape_wake|by eapply KInv_wake].
Qed.
Lemma recvs_drop_job s j : recvs (drop_job s j) = recvs s.
Proof.
  apply (drop_job_closed (fun s' => recvs s' = recvs s)); [| |done].
  - intros s0 c <-. by apply recvs_upda_same.
  - intros s0 w ac q rest <- Ew Es. by eapply recvs_wake.
Qed.

Lemma mask_panic s j q qq a rest : s.(queues) !! q = Some qq ->
  mask (setstack (updq (drop_job s j) q panicked_queue) a rest) = setstack (updq (drop_job (mask s) j) q mq) a rest.
Proof.
  intros Hq. set (s' := setstack _ a rest). unfold mask.
  assert (Hqs : queues s' = alter panicked_queue q (queues s)) by (unfold s'; cbn; by rewrite drop_job_queues).
  assert (HP' : Pof s' q = true) by (unfold Pof; rewrite Hqs, list_lookup_alter, Hq; done).
  change (maskP (Pof s') (setstack (updq (drop_job s j) q panicked_queue) a rest) = setstack (updq (drop_job (maskP (Pof s) s) j) q mq) a rest).
  rewrite mask_setstack, mask_updq_in by exact HP'. rewrite mask_drop_job. f_equal. rewrite <- drop_job_updq. f_equal.
  unfold maskP, updq. cbn -[mqs].
  assert (E : mqs (Pof s') (queues s) = alter mq q (mqs (Pof s) (queues s))); [|by rewrite E].
  apply list_eq. intros i. rewrite mqs_lookup. destruct (decide (i = q)) as [->|Hne].
  - rewrite list_lookup_alter, mqs_lookup, HP', Hq. cbn. by destruct (Pof s q).
  - rewrite list_lookup_alter_ne, mqs_lookup by done. assert (Pof s' i = Pof s i) as -> by (unfold Pof; by rewrite Hqs, list_lookup_alter_ne). done.
Qed.

Lemma panic_linv s a ac q o rest dies qq : Shape s -> s.(actors) !! a = Some ac -> pclos ac = Some (q, o, rest, dies) ->
  s.(queues) !! q = Some qq -> LInv s -> LInv (setstack (updq (drop_job s (top_job ac)) q panicked_queue) a rest).
Proof.
  intros HS Ea Hp Hq [HQ HKI].
  assert (HS0 : Shape (mask s)) by (by apply Shape_mask).
  pose proof (QInv_drop_job (mask s) (top_job ac) HQ) as HQ1. pose proof (KInv_drop_job (mask s) (top_job ac) HS0 HKI) as HK1.
  pose proof (drop_job_shape (mask s) (top_job ac) HS0) as HS1.
  destruct (drop_job_self (mask s) (top_job ac) a ac q o rest dies Ea Hp) as (ac1 & Ea1 & _ & _ & Hp1).
  pose proof (mask_panic s (top_job ac) q qq a rest Hq) as Em.
  revert Em HQ1 HK1 HS1 Ea1. generalize (drop_job (mask s) (top_job ac)). intros sM Em HQ1 HK1 HS1 Ea1.
  pose proof (pclos_shape sM a ac1 q o rest dies HS1 Ea1 Hp1) as Hc.
  split; rewrite Em.
  - eapply (QInv_update sM _ a ac1 q mq rest HQ1 Ea1); [ob_stacks|obs_q2|ob_sched_same| |].
    + intros f Hh Hf. by destruct Hc as [os E _|j g os E _ _|j t E _]; rewrite E in Hh; injection Hh as <-.
    + intros qq0 _ _. split; cbn; [by left|done|done].
  - eapply (K_update sM _ a ac1 rest HK1 Ea1); [ob_stacks|ob_len| | |].
    + eapply (takeable_mono sM _ q mq); [ob_sched_sub|obs_q2|done].
    + intros _. destruct Hc as [os E Hlt|j g os E _ Hlt|j t E ->].
      * eapply (live_mono_caller sM _ a ac1); [exact Ea1|exact Hlt|ob_stacks|ob_nc|ob_threads_same].
      * eapply (live_mono_caller sM _ a ac1); [exact Ea1|exact Hlt|ob_stacks|ob_nc|ob_threads_same].
      * eapply (live_mono_pool sM _ t ac1 [FTlock t]); [exact Ea1|ob_stacks|ob_nc|done|ob_threads_same].
    + intros Hh. by destruct Hc as [os E _|j g os E _ _|j t E _]; rewrite E in Hh.
Qed.
