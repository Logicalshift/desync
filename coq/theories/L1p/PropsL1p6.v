(* C15 on the scheduler model, sixth part: the positive half of "the pool replaces the thread it lost; other objects remain fully usable".

   Hypotheses of L1's L-quiet theorem (core_tables, own_conditions, f_dormant_blocks = true, pool maximum >= 1, wf_scripts) and ptab.
   In a reachable state in which nobody can move and no dead pool thread is left ([dead ps = []]: a scheduling call came after the last
   death - that is what C15p_next_scheduling_call_restores_capacity says the next call establishes - or no pool thread died at all)
   every non-Panicked queue is Idle and empty, every pool thread is dormant, every actor has finished its script, waits in FSBwait, or is
   a dormant pool thread.  For all pfacts (either reap), all programs with panic flags, all schedules.
   The invariants behind it (AllP: SInv, WF, PoolInv on the state; QInv and KInv on the masked state, in which Panicked queues are
   replaced by idle, empty ones) hold in EVERY reachable state, dead threads or not.
   Not stated: that the healthy queues are absent from the schedule (L1's invariants do not exclude stale entries of Idle queues
   either).  That a caller left in FSBwait waits on a Panicked queue, and the ids, are PropsL1p7. *)
From stdpp Require Import list numbers list_numbers option.
From L0 Require Import Types.
From Gen Require Import Tables.
From L1 Require Import Model Own Shape Stuck Live Help.
From L1h Require Import Inst.
From L1p Require Import Model OwnP Absorb MainP ShapeP QuietP MaskP AllP QuietAll PropsL1p.

Theorem C15p_liveness_invariants_reachable : forall (T : tables) (F : facts) (PF : pfacts),
  core_tables T -> own_conditions T -> F.(f_dormant_blocks) = true -> ptab T ->
  forall nq mx scripts tr ps, wf_scripts nq (map fst <$> scripts) -> 1 <= mx ->
    prun T F PF (pinit nq mx scripts) tr = Some ps -> AllP ps.
Proof.
  exact preach_allp.
Qed.

Theorem C15p_quiescent_is_complete_when_reaped : forall (T : tables) (F : facts) (PF : pfacts),
  core_tables T -> own_conditions T -> F.(f_dormant_blocks) = true -> ptab T ->
  forall nq mx scripts tr ps, wf_scripts nq (map fst <$> scripts) -> 1 <= mx ->
    prun T F PF (pinit nq mx scripts) tr = Some ps -> pterminal T F PF ps -> ps.(dead) = [] ->
    (forall q qq, ps.(pb).(queues) !! q = Some qq -> qq.(qs) <> Panicked -> qq.(qs) = Idle /\ qq.(jobs) = []) /\
    (forall t th, ps.(pb).(threads) !! t = Some th ->
       th.(busy) = false /\ th.(chan) = 0 /\ stacks ps.(pb) !! (ncallers ps.(pb) + t) = Some [FTrecv t]) /\
    (forall a ac, ps.(pb).(actors) !! a = Some ac -> stuck_ok ps.(pb) ac.(stack)).
Proof.
  exact (fun T F PF HK HT HF HPT nq mx scripts tr ps Hwf Hm Hr =>
           quiescent_reaped T F PF ps (preach_allp T F PF HK HT HF HPT nq mx scripts tr ps Hwf Hm Hr)).
Qed.

Theorem C15p_quiescent_is_complete_when_reaped_now : forall (PF : pfacts) nq mx scripts tr ps,
  wf_scripts nq (map fst <$> scripts) -> 1 <= mx ->
    prun gen_tables gen_facts PF (pinit nq mx scripts) tr = Some ps -> pterminal gen_tables gen_facts PF ps -> ps.(dead) = [] ->
    (forall q qq, ps.(pb).(queues) !! q = Some qq -> qq.(qs) <> Panicked -> qq.(qs) = Idle /\ qq.(jobs) = []) /\
    (forall t th, ps.(pb).(threads) !! t = Some th ->
       th.(busy) = false /\ th.(chan) = 0 /\ stacks ps.(pb) !! (ncallers ps.(pb) + t) = Some [FTrecv t]) /\
    (forall a ac, ps.(pb).(actors) !! a = Some ac -> stuck_ok ps.(pb) ac.(stack)).
Proof.
  exact (fun PF => C15p_quiescent_is_complete_when_reaped gen_tables gen_facts PF clh_core clp_own clh_dormant_blocks clp_ptab).
Qed.

Print Assumptions C15p_liveness_invariants_reachable.
Print Assumptions C15p_quiescent_is_complete_when_reaped.
Print Assumptions C15p_quiescent_is_complete_when_reaped_now.
