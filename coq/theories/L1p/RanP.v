(* L1p: [ran] grows only by the step of an actor at a closure frame, by the operation of that frame *)
From stdpp Require Import list numbers option.
From RecordUpdate Require Import RecordUpdate.
From L1 Require Import Model Own Shape Stuck.
From L1h Require Import Hist.
From L1n Require Import Model Eff.
From L1p Require Import Model StepP.

(* the operation whose closure the top frame is about to finish *)
Definition clos_id (ac : actor) : option nat :=
  match ac.(stack) with
  | FSIrun _ :: _ => Some ac.(opctr)
  | FROrun _ j :: _ | FDRrun _ j :: _ => Some (job_op j)
  | _ => None
  end.
Lemma job_op_id j : job_op j = job_id j. Proof. by destruct j. Qed.
(* L1n's clos_op, with Model.job_op for Hist.job_id *)
Lemma clos_id_op ac : clos_id ac = clos_op ac.
Proof. unfold clos_id, clos_op. destruct (stack ac) as [|[] ?]; by rewrite ?job_op_id. Qed.

Lemma reap_ran PF ds s : (reap PF s ds).1.(ran) = s.(ran).
Proof. by destruct (reap_frame PF ds s) as (A & Th & ->). Qed.

Section RanP.
  Context (T : tables) (F : facts) (PF : pfacts).

  Lemma step_ran s a s' ac : step T F s a = Some s' -> s.(actors) !! a = Some ac ->
    s'.(ran) = s.(ran) \/ exists i, clos_id ac = Some i /\ s'.(ran) = i :: s.(ran).
  Proof.
    intros Hs Ea. rewrite clos_id_op.
    by destruct (step_stepped T F s a s' ac Hs Ea) as (ac' & _ & _ & [(o & os & rest & _ & _ & _ & _ & Hr)|(_ & _ & _ & _ & Hr)]); [left|].
  Qed.

  Theorem pstep_ran ps a ps' : pstep T F PF ps a = Some ps' ->
    ps'.(pb).(ran) = ps.(pb).(ran) \/
    exists ac i, ps.(pb).(actors) !! a = Some ac /\ clos_id ac = Some i /\ ps'.(pb).(ran) = i :: ps.(pb).(ran).
  Proof.
    intros Hs. destruct (pstep_inv T F PF ps a ps' Hs) as [Hdead [ac Ea _ _ Hs1 _|ac r Ea Est Hs1 _|ac q0 o rest dies _ _ _ -> _]].
    - destruct (step_ran _ a _ ac Hs1 Ea) as [?|(i & H1 & H2)]; [by left|right; by exists ac, i].
    - left. rewrite <- (reap_ran PF (dead ps) (pb ps)).
      destruct (step_ran _ a _ ac Hs1) as [H1|(i & H1 & _)]; [by rewrite (reap_other PF (dead ps) (pb ps) a Hdead)|done|].
      unfold clos_id in H1. by rewrite Est in H1.
    - left. by destruct (drop_job_frame (pb ps) (top_job ac)) as [A ->].
  Qed.
End RanP.
