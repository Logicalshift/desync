(* Assembly: the liveness invariants along runs with panics, and the terminal theorem when no dead thread is left. *)
From stdpp Require Import list numbers list_numbers option.
From RecordUpdate Require Import RecordUpdate.
From L1 Require Import Model Own Shape Stuck Live Wait Help Final Pool.
From L1h Require Import WeakWF.
From L1p Require Import Model StepP OwnP Absorb MainP DeadP ShapeP QuietP MaskP TouchP AllP PanicP ReapP.

Record AllP (ps : pstate) : Prop := {
  ap_s : SInv ps; ap_wf : WF ps.(pb); ap_pool : PoolInv ps.(pb); ap_l : LInv ps.(pb); ap_m : 1 <= ps.(pb).(maxt) }.

Lemma reap_maxt PF ds s : (reap PF s ds).1.(maxt) = s.(maxt).
Proof. by destruct (reap_frame PF ds s) as (A & Th & ->). Qed.

Section Assemble.
  Context (T : tables) (F : facts) (PF : pfacts) (HK : core_tables T) (HT : own_conditions T) (HF : F.(f_dormant_blocks) = true) (HPT : ptab T).

  Lemma l1_parts s a s' : Shape s -> Inv s -> PoolInv s -> LInv s -> 1 <= s.(maxt) -> step T F s a = Some s' ->
    PoolInv s' /\ LInv s' /\ 1 <= s'.(maxt).
  Proof.
    intros HS HI HP HL Hm Hs. split; [by eapply step_pool|]. split; [by eapply (step_linv T F HK HT HF HPT)|]. assert (maxt s' = maxt s) as -> by (eapply step_maxt; eauto); done.
  Qed.

  Lemma allp_step ps a ps' : AllP ps -> pstep T F PF ps a = Some ps' -> AllP ps'.
  Proof.
    intros [HSI HW HP HL Hm] Hs. pose proof HSI as [HPI HD HS HW'].
    assert (Hparts : PoolInv ps'.(pb) /\ LInv ps'.(pb) /\ 1 <= ps'.(pb).(maxt));
      [|destruct Hparts as (G1 & G2 & G3); split; [by eapply (sinv_step T F PF HT)|by eapply (wf_step T F PF)|done|done|done]].
    destruct HPI as (HI & Hdk & Hnd).
    destruct (pstep_inv T F PF ps a ps' Hs) as [Hdead [ac _ _ _ Hs1 _|ac r Ea Est Hs1 _|ac q0 o rest dies Ea Hp _ -> _]].
    - by eapply l1_parts.
    - destruct (reap_shape PF (dead ps) (pb ps) HS HW' Hnd HD) as [G1 G2].
      destruct (reap_qp PF (dead ps) (pb ps) HS HW' Hnd HD (li_q _ HL) HP) as [G3 G4].
      pose proof (reap_maxt PF (dead ps) (pb ps)) as G5.
      pose proof (reap_other PF (dead ps) (pb ps) a Hdead) as Hro.
      revert Hs1 G1 G2 G3 G4 G5 Hro. generalize (reap PF (pb ps) (dead ps)).1 (pb ps'). intros s1 s' E G1 G2 G3 G4 G5 Hro.
      split; [by eapply step_pool|]. split; [|assert (maxt s' = maxt s1) as -> by (eapply step_maxt; eauto); lia].
      rewrite Ea in Hro. rewrite (step_lock T F s1 a ac r Hro Est) in E.
      destruct (free (threads_held s1)); [|done]. injection E as <-.
      split.
      + unfold mask. rewrite (Pof_queues _ s1) by done. rewrite mask_setstack.
        eapply (QInv_noq (mask s1) _ a ac _ G3 Hro); [ob_stacks|done|ob_sched_same|by rewrite Est].
      + intros _. eapply (helper_new_top (mask s1) _ a ac (FSTscan 0 :: r) Hro).
        * unfold mask. rewrite (Pof_queues _ s1) by done. rewrite mask_setstack. ob_stacks.
        * cbn. intros t Ht. lia.
    - assert (Hq : exists qq, queues (pb ps) !! q0 = Some qq).
      { apply lookup_lt_is_Some_2. pose proof (WF_self _ a ac HW Ea) as Hf.
        destruct (pclos_stack ac q0 o rest dies Hp) as [(E1 & _)|[(j & g & E1 & _)|(j & t & E1 & _)]]; rewrite E1 in Hf; cbn in Hf;
          apply andb_true_iff in Hf as [Hf _]; by apply bool_decide_eq_true in Hf. }
      destruct Hq as [qq Hq].
      split; [by eapply (panic_pool (pb ps) a ac q0 o rest dies)|]. split; [by eapply (panic_linv (pb ps) a ac q0 o rest dies qq)|].
      cbn. by destruct (drop_job_frame (pb ps) (top_job ac)) as [A ->].
  Qed.

  Lemma allp_run tr : forall ps ps', AllP ps -> prun T F PF ps tr = Some ps' -> AllP ps'.
  Proof. apply prun_ind, allp_step. Qed.
End Assemble.

Lemma pinit_allp nq mx scripts : wf_scripts nq (map fst <$> scripts) -> 1 <= mx -> AllP (pinit nq mx scripts).
Proof.
  intros Hwf Hm. split; [| by apply init_wf | apply init_pool | | exact Hm].
  - apply pinit_sinv.
  - split.
    + intros q qq Hq. assert (Hi : qs qq = Idle /\ jobs qq = []).
      { unfold mask, maskP in Hq. cbn -[mqs Pof] in Hq. rewrite mqs_lookup in Hq. destruct (replicate nq _ !! q) as [x|] eqn:E; [|done]. apply lookup_replicate in E as [-> _].
        cbn in Hq. injection Hq as <-. by destruct (Pof _ q). }
      destruct Hi as [H1 H2]. split; [by left|intros Hp; rewrite H1 in Hp; discriminate|intros _ Hj; by rewrite H2 in Hj].
    + intros (q & qq & Hin & _). cbn in Hin. by apply elem_of_nil in Hin.
Qed.

Theorem preach_allp T F PF : core_tables T -> own_conditions T -> F.(f_dormant_blocks) = true -> ptab T ->
  forall nq mx scripts tr ps, wf_scripts nq (map fst <$> scripts) -> 1 <= mx -> prun T F PF (pinit nq mx scripts) tr = Some ps -> AllP ps.
Proof. intros HK HT HF HPT nq mx scripts tr ps Hwf Hm. by apply (allp_run T F PF HK HT HF HPT), pinit_allp. Qed.

Section TerminalAll.
  Context (T : tables) (F : facts) (PF : pfacts).

  Theorem quiescent_reaped ps : AllP ps -> pterminal T F PF ps -> ps.(dead) = [] ->
    (forall q qq, ps.(pb).(queues) !! q = Some qq -> qq.(qs) <> Panicked -> qq.(qs) = Idle /\ qq.(jobs) = []) /\
    (forall t th, ps.(pb).(threads) !! t = Some th ->
       th.(busy) = false /\ th.(chan) = 0 /\ stacks ps.(pb) !! (ncallers ps.(pb) + t) = Some [FTrecv t]) /\
    (forall a ac, ps.(pb).(actors) !! a = Some ac -> stuck_ok ps.(pb) ac.(stack)).
  Proof.
    intros [HSI HW HP [HQ HKI] Hm] Hterm Hdead. pose proof HSI as [HPI HD HS HW'].
    destruct (pterminal_stuck T F PF ps HSI HW Hterm) as [Hst0 HB1].
    assert (Hstuck : forall a ac, actors (pb ps) !! a = Some ac -> stuck_ok (pb ps) (stack ac))
      by (intros a ac Ea; apply (Hst0 a ac Ea); rewrite Hdead; apply not_elem_of_nil).
    revert HW HP HQ HKI Hm HS HW' HB1 Hstuck. generalize (pb ps). clear. intros s HW HP HQ HKI Hm HS HW' HB1 Hstuck.
    assert (HA : forall f, has_top (mask s) f -> stuck_frame f).
    { intros f (b & st & Hb & Hh). change (stacks (mask s)) with (stacks s) in Hb. rewrite stacks_lookup in Hb.
      destruct (actors s !! b) as [ab|] eqn:Eb; [|done]. injection Hb as <-. eapply stuck_hd; [by eapply Hstuck|done]. }
    assert (Hlk : forall q qq, queues s !! q = Some qq -> qs qq <> Panicked -> queues (mask s) !! q = Some qq).
    { intros q qq Hq Hn. unfold mask. rewrite mask_lookup_out; [done|]. unfold Pof. rewrite Hq. by destruct (qs qq). }
    (* the pool threads *)
    assert (Hpool : forall t th, threads s !! t = Some th -> chan th = 0 /\ stacks s !! (ncallers s + t) = Some [FTrecv t] /\ busy th = false).
    { intros t th Ht. pose proof HS as [L _ _ Po _ _ _].
      assert (Hi : ncallers s + t < length (actors s)) by (apply lookup_lt_Some in Ht; unfold ncallers; lia).
      destruct (lookup_lt_is_Some_2 _ _ Hi) as [ap Eap]. specialize (Po t ap Eap). pose proof (Hstuck _ ap Eap) as Hsk.
      destruct (stack ap) as [|fr rest] eqn:Es; [done|]. apply pool_ok_inv in Po as [(-> & Hfr)|(-> & Hfr)]; [|by destruct fr].
      destruct fr; try done. cbn in Hfr. apply bool_decide_eq_true in Hfr. subst. cbn in Hsk. destruct Hsk as (th' & Ht' & Hch). rewrite Ht in Ht'. injection Ht' as <-.
      assert (Hst : stacks s !! (ncallers s + t) = Some [FTrecv t]) by (rewrite stacks_lookup, Eap; cbn; by rewrite Es).
      assert (Hps : pool_state_ok th [FTrecv t] = true) by (by apply (HP t th)).
      unfold pool_state_ok in Hps. rewrite Hch in Hps. split; [done|]. split; [done|]. by destruct (busy th). }
    (* no healthy queue is Pending *)
    assert (HB2 : forall q qq, queues s !! q = Some qq -> qs qq <> Panicked -> qs qq <> Pending).
    { intros q qq Hq Hn Hp. destruct (HQ q qq (Hlk q qq Hq Hn)) as [C1 C2 C3]. destruct (C2 Hp) as [Hj [Hs|[Hs|Hs]]]; [|by apply HA in Hs|by apply HA in Hs].
      assert (Htk : takeable (mask s)) by (exists q, qq; split; [exact Hs|]; split; [by apply Hlk|done]).
      (* a helper of the masked state is one of s: helper reads stacks and threads only *)
      destruct (HKI Htk : helper s) as [(t & th & st & G1 & G2 & G3 & G4)|(b & st & Hb & Hc)].
      - destruct (Hpool t th G1) as (_ & E2 & E3). congruence.
      - rewrite stacks_lookup in Hb. destruct (actors s !! b) as [ab|] eqn:Eb; [|done]. injection Hb as <-.
        pose proof (hclause_htop _ _ Hc) as Hh. pose proof (Hstuck b ab Eb) as Hsk.
        destruct (stack ab) as [|fr rest]; [done|]. pose proof (stuck_hd s _ fr Hsk eq_refl) as Hf. by destruct fr. }
    split; [|split; [|exact Hstuck]].
    - intros q qq Hq Hn. destruct (HQ q qq (Hlk q qq Hq Hn)) as [C1 C2 C3]. destruct C1 as [Hc|[Hc|Hc]]; [|by destruct (HB2 q qq Hq Hn)|by destruct (HB1 q qq Hq)].
      split; [done|]. destruct (decide (jobs qq = [])) as [Hj|Hne]; [done|]. exfalso. specialize (C3 Hc Hne). by apply HA in C3.
    - intros t th Ht. destruct (Hpool t th Ht) as (E1 & E2 & E3). done.
  Qed.
End TerminalAll.
