(* L1p: only pool threads die: a dead actor sits at [FTlock t] (the frame under the job it was running) for ever - until the reap
   re-initialises its slot.  So a caller at its script, or inside a call, is never in [dead] (Loud.caller_alive): the hypothesis
   `c ∉ dead` of the fails-loudly theorems can be dropped. *)
From stdpp Require Import list numbers option.
From RecordUpdate Require Import RecordUpdate.
From L1 Require Import Model Own Shape Stuck.
From L1n Require Import Eff.
From L1p Require Import Model StepP.

Definition dead_lock (ps : pstate) : Prop :=
  forall a, a ∈ ps.(dead) -> exists ac t, ps.(pb).(actors) !! a = Some ac /\ ac.(stack) = [FTlock t].

Section DeadP.
  Context (T : tables) (F : facts) (PF : pfacts).

  (* only a waiter inside FSBwait is ever moved by somebody else's step *)
  Lemma step_keeps_dead s a s' b : step T F s a = Some s' -> b <> a -> dead_at s b -> dead_at s' b.
  Proof.
    intros Hs Hne (acb & t & Eb & Est).
    destruct (step_others T F s a s' Hs b acb Hne Eb) as (x' & Ex & [E|(q & r & E1 & E2)]); [|by rewrite Est in E1].
    exists x', t. split; [done|]. by rewrite E.
  Qed.

  Lemma dead_lock_step ps a ps' : NoDup ps.(dead) -> dead_lock ps -> pstep T F PF ps a = Some ps' -> dead_lock ps' /\ NoDup ps'.(dead).
  Proof.
    intros Hnd HL Hs.
    destruct (pstep_inv T F PF ps a ps' Hs) as [Hdead [ac Ea _ _ Hs1 Hdd|ac r Ea _ Hs1 Hdd|ac q0 o rest dies Ea Hp _ Hb Hdd]];
      unfold dead_lock; rewrite Hdd.
    - split; [|done]. intros b Hin. apply (step_keeps_dead _ a _ b Hs1); [by intros ->|by apply HL].
    - split; [|by apply reap_nodup]. intros b Hin. pose proof (reap_sub PF _ _ b Hin) as Hb.
      apply (step_keeps_dead _ a _ b Hs1); [by intros ->|]. unfold dead_at. rewrite (reap_keeps PF _ _ Hnd b Hin). by apply HL.
    - rewrite Hb.
      assert (Hold : forall b, b ∈ dead ps -> dead_at (setstack (updq (drop_job (pb ps) (top_job ac)) q0 panicked_queue) a rest) b).
      { intros b Hb'. destruct (HL b Hb') as (acb & t & Eb & Est). assert (Hne : a <> b) by (intros ->; done).
        unfold dead_at. rewrite actors_setstack_lookup, decide_False by done. change (actors (updq ?Y _ _)) with (actors Y).
        destruct (drop_job_actor (pb ps) (top_job ac) b acb Eb) as (x & Ex & Hx & _); [by rewrite Est|]. exists x, t. by rewrite Hx. }
      destruct dies; [|by split]. split; [|by constructor]. intros b [->|Hin]%elem_of_cons; [|by apply Hold].
      unfold dead_at. rewrite actors_setstack_lookup, decide_True by done. change (actors (updq ?Y _ _)) with (actors Y).
      destruct (drop_job_self (pb ps) (top_job ac) a ac q0 o rest true Ea Hp) as (x & -> & _). cbn.
      destruct (pclos_stack ac q0 o rest true Hp) as [(_ & ? & _)|[(j & g & _ & _ & ? & _)|(j & t & _ & -> & _)]]; try done. by eexists _, _.
  Qed.
End DeadP.
