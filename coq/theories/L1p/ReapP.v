(* PoolInv through the panic step; QInv of the masked state and PoolInv through the reap pass. *)
From stdpp Require Import list numbers list_numbers option.
From RecordUpdate Require Import RecordUpdate.
From L1 Require Import Model Own Shape Stuck Live Wait Help Final Pool.
From L1h Require Import WeakWF.
From L1p Require Import Model StepP OwnP Absorb MainP DeadP ShapeP MaskP TouchP AllP PanicP.

Lemma panic_pool s a ac q o rest dies : Shape s -> s.(actors) !! a = Some ac -> pclos ac = Some (q, o, rest, dies) ->
  PoolInv s -> PoolInv (setstack (updq (drop_job s (top_job ac)) q panicked_queue) a rest).
Proof.
  intros HS Ea Hp HP.
  destruct (drop_job_self s (top_job ac) a ac q o rest dies Ea Hp) as (ac1 & Ea1 & Est1 & _).
  assert (Hrec : is_recv rest = is_recv (stack ac1)).
  { rewrite Est1. by destruct (pclos_shape s a ac q o rest dies HS Ea Hp) as [os -> _|j g os -> [-> | ->] _|j t -> _]. }
  unfold PoolInv. eapply (PoolInv_view2 _ s); [| |exact HP].
  - etrans; [|apply (recvs_drop_job s (top_job ac))]. eapply (recvs_update (updq (drop_job s (top_job ac)) q panicked_queue) _ a ac1 rest); [exact Ea1|ob_stacks|exact Hrec].
  - unfold bc. cbn. by rewrite drop_job_threads.
Qed.

Section ReapInv.
  Context (PF : pfacts).

  Lemma reap_one_q s a s1 : dead_at s a -> reap_one PF s a = Some s1 -> QInv (mask s) -> QInv (mask s1).
  Proof.
    intros (ac & t0 & Ea & Est) (t & th & _ & _ & ->)%reap_one_form HQ.
    unfold mask. rewrite (Pof_queues _ s) by done. rewrite mask_setstack, mask_updt.
    eapply (QInv_noq (maskP (Pof s) s) _ a ac _ HQ Ea); [ob_stacks|done|ob_sched_same|by rewrite Est].
  Qed.

  Lemma reap_one_pool s a s1 : Shape s -> reap_one PF s a = Some s1 -> PoolInv s -> PoolInv s1.
  Proof.
    intros HS (t & th & Et & Hta & ->)%reap_one_form HP. rewrite (sh_tactor s HS t th Et) in Hta. subst a.
    intros t' th' st' Ht' Hs'. rewrite ncallers_setstack, ncallers_updt in Hs'. rewrite stacks_setstack_lookup in Hs'.
    rewrite threads_setstack, threads_updt_lookup in Ht'. destruct (decide (t = t')) as [<-|Hne].
    - rewrite decide_True in Hs' by done. rewrite Et in Ht'. cbn in Ht'. injection Ht' as <-.
      destruct (stacks _ !! _); [|done]. cbn in Hs'. injection Hs' as <-. done.
    - rewrite decide_False in Hs' by lia. by apply (HP t' th' st').
  Qed.

  Lemma reap_qp ds s : Shape s -> WF' s -> NoDup ds -> (forall a, a ∈ ds -> dead_at s a) ->
    QInv (mask s) -> PoolInv s -> QInv (mask (reap PF s ds).1) /\ PoolInv (reap PF s ds).1.
  Proof.
    intros HS HW Hnd Hd HQ HP.
    refine (proj2 (reap_preserves_dead PF (fun s => (Shape s /\ WF' s) /\ QInv (mask s) /\ PoolInv s) ds _ s Hnd Hd (conj (conj HS HW) (conj HQ HP)))).
    intros s0 a s1 (HSW & HQ0 & HP0) Ha E. split; [by eapply reap_one_shape|]. split; [by eapply reap_one_q|]. eapply reap_one_pool; [apply HSW|done..].
  Qed.
End ReapInv.
