(* JInv (where is the job of a thread inside sync_background?) through the panic step and the reap pass, along runs with panics;
   and: in a reachable terminal state without dead threads, a caller left in the condition-variable wait waits on a Panicked queue. *)
From stdpp Require Import list numbers list_numbers option.
From RecordUpdate Require Import RecordUpdate.
From L1 Require Import Model Own Shape Stuck Live Wait Help Final Pool.
From L1h Require Import WeakWF.
From L1p Require Import Model StepP OwnP Absorb MainP DeadP ShapeP QuietP MaskP TouchP AllP PanicP ReapP QuietAll.

Lemma drop_run_view F s j :
  stacks (drop_job s (Some j)) = stacks (run_job F s j) /\ readys (drop_job s (Some j)) = readys (run_job F s j) /\
  queues (drop_job s (Some j)) = queues (run_job F s j).
Proof.
  destruct j as [o|o c|o c]; cbn [drop_job run_job].
  - done.
  - split; [by rewrite stacks_upda_same|]. split; [by rewrite readys_upda_same|done].
  - set (s1 := upda s c _). set (s2 := upda (s <| ran := _ |>) c _).
    assert (H1 : stacks s1 = stacks s2) by (subst s1 s2; rewrite !stacks_upda_same by done; reflexivity).
    assert (H2 : readys s1 = readys s2).
    { subst s1 s2. unfold readys, upda; cbn. apply list_eq; intros i; rewrite !list_lookup_fmap.
      destruct (decide (c = i)) as [->|]; [rewrite !list_lookup_alter|rewrite !list_lookup_alter_ne by done; done]. by destruct (actors s !! i). }
    assert (H4 : stack <$> actors s1 !! c = stack <$> actors s2 !! c) by (rewrite <- !stacks_lookup; by rewrite H1).
    destruct (actors s1 !! c) as [a1|], (actors s2 !! c) as [a2|]; cbn in H4; try done. injection H4 as H4. rewrite <- H4.
    destruct (stack a1) as [|[] r]; try done. rewrite !stacks_setstack, !readys_setstack, H1. done.
Qed.

Lemma panic_j (F : facts) s a ac q o rest dies : Shape s -> s.(actors) !! a = Some ac -> pclos ac = Some (q, o, rest, dies) ->
  JInv s -> JInv (setstack (updq (drop_job s (top_job ac)) q panicked_queue) a rest).
Proof.
  intros HS Ea Hp HJ.
  assert (Hrest : wp_q rest = None /\ (forall q0, hd_error rest <> Some (FSBwait q0)) /\ (forall j0, ~ run_top rest j0)).
  { destruct (pclos_shape s a ac q o rest dies HS Ea Hp) as [os _ _|j g os _ _ _|j t _ _]; (split; [done|]; split; [done|]; intros j0 (q' & [H|H]); done). }
  destruct Hrest as (R1 & R2 & R3).
  destruct (top_job ac) as [j|] eqn:Htj.
  - (* a job frame: compare with the run of the job *)
    assert (Hrun : run_top (stack ac) j).
    { unfold top_job in Htj. destruct (stack ac) as [|[] ?]; try done; injection Htj as ->; eexists; [left|right]; reflexivity. }
    pose proof (JInv_run F s a ac j rest HJ Ea Hrun (or_introl R1) R2) as HY.
    destruct (drop_run_view F s j) as (V1 & V2 & V3).
    set (Y := setstack (run_job F s j) a rest) in *.
    assert (EaY : exists acY, actors Y !! a = Some acY /\ stack acY = rest).
    { unfold Y. rewrite actors_setstack_lookup, decide_True by done.
      assert (Hl : is_Some (actors (run_job F s j) !! a)) by (apply lookup_lt_is_Some_2; rewrite run_job_len; by eapply lookup_lt_Some).
      destruct Hl as [x Hx]. rewrite Hx. cbn. eauto. }
    destruct EaY as (acY & EaY & EstY).
    eapply (JInv_update Y _ a acY rest HY EaY).
    + rewrite stacks_setstack. unfold Y. rewrite stacks_setstack, list_insert_insert. f_equal. exact V1.
    + rewrite readys_setstack. unfold Y. rewrite readys_setstack. exact V2.
    + intros q0 qq0 o0 w0 H1 H2. unfold Y in H1. rewrite queues_setstack, <- V3 in H1.
      rewrite queues_setstack, queues_updq. case_decide as Hq; [subst q0; rewrite H1; cbn; eexists; split; [reflexivity|exact H2]|eauto].
    + intros o0 w0. rewrite EstY. apply R3.
    + right. by rewrite EstY.
    + intros q0 Hh. by destruct (R2 q0).
  - (* sync_immediate: no job *)
    cbn [drop_job]. eapply (JInv_update s _ a ac rest HJ Ea); [ob_stacks|by rewrite readys_setstack| | |by left|intros q0 Hh; by destruct (R2 q0)].
    + intros q0 qq0 o0 w0 H1 H2. rewrite queues_setstack, queues_updq. case_decide as Hq; [subst q0; rewrite H1; cbn; eexists; split; [reflexivity|exact H2]|eauto].
    + intros o0 w0 (q' & [H|H]); unfold top_job in Htj; destruct (stack ac) as [|[] ?]; done.
Qed.

Section ReapJ.
  Context (PF : pfacts).
  Lemma reap_one_j s a s1 : dead_at s a -> reap_one PF s a = Some s1 -> JInv s -> JInv s1.
  Proof.
    intros (ac & t0 & Ea & Est) (t & th & _ & _ & ->)%reap_one_form HJ.
    eapply (JInv_update s _ a ac [FTrecv t] HJ Ea); [ob_stacks|by rewrite readys_setstack|eauto| |by left|done].
    intros o0 w0 (q' & [H|H]); rewrite Est in H; done.
  Qed.
  Lemma reap_j ds s : NoDup ds -> (forall a, a ∈ ds -> dead_at s a) -> JInv s -> JInv (reap PF s ds).1.
  Proof. apply reap_preserves_dead. intros s0 a s1 HJ Ha E. by eapply reap_one_j. Qed.
End ReapJ.

Section JAssemble.
  Context (T : tables) (F : facts) (PF : pfacts).

  Lemma jinv_step ps a ps' : SInv ps -> JInv ps.(pb) -> pstep T F PF ps a = Some ps' -> JInv ps'.(pb).
  Proof.
    intros HSI HJ Hs. pose proof HSI as [HPI HD HS HW']. destruct HPI as (HI & Hdk & Hnd).
    destruct (pstep_inv T F PF ps a ps' Hs) as [_ [ac _ _ _ Hs1 _|ac r _ _ Hs1 _|ac q0 o rest dies Ea Hp _ -> _]].
    - by eapply step_j.
    - eapply step_j; [by apply (reap_shape PF (dead ps) (pb ps))|by apply reap_j|done].
    - by eapply (panic_j F (pb ps) a ac q0 o rest dies).
  Qed.

  Context (HT : own_conditions T).
  Lemma jinv_run tr ps ps' : SInv ps -> JInv ps.(pb) -> prun T F PF ps tr = Some ps' -> JInv ps'.(pb).
  Proof.
    intros H0 HJ Hr. refine (proj2 (prun_ind T F PF (fun x => SInv x /\ JInv x.(pb)) _ tr ps ps' (conj H0 HJ) Hr)).
    intros x a x' [H1 H2] Hs. split; [by eapply (sinv_step T F PF HT)|by eapply jinv_step].
  Qed.
  Theorem preach_jinv nq mx scripts tr ps : prun T F PF (pinit nq mx scripts) tr = Some ps -> JInv ps.(pb).
  Proof. apply jinv_run; [apply pinit_sinv|apply init_j]. Qed.
End JAssemble.

Section TerminalJ.
  Context (T : tables) (F : facts) (PF : pfacts).

  Theorem waiters_on_panicked ps : AllP ps -> JInv ps.(pb) -> pterminal T F PF ps -> ps.(dead) = [] ->
    forall w ac q rest, ps.(pb).(actors) !! w = Some ac -> ac.(stack) = FSBwait q :: rest -> panicked ps.(pb) q.
  Proof.
    intros HA HJ Hterm Hdead w ac q rest Ew Est.
    destruct (quiescent_reaped T F PF ps HA Hterm Hdead) as (C1 & _ & C3).
    destruct (HJ w ac Ew) as [J1 J2].
    assert (Hr : ready ac = false) by (apply (J2 q); by rewrite Est).
    destruct (J1 q) as [(qq & o & G1 & G2)|(b & st & o & G1 & (q' & G2))]; [by rewrite Est|done| |].
    - exists qq. split; [done|]. destruct (qs qq) eqn:E; try done; exfalso;
        (destruct (C1 q qq G1) as [_ Hj]; [by rewrite E|]; rewrite Hj in G2; by apply elem_of_nil in G2).
    - exfalso. rewrite stacks_lookup in G1. destruct (actors (pb ps) !! b) as [ab|] eqn:Eb; [|done]. injection G1 as <-.
      pose proof (C3 b ab Eb) as Hsk. destruct (stack ab) as [|fr r]; [by destruct G2|].
      pose proof (stuck_hd _ _ fr Hsk eq_refl) as Hf. destruct G2 as [G2|G2]; injection G2 as ->; done.
  Qed.
End TerminalJ.
