(* C15 on the scheduler model, seventh part: the complete form of the positive half.

   In a reachable state in which nobody can move and no dead pool thread is left, a caller still inside the condition-variable wait of
   sync_background (FSBwait q) waits on a Panicked queue q (JInv through the panic step and the reap, L1p/JInvP.v): every caller whose
   operations all go to healthy objects has finished its script.  And the ids accounted for (Mids: ran, pending on a queue, or called and
   not yet pushed) are exactly ran ++ the ids of the jobs stored on Panicked queues, without repetition.  Ids leave Mids only by a Busy /
   Panic answer or in a panic step (L1p/IdInv.v), so every issued id ran, is stored on a Panicked queue, or was dropped in one of those ways. *)
From stdpp Require Import list numbers list_numbers option.
From L0 Require Import Types.
From Gen Require Import Tables.
From L1 Require Import Model Own Shape Stuck Live Wait Help.
From L1h Require Import Sim Inst.
From L1p Require Import Model OwnP Absorb MainP ShapeP QuietP IdAbs IdInv OnceP MaskP AllP QuietAll JInvP IdsP PropsL1p.

Theorem C15p_only_waiters_on_panicked_queues_remain : forall (T : tables) (F : facts) (PF : pfacts),
  core_tables T -> own_conditions T -> F.(f_dormant_blocks) = true -> ptab T ->
  forall nq mx scripts tr ps, wf_scripts nq (map fst <$> scripts) -> 1 <= mx ->
    prun T F PF (pinit nq mx scripts) tr = Some ps -> pterminal T F PF ps -> ps.(dead) = [] ->
    forall w ac q rest, ps.(pb).(actors) !! w = Some ac -> ac.(stack) = FSBwait q :: rest -> panicked ps.(pb) q.
Proof.
  exact (fun T F PF HK HT HF HPT nq mx scripts tr ps Hwf Hm Hr =>
           waiters_on_panicked T F PF ps (preach_allp T F PF HK HT HF HPT nq mx scripts tr ps Hwf Hm Hr)
             (preach_jinv T F PF HT nq mx scripts tr ps Hr)).
Qed.

Theorem C15p_quiescent_is_complete_when_reaped_full : forall (T : tables) (F : facts) (PF : pfacts),
  core_tables T -> own_conditions T -> imm_conditions T -> F.(f_dormant_blocks) = true -> ptab T ->
  forall nq mx scripts tr ps, wf_scripts nq (map fst <$> scripts) -> 1 <= mx ->
    prun T F PF (pinit nq mx scripts) tr = Some ps -> pterminal T F PF ps -> ps.(dead) = [] ->
    (forall q qq, ps.(pb).(queues) !! q = Some qq -> qq.(qs) <> Panicked -> qq.(qs) = Idle /\ qq.(jobs) = []) /\
    (forall t th, ps.(pb).(threads) !! t = Some th ->
       th.(busy) = false /\ th.(chan) = 0 /\ stacks ps.(pb) !! (ncallers ps.(pb) + t) = Some [FTrecv t]) /\
    (forall a ac, ps.(pb).(actors) !! a = Some ac ->
       stuck_ok ps.(pb) ac.(stack) /\ forall q rest, ac.(stack) = FSBwait q :: rest -> panicked ps.(pb) q) /\
    Mids ps.(pb) = ps.(pb).(ran) ++ sumq (stored_panicked ps.(pb)) (nqs ps.(pb)) /\
    NoDup (Mids ps.(pb)).
Proof.
  exact (fun T F PF HK HT HI HF HPT nq mx scripts tr ps Hwf Hm Hr Hterm Hdead =>
    let HA := preach_allp T F PF HK HT HF HPT nq mx scripts tr ps Hwf Hm Hr in
    let HJ := preach_jinv T F PF HT nq mx scripts tr ps Hr in
    match quiescent_reaped T F PF ps HA Hterm Hdead with
    | conj C1 (conj C2 C3) =>
        conj C1 (conj C2 (conj
          (fun a ac Ea => conj (C3 a ac Ea) (fun q rest Est => waiters_on_panicked T F PF ps HA HJ Hterm Hdead a ac q rest Ea Est))
          (conj (ids_at_terminal T F PF ps HA Hterm Hdead) (proj1 (fi_i ps (preach_finv T F PF HT HI nq mx scripts tr ps Hr))))))
    end).
Qed.

Theorem C15p_quiescent_is_complete_when_reaped_full_now : forall (PF : pfacts) nq mx scripts tr ps,
  wf_scripts nq (map fst <$> scripts) -> 1 <= mx ->
    prun gen_tables gen_facts PF (pinit nq mx scripts) tr = Some ps -> pterminal gen_tables gen_facts PF ps -> ps.(dead) = [] ->
    (forall q qq, ps.(pb).(queues) !! q = Some qq -> qq.(qs) <> Panicked -> qq.(qs) = Idle /\ qq.(jobs) = []) /\
    (forall t th, ps.(pb).(threads) !! t = Some th ->
       th.(busy) = false /\ th.(chan) = 0 /\ stacks ps.(pb) !! (ncallers ps.(pb) + t) = Some [FTrecv t]) /\
    (forall a ac, ps.(pb).(actors) !! a = Some ac ->
       stuck_ok ps.(pb) ac.(stack) /\ forall q rest, ac.(stack) = FSBwait q :: rest -> panicked ps.(pb) q) /\
    Mids ps.(pb) = ps.(pb).(ran) ++ sumq (stored_panicked ps.(pb)) (nqs ps.(pb)) /\
    NoDup (Mids ps.(pb)).
Proof.
  exact (fun PF => C15p_quiescent_is_complete_when_reaped_full gen_tables gen_facts PF clh_core clp_own clh_imm clh_dormant_blocks clp_ptab).
Qed.

Print Assumptions C15p_only_waiters_on_panicked_queues_remain.
Print Assumptions C15p_quiescent_is_complete_when_reaped_full.
Print Assumptions C15p_quiescent_is_complete_when_reaped_full_now.
