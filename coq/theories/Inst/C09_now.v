(* C09 (layer L1) on the code as it is now *)
From stdpp Require Import list numbers option.
From RecordUpdate Require Import RecordUpdate.
From L0 Require Import Types.
From Gen Require Import Tables.
From L1 Require Import Model Own Shape Stuck Live TrySync.
From Props Require Import C09.
From Inst Require C01_now C03_now.

Lemma cl_trysync : trysync_conditions gen_tables.
Proof.
  split; cbn.
  - intros st e st' H. destruct st, e; inversion H; subst; done.
  - intros st e st' H. destruct st, e; inversion H; subst; done.
  - intros st e st' H. destruct st, e; inversion H; subst; done.
  - done.
Qed.
Lemma cl_own : own_conditions gen_tables.
Proof. exact C01_now.cl_own. Qed.
Lemma cl_core : core_tables gen_tables.
Proof. exact C03_now.cl_core. Qed.
Lemma cl_resched_after_idle_sync_immediate : fact_resched_after_idle_sync_immediate = true. Proof. reflexivity. Qed.
Lemma cl_guard_sync_immediate : fact_guard_sync_immediate = true. Proof. reflexivity. Qed.

Theorem C09_all_or_nothing_now : forall s a ac q rest qq s',
    s.(actors) !! a = Some ac -> ac.(stack) = FTS1 q :: rest -> s.(queues) !! q = Some qq -> step gen_tables gen_facts s a = Some s' ->
    (qq.(qs) = Idle /\ qq.(jobs) = [] /\
       s' = setstack (updq (updq s q (fun x => x <| qs := Running |>)) q (fun x => x <| owner := Some a |>)) a (FSIrun q :: rest))
    \/ ((qq.(qs) <> Idle \/ qq.(jobs) <> []) /\ s' = setstack s a rest).
Proof. exact (C09_try_sync_all_or_nothing gen_tables gen_facts cl_trysync). Qed.
Theorem C09_idle_now : forall nq mx scripts tr s q qq,
    run gen_tables gen_facts (init nq mx scripts) tr = Some s -> s.(queues) !! q = Some qq -> qq.(jobs) = [] -> qq.(owner) = None -> qq.(qs) = Idle.
Proof. exact (C09_quiescent_object_is_idle gen_tables gen_facts cl_core cl_own). Qed.
Print Assumptions C09_all_or_nothing_now.
Print Assumptions C09_idle_now.
