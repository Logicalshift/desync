(* C17 on the code as it is now: the structural facts the L1 pool model hard-codes are re-read from /repo/src on every run *)
From stdpp Require Import list numbers option.
From L0 Require Import Types.
From Gen Require Import Tables.
From L1 Require Import Model Stuck Pool.
From Props Require Import C17.

Lemma cl_spawn_cmp : fact_spawn_cmp = CLt. Proof. reflexivity. Qed.
Lemma cl_spawn_atomic : fact_spawn_test_and_push_one_section = true. Proof. reflexivity. Qed.
Lemma cl_despawn_cmp : fact_despawn_cmp = CGt. Proof. reflexivity. Qed.
Lemma cl_despawn_joins : fact_despawn_joins = true. Proof. reflexivity. Qed.
Lemma cl_retry_after_spawn : fact_schedule_thread_retries_after_spawn = true. Proof. reflexivity. Qed.

Theorem C17_now : forall nq mx scripts tr s,
    run gen_tables gen_facts (init nq mx scripts) tr = Some s ->
    length s.(threads) <= mx /\ s.(maxt) = mx /\ length s.(actors) = length scripts + length s.(threads).
Proof. exact (C17_pool_bounded gen_tables gen_facts). Qed.
Theorem C17_zero_now : forall nq scripts tr s,
    run gen_tables gen_facts (init nq 0 scripts) tr = Some s -> s.(threads) = [] /\ length s.(actors) = length scripts.
Proof. exact (C17_no_pool_thread_with_maximum_zero gen_tables gen_facts). Qed.

(* non-vacuity: a concrete program reaches the maximum and stays there *)
Example C17_nonvacuous :
  exists s, run gen_tables gen_facts (init 2 1 [[ODesync 0; ODesync 1]; [ODesync 1]]) [0;0;0;0;0;0;0;0;1;1] = Some s /\ length s.(threads) = 1.
Proof. eexists. split; vm_compute; reflexivity. Qed.
Print Assumptions C17_now.
