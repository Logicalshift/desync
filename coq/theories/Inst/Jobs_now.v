(* The job objects (src/scheduler/job.rs, future_job.rs, unsafe_job.rs) on the code as it is now.  Every model treats "run the job" as:
   a closure job runs its closure exactly once and is Ready; a future job creates its future on the first run, polls the SAME future on
   every later run, stays in the queue machinery's hands while Pending and is finished when Ready; a lifetime-erased job forwards to the
   borrowed job.  These shapes are hand-written in the models (L1: the frames FSIrun, FROrun, FDRrun; L2: FClosure frames and JFut NotCreated/Waiting) and re-read from the source here. *)
From Gen Require Import Tables.

Lemma cl_job_runs_action_once : fact_job_runs_action_once = true. Proof. reflexivity. Qed.
Lemma cl_futurejob_take_moves_out : fact_futurejob_take_moves_out = true. Proof. reflexivity. Qed.
Lemma cl_futurejob_keeps_future_when_pending : fact_futurejob_keeps_future_when_pending = true. Proof. reflexivity. Qed.
Lemma cl_unsafe_job_forwards_run : fact_unsafe_job_forwards_run = true. Proof. reflexivity. Qed.
Lemma cl_unsafe_job_signals_on_drop : fact_unsafe_job_signals_on_drop = true. Proof. reflexivity. Qed.
