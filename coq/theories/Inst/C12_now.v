(* C12 on the code as it is now: the pipe model's four fact parameters and its hard-coded structure are re-read from the source *)
From stdpp Require Import list numbers option.
From L0 Require Import Types.
From Gen Require Import Tables.
From Pipe Require Import Model Base Terminal PropsC12.

Definition gen_pfacts : pfacts := {| f_pending_recheck := fact_pending_arm_rechecks_closed; f_default_depth := fact_pipe_backpressure_count;
     f_poll_next_replaces_waker := fact_poll_next_stores_waker;
     f_drop_wakes_before_dispose := fact_stream_drop_wakes_before_dispose |}.

Lemma cl_poll_next_replaces_waker : gen_pfacts.(f_poll_next_replaces_waker) = true. Proof. reflexivity. Qed.
Lemma cl_default_depth_positive : 1 <= gen_pfacts.(f_default_depth). Proof. cbv. lia. Qed.
Lemma cl_backpressure_check_and_register_atomic : fact_backpressure_check_and_register_atomic = true. Proof. reflexivity. Qed.
Lemma cl_push_and_take_notify_atomic : fact_push_and_take_notify_atomic = true. Proof. reflexivity. Qed.
Lemma cl_close_sets_closed_then_wakes : fact_close_sets_closed_then_wakes = true. Proof. reflexivity. Qed.
Lemma cl_poll_next_pops_front : fact_poll_next_pops_front = true. Proof. reflexivity. Qed.
Lemma cl_poll_next_takes_backpressure : fact_poll_next_takes_backpressure = true. Proof. reflexivity. Qed.
Lemma cl_poll_next_stores_waker : fact_poll_next_stores_waker = true. Proof. reflexivity. Qed.
Lemma cl_pending_arm_sets_notify_closed : fact_pending_arm_sets_notify_closed = true. Proof. reflexivity. Qed.
Lemma cl_pipe_unbounded_loop : fact_pipe_unbounded_loop = true. Proof. reflexivity. Qed.
Lemma cl_pipe_core_weak : fact_pipe_core_weak = true. Proof. reflexivity. Qed.
Lemma cl_pipe_waker_one_shot : fact_pipe_waker_one_shot = true. Proof. reflexivity. Qed.
Lemma cl_pipe_context_weak_upgrade : fact_pipe_context_weak_upgrade = true. Proof. reflexivity. Qed.

Theorem C12_terminal_complete_now : forall (f : nat -> nat) inputs sl ext tr s,
    Forall (fun a => a <> ACSetDepth 0) tr -> run gen_pfacts f (init_slow gen_pfacts inputs sl ext) tr = Some s ->
    terminal gen_pfacts f s -> dropped s = false ->
    s.(delivered) = f <$> inputs /\ s.(got_end) = true /\ s.(cst) = CDone.
Proof. intros f inputs sl ext tr s. exact (C12_terminal_complete gen_pfacts f cl_poll_next_replaces_waker inputs sl ext tr s cl_default_depth_positive). Qed.
Print Assumptions C12_terminal_complete_now.

(* C12.2 on the code as it is now: a consumer that may poll at any time, each time with a fresh waker, is woken through the
   waker of its most recent Pending poll *)
Theorem C12_consumer_always_woken_now : forall (f : nat -> nat) inputs sl ext tr s,
    run gen_pfacts f (init_slow gen_pfacts inputs sl ext) tr = Some s ->
    (s.(cst) = CPend \/ s.(cst) = CRun true) -> (s.(pending) <> [] \/ s.(closed) = true) ->
    s.(notify) = None /\ (s.(cwoken) = true \/ cons_wake_inflight s = true).
Proof. intros f. exact (C12_consumer_always_woken gen_pfacts f cl_poll_next_replaces_waker). Qed.
Print Assumptions C12_consumer_always_woken_now.
