(* L1g: every L1 step is a move of the abstract pool machine *)
From stdpp Require Import list numbers option.
From RecordUpdate Require Import RecordUpdate.
From L1 Require Import Model Own Shape Stuck Live.
From L1g Require Import Count MView MSimBase.

(* evaluate a table on the three states a queue of the L1 model can be in *)
Ltac core_tab HK HQ :=
  match goal with Eq : queues _ !! ?q = Some ?qq |- _ =>
    let Hc := fresh "Hc" in
    destruct (qc_core _ _ _ (HQ _ _ Eq)) as [Hc|[Hc|Hc]];
    repeat match goal with E : context [qs qq] |- _ => lazymatch type of E with qs qq = _ => fail | _ => rewrite Hc in E end end;
    repeat match goal with
    | E : context [t_sync _ _ _] |- _ => first [rewrite (k_sync_i _ HK) in E | rewrite (k_sync_p _ HK) in E | rewrite (k_sync_r _ HK) in E]
    | E : context [t_trysync _ _ _] |- _ => first [rewrite (k_try_i _ HK) in E | rewrite (k_try_p _ HK) in E | rewrite (k_try_r _ HK) in E]
    | E : context [t_desync _ _] |- _ => first [rewrite (k_desync_i _ HK) in E | rewrite (k_desync_p _ HK) in E | rewrite (k_desync_r _ HK) in E]
    | E : context [t_resched _ _ _] |- _ => first [rewrite (k_resched_i _ HK) in E | rewrite (k_resched_p _ HK) in E | rewrite (k_resched_r _ HK) in E]
    | E : context [t_claim _ _] |- _ => first [rewrite (k_claim_i _ HK) in E | rewrite (k_claim_p _ HK) in E | rewrite (k_claim_r _ HK) in E]
    | E : context [t_next _ _] |- _ => first [rewrite (k_next_i _ HK) in E | rewrite (k_next_p _ HK) in E | rewrite (k_next_r _ HK) in E]
    | E : context [t_drain_fin _ Running _] |- _ => rewrite (k_fin _ HK) in E
    end;
    repeat match goal with E : context [if ?b then _ else _] |- _ => destruct b eqn:? end;
    simplify_eq
  end.

(* one of the three lists of the new state, from that of s: cbn exposes the update *)
Ltac list_tac := unfold scls, setstack, upda, updq, updt; cbn; rewrite <- ?list_alter_compose;
  first [ apply fmap_alter_const; intros ?; cbn; reflexivity | apply fmap_alter_same; intros ?; reflexivity | reflexivity ].
(* the new stack of a has the class of the old one *)
Ltac scls_same Ea Est :=
  lazymatch goal with
  | |- scls (setstack (upda ?Y ?a ?f) _ ?st) = _ =>
      rewrite (scls_setstack_same _ a st _ (actors_upda_self Y a f _ (Ea : actors Y !! a = Some _))) by (cbn; by rewrite Est); by rewrite scls_upda_same
  | |- scls (setstack ?X ?a ?st) = _ => by rewrite (scls_setstack_same X a st _ (Ea : actors X !! a = Some _)) by (by rewrite Est)
  end.

(* steps the pool view does not see: the three lists are the same *)
Ltac stutter_tac Ea Est :=
  lazymatch goal with |- mstep (mv ?s) (mv ?s1) => rewrite (mv_view s s1); [ apply M_stutter | reflexivity | list_tac | list_tac | scls_same Ea Est ] end.

(* a queue changes its state, nothing else *)
Ltac qflag_tac HK HQ Ea Est :=
  try core_tab HK HQ; try congruence;
  lazymatch goal with Eq : queues _ !! ?q = Some ?qq |- mstep (mv ?s) (mv ?s1) =>
    erewrite (mv_q s s1); cycle 1; [ reflexivity | list_tac | list_tac | scls_same Ea Est | ];
    apply mstep_qflag; first [left; reflexivity | right; rewrite mq_lookup, (pq_self _ _ _ Eq); unfold pendq; match goal with H : qs qq = _ |- _ => rewrite H end; reflexivity] end.
(* a queue becomes Pending and its caller enters schedule_thread *)
Ltac pend_tac HK HQ Hlt Hsc :=
  core_tab HK HQ; try congruence;
  lazymatch goal with Eq : queues _ !! ?q = Some ?qq |- mstep (mv ?s) (mv ?s1) =>
    erewrite (mv_caller s s1); cycle 1; [ reflexivity | exact Hlt | list_tac | list_tac | list_tac | ];
    apply M_pend; [rewrite mq_lookup, (pq_self _ _ _ Eq); unfold pendq; match goal with H : qs qq = _ |- _ => rewrite H end; reflexivity | rewrite ma_lookup, Hsc; reflexivity] end.

(* the scan of schedule_thread: it starts, passes a live thread, wakes a dormant one, ends, spawns or gives up *)
Ltac scan_tac HS HP Hlt Hsc :=
  lazymatch goal with
  | Et : threads ?s !! ?i = Some ?th, H2 : busy ?th = false |- mstep _ (mv ?s1) =>
      destruct (dormant_class s i th HS HP Et H2) as (x & Hx1 & Hx2);
      erewrite (mv_wake s s1); cycle 1; [ reflexivity | exact Hlt | list_tac | list_tac | list_tac | exact Hx1 | ];
      apply M_scan_wake; [rewrite ma_lookup, Hsc; reflexivity | exact Hx2]
  | Ea : actors ?s !! ?a = Some ?ac |- mstep _ (mv (setstack (_ <| threads := _ ++ [?nth] |> <| actors := _ ++ [?nac] |>) _ ?st)) =>
      rewrite (mv_spawn s a ac st nth nac HS Ea Hlt eq_refl eq_refl);
      eapply M_spawn; [ rewrite ma_lookup, Hsc; reflexivity | cbn; lia | apply noscan; done ]
  | |- mstep (mv ?s) (mv ?s1) =>
      erewrite (mv_caller s s1); cycle 1; [ reflexivity | exact Hlt | reflexivity | list_tac | list_tac | ];
      first
      [ apply M_scan0; rewrite ma_lookup, Hsc; reflexivity
      | match goal with Et : threads _ !! ?i = Some ?th, H1 : held ?th = false, H2 : busy ?th = true |- _ =>
          destruct (live_class s i th HS HP Et H1 H2) as (c & Hc1 & Hc2);
          eapply M_scan_next; [rewrite ma_lookup, Hsc; reflexivity | exact Hc1 | exact Hc2] end
      | match goal with Et : threads _ !! ?i = None |- _ =>
          eapply M_scan_end; [rewrite ma_lookup, Hsc; reflexivity | change (m_t (mv s)) with (tcls s); rewrite tcls_length by done; by apply lookup_ge_None] end
      | apply M_spawn_fail; [rewrite ma_lookup, Hsc; reflexivity | cbn; lia] ]
  end.

(* the pool actor of thread t0 moves: its thread exists; the view changes at t0 (and possibly at one queue) *)
Ltac pool_tac HS HK HQ s Ea Hsc t0 :=
  subst;
  assert (Hlt0 : t0 < length (threads s)) by (pose proof (sh_len s HS); apply lookup_lt_Some in Ea; unfold ncallers in Ea; lia);
  destruct (lookup_lt_is_Some_2 _ _ Hlt0) as [th0 Et0];
  assert (Hbt0 : bt s t0 = Some (busy th0)) by (unfold bt; by rewrite Et0);
  try core_tab HK HQ; try congruence;
  lazymatch goal with |- mstep (mv s) (mv ?s1) =>
    erewrite (mv_pool s s1); cycle 1;
    [ reflexivity | list_tac
    | first [ list_tac | etrans; [list_tac|]; symmetry; apply list_insert_id; rewrite list_lookup_fmap, Et0; reflexivity ]
    | list_tac | exact Hsc | reflexivity | ] end.

Section MSim.
  Context (T : tables) (F : facts) (HK : core_tables T) (HF : F.(f_dormant_blocks) = true).

  Lemma step_msim s a s' : Shape s -> Inv s -> WF s -> PoolInv s -> QInv s -> step T F s a = Some s' -> mstep (mv s) (mv s').
  Proof.
    intros HS HIv HW HP HQ (ac & fr & rest & m & new & Ea & Est & He & ->)%step_eff.
    pose proof (sc_self s a ac Ea) as Hsc. rewrite Est in Hsc.
    pose proof (WF_self s a ac HW Ea) as Hwf. rewrite Est in Hwf. cbn [forallb] in Hwf. apply andb_true_iff in Hwf as [Hfrok _].
    pose proof (shape_top s a ac fr rest HS Ea Est) as Hsh.
    destruct He; try congruence; shape_inv Hsh; cbn [frame_ok] in Hfrok; cbn [app]; unfold spawn.
    (* wake-ups before the stepping actor replaces its stack are invisible *)
    all: lazymatch goal with |- context [foldl] => rewrite mv_notify | |- context [run_job] => rewrite mv_run_job | _ => idtac end.
    all: lazymatch type of Est with
      | _ = FD1 _ :: _ => idtac | _ = FS1 _ :: _ => idtac | _ = FTS1 _ :: _ => idtac | _ = FRQ1 _ :: _ => idtac
      | _ = FSIidle _ :: _ => idtac | _ = FSDidle _ :: _ => idtac | _ = FSBstealidle _ :: _ => idtac | _ = FDRfin _ :: _ => idtac
      | _ = FSTlock :: _ => idtac | _ = FSTscan _ :: _ => idtac | _ = FSTspawn :: _ => idtac
      | _ = FTrecv _ :: _ => idtac | _ = FTrelnone _ :: _ => idtac
      | _ = FSBclaim _ :: _ => lazymatch goal with |- context [updq] => idtac | _ => stutter_tac Ea Est end
      | _ = FTexam _ :: _ => lazymatch goal with |- mstep _ (mv (setstack _ _ (FTexam _ :: _))) => stutter_tac Ea Est | _ => idtac end
      | _ = FTop _ :: _ => destruct o; stutter_tac Ea Est
      | _ => stutter_tac Ea Est
      end.
    (* the queue the step works on exists; its owner is running it *)
    all: lazymatch goal with
      | Eq : queues _ !! _ = Some _ |- _ => idtac
      | _ => try (apply bool_decide_eq_true in Hfrok; destruct (queue_exists s _ Hfrok) as [qq Eq])
      end.
    all: try (match goal with Eq : queues _ !! ?q = Some ?qq |- _ => assert (Hrun : qs qq = Running)
               by (eapply (cnt_owner s a ac q qq HIv Ea); [|exact Eq]; rewrite Est; cbn [cnt owns_b]; rewrite bool_decide_true by done; lia) end).
    all: lazymatch type of Est with
      | _ = FSTlock :: _ => scan_tac HS HP Hlt Hsc
      | _ = FSTscan _ :: _ => scan_tac HS HP Hlt Hsc
      | _ = FSTspawn :: _ => scan_tac HS HP Hlt Hsc
      (* the woken thread starts *)
      | _ = FTrecv ?t :: _ => pool_tac HS HK HQ s Ea Hsc t;
          rewrite Et0 in Et; injection Et as <-;
          assert (Hb : busy th0 = true)
            by (pose proof (HP t th0 (stack ac) Et0 ltac:(by rewrite stacks_lookup, Ea)) as Hps; rewrite Est in Hps; unfold pool_state_ok in Hps;
                rewrite Hchan in Hps; by destruct (busy th0));
          rewrite list_insert_id; [exact (M_stutter (mv s))|];
          change (m_t (mv s)) with (tcls s); rewrite tcls_lookup, Hbt0, Hsc; cbn; by rewrite Hb
      | _ = FTexam ?t :: _ => pool_tac HS HK HQ s Ea Hsc t;
          lazymatch goal with
          (* the thread takes the first Pending queue *)
          | Eq : queues _ !! ?q = Some ?qq |- _ =>
              apply (M_take (mv s));
              [ change (m_t (mv s)) with (tcls s); rewrite tcls_lookup, Hbt0, Hsc; reflexivity
              | rewrite mq_lookup, (pq_self _ _ _ Eq); unfold pendq; match goal with H : qs qq = _ |- _ => rewrite H end; reflexivity ]
          (* nothing scheduled, the thread goes dormant *)
          | _ => apply (M_leave (mv s)); [|by apply pending_le_fresh];
              change (m_t (mv s)) with (tcls s); rewrite tcls_lookup, Hbt0, Hsc; reflexivity
          end
      (* the thread is dormant *)
      | _ = FTrelnone ?t :: _ => pool_tac HS HK HQ s Ea Hsc t;
          eapply (M_thread (mv s) t TLeaving TDormant); [|by right];
          change (m_t (mv s)) with (tcls s); rewrite tcls_lookup, Hbt0, Hsc; reflexivity
      | _ = FDRfin _ :: _ =>
          lazymatch goal with
          (* the queue is drained, the thread returns to the schedule *)
          | E : t_drain_fin _ _ _ = (_, true) |- _ => pool_tac HS HK HQ s Ea Hsc t0;
              lazymatch goal with Eq : queues _ !! ?q = Some ?qq |- _ =>
                rewrite (list_insert_id (m_q (mv s))) by (rewrite mq_lookup, (pq_self _ _ _ Eq); unfold pendq; by rewrite Hrun) end;
              eapply (M_thread (mv s) t0 TWorking THeading); [|by left];
              change (m_t (mv s)) with (tcls s); rewrite tcls_lookup, Hbt0, Hsc; reflexivity
          | _ => qflag_tac HK HQ Ea Est
          end
      | _ => lazymatch goal with
          | E : t_desync _ _ = (_, DASchedule) |- _ => pend_tac HK HQ Hlt Hsc
          | E : t_resched _ _ _ = (_, true) |- _ => pend_tac HK HQ Hlt Hsc
          | _ => qflag_tac HK HQ Ea Est
          end
      end.
  Qed.
End MSim.
