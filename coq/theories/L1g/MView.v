(* L1g: what the pool argument looks at.  Definitions only.
   A queue: is it Pending.  A pool thread: dormant / heading for the schedule / working on a queue / leaving.
   An actor: is it inside schedule_thread (fresh, scanning at i, after the scan) or not.  The pool: how many threads may still be spawned. *)
From stdpp Require Import list numbers option.
From RecordUpdate Require Import RecordUpdate.
From L1 Require Import Model Shape.
From L1g Require Import Count.

Inductive tcl := TDormant | THeading | TWorking | TLeaving.
#[export] Instance tcl_eq_dec : EqDecision tcl. Proof. solve_decision. Defined.
Inductive pcl := PRecv | PHead | PLeave | PWork.
Definition pclass (st : list frame) : pcl :=
  match st with
  | [FTrecv _] => PRecv
  | [FTlock _] | [FTnext _] | [FTexam _] => PHead
  | [FTrelnone _] => PLeave
  | _ => PWork
  end.
Definition tcl_of (b : bool) (c : pcl) : tcl :=
  match c with PRecv => if b then THeading else TDormant | PHead => THeading | PLeave => TLeaving | PWork => TWorking end.
Definition tclass (th : pthread) (st : list frame) : tcl := tcl_of th.(busy) (pclass st).
Definition tcls (s : state) : list tcl := zip_with tclass s.(threads) (drop (ncallers s) (stacks s)).

Inductive acl := AFresh | AScan (i : nat) | ASpawn | AOther.
Definition aclass (st : list frame) : acl :=
  match st with
  | FD2 _ :: _ | FRQ2 _ :: _ | FSTlock :: _ => AFresh
  | FSTscan i :: _ => AScan i
  | FSTspawn :: _ => ASpawn
  | _ => AOther
  end.
Definition pendq (qq : queue) : bool := match qq.(qs) with Pending => true | _ => false end.

Record mview := { m_q : list bool; m_t : list tcl; m_a : list acl; m_c : nat }.
Definition mv (s : state) : mview :=
  {| m_q := pendq <$> s.(queues); m_t := tcls s; m_a := aclass <$> stacks s; m_c := s.(maxt) - length s.(threads) |}.

Definition livec (c : tcl) : bool := match c with THeading | TWorking => true | _ => false end.
Definition headc (c : tcl) : bool := match c with THeading => true | _ => false end.
Definition freshc (c : acl) : bool := match c with AFresh => true | _ => false end.
Definition spawnc (c : acl) : bool := match c with ASpawn => true | _ => false end.
(* a scan is still meaningful if every thread it has passed is live *)
Definition scanok (T : list tcl) (c : acl) : bool := match c with AScan i => forallb livec (take i T) | _ => false end.

Definition nP (v : mview) : nat := countb id v.(m_q).
Definition nH (v : mview) : nat := countb headc v.(m_t).
Definition nN (v : mview) : nat := countb (fun c => negb (livec c)) v.(m_t).
Definition nF (v : mview) : nat := countb freshc v.(m_a).
Definition nS (v : mview) : nat := countb spawnc v.(m_a).
Definition nM (v : mview) : nat := countb (scanok v.(m_t)) v.(m_a).

(* the matching invariant: schedule_thread calls in flight cover the Pending queues that have no thread heading for
   the schedule - or they cover all the idle capacity of the pool (dormant threads and threads that may still be spawned) *)
Definition InvM (v : mview) : Prop := Nat.min (nP v - nH v) (nN v + v.(m_c)) <= nF v + nM v + Nat.min (nS v) v.(m_c).

Definition improves (c c' : tcl) : Prop := (c = TWorking /\ c' = THeading) \/ (c = TLeaving /\ c' = TDormant).
Inductive mstep (v : mview) : mview -> Prop :=
| M_stutter : mstep v v
| M_pend q a : v.(m_q) !! q = Some false -> v.(m_a) !! a = Some AOther ->
    mstep v {| m_q := <[q := true]> v.(m_q); m_t := v.(m_t); m_a := <[a := AFresh]> v.(m_a); m_c := v.(m_c) |}
| M_unpend q : mstep v {| m_q := <[q := false]> v.(m_q); m_t := v.(m_t); m_a := v.(m_a); m_c := v.(m_c) |}
| M_take t q : v.(m_t) !! t = Some THeading -> v.(m_q) !! q = Some true ->
    mstep v {| m_q := <[q := false]> v.(m_q); m_t := <[t := TWorking]> v.(m_t); m_a := v.(m_a); m_c := v.(m_c) |}
| M_scan0 a : v.(m_a) !! a = Some AFresh ->
    mstep v {| m_q := v.(m_q); m_t := v.(m_t); m_a := <[a := AScan 0]> v.(m_a); m_c := v.(m_c) |}
| M_scan_next a i c : v.(m_a) !! a = Some (AScan i) -> v.(m_t) !! i = Some c -> livec c = true ->
    mstep v {| m_q := v.(m_q); m_t := v.(m_t); m_a := <[a := AScan (S i)]> v.(m_a); m_c := v.(m_c) |}
| M_scan_wake a i : v.(m_a) !! a = Some (AScan i) -> v.(m_t) !! i = Some TDormant ->
    mstep v {| m_q := v.(m_q); m_t := <[i := THeading]> v.(m_t); m_a := <[a := AOther]> v.(m_a); m_c := v.(m_c) |}
| M_scan_end a i : v.(m_a) !! a = Some (AScan i) -> length v.(m_t) <= i ->
    mstep v {| m_q := v.(m_q); m_t := v.(m_t); m_a := <[a := ASpawn]> v.(m_a); m_c := v.(m_c) |}
| M_spawn a c' : v.(m_a) !! a = Some ASpawn -> v.(m_c) = S c' -> (forall b i, v.(m_a) !! b <> Some (AScan i)) ->
    mstep v {| m_q := v.(m_q); m_t := v.(m_t) ++ [TDormant]; m_a := <[a := AFresh]> v.(m_a) ++ [AOther]; m_c := c' |}
| M_spawn_fail a : v.(m_a) !! a = Some ASpawn -> v.(m_c) = 0 ->
    mstep v {| m_q := v.(m_q); m_t := v.(m_t); m_a := <[a := AOther]> v.(m_a); m_c := v.(m_c) |}
| M_leave t : v.(m_t) !! t = Some THeading -> nP v <= nF v ->
    mstep v {| m_q := v.(m_q); m_t := <[t := TLeaving]> v.(m_t); m_a := v.(m_a); m_c := v.(m_c) |}
| M_thread t c c' : v.(m_t) !! t = Some c -> improves c c' ->
    mstep v {| m_q := v.(m_q); m_t := <[t := c']> v.(m_t); m_a := v.(m_a); m_c := v.(m_c) |}.
