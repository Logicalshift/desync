(* L1g: counting the elements of a list that satisfy a boolean predicate *)
From stdpp Require Import list list_numbers numbers option.

Definition b2n (b : bool) : nat := if b then 1 else 0.
Fixpoint countb {A} (p : A -> bool) (l : list A) : nat :=
  match l with [] => 0 | x :: r => b2n (p x) + countb p r end.
Lemma b2n_le b : b2n b <= 1. Proof. destruct b; cbn; lia. Qed.
Lemma b2n_true b : b = true -> b2n b = 1. Proof. by intros ->. Qed.
Lemma b2n_false b : b = false -> b2n b = 0. Proof. by intros ->. Qed.
Arguments b2n : simpl never.

Lemma countb_app {A} (p : A -> bool) l1 l2 : countb p (l1 ++ l2) = countb p l1 + countb p l2.
Proof. induction l1 as [|x l1 IH]; cbn; [done|]. rewrite IH. lia. Qed.
Lemma countb_insert {A} (p : A -> bool) l i x y : l !! i = Some x ->
  countb p (<[i:=y]> l) + b2n (p x) = countb p l + b2n (p y).
Proof.
  revert i. induction l as [|z l IH]; intros [|i] H; try done.
  - injection H as ->. change (<[0:=y]> (x :: l)) with (y :: l). cbn [countb]. lia.
  - change (<[S i:=y]> (z :: l)) with (z :: <[i:=y]> l). cbn [countb]. specialize (IH i H). lia.
Qed.
Ltac blia := unfold b2n in *; lia.
Lemma countb_mono {A} (p p' : A -> bool) l : (forall x, x ∈ l -> p x = true -> p' x = true) -> countb p l <= countb p' l.
Proof.
  induction l as [|x l IH]; intros H; cbn; [done|].
  assert (IH' : countb p l <= countb p' l) by (apply IH; intros y Hy; apply H; by right).
  destruct (p x) eqn:E; [rewrite (H x) by (done || by left)|]; destruct (p' x); blia.
Qed.
Lemma countb_ext {A} (p p' : A -> bool) l : (forall x, x ∈ l -> p x = p' x) -> countb p l = countb p' l.
Proof.
  induction l as [|x l IH]; intros H; cbn; [done|]. rewrite (H x) by (by left). rewrite IH; [done|]. intros y Hy. apply H. by right.
Qed.
Lemma countb_insert_mono {A} (p p' : A -> bool) l i x y : l !! i = Some x ->
  (forall z, z ∈ l -> p z = true -> p' z = true) ->
  countb p l + b2n (p' y) <= countb p' (<[i:=y]> l) + b2n (p x).
Proof.
  revert i. induction l as [|z l IH]; intros [|i] Hi Hm; try done.
  - injection Hi as ->. change (<[0:=y]> (x :: l)) with (y :: l). cbn [countb].
    assert (countb p l <= countb p' l) by (apply countb_mono; intros w Hw; apply Hm; by right). lia.
  - change (<[S i:=y]> (z :: l)) with (z :: <[i:=y]> l). cbn [countb].
    assert (IH' : countb p l + b2n (p' y) <= countb p' (<[i:=y]> l) + b2n (p x)) by (apply IH; [done|]; intros w Hw; apply Hm; by right).
    assert (Hz : b2n (p z) <= b2n (p' z)) by (destruct (p z) eqn:E; [rewrite (Hm z) by (done || by left)|]; destruct (p' z); unfold b2n; lia).
    lia.
Qed.
Lemma countb_zero {A} (p : A -> bool) l : countb p l = 0 -> forall x, x ∈ l -> p x = false.
Proof.
  induction l as [|y l IH]; cbn; intros H x Hx; [by apply elem_of_nil in Hx|].
  apply elem_of_cons in Hx as [->|Hx]; [destruct (p y); [blia|done]|]. apply IH; [|done]. destruct (p y); blia.
Qed.
Lemma countb_zero_intro {A} (p : A -> bool) l : (forall x, x ∈ l -> p x = false) -> countb p l = 0.
Proof. induction l as [|y l IH]; cbn; intros H; [done|]. rewrite (H y) by (by left). rewrite IH; [done|]. intros x Hx. apply H. by right. Qed.
Lemma countb_pos {A} (p : A -> bool) l i x : l !! i = Some x -> p x = true -> 1 <= countb p l.
Proof.
  revert i. induction l as [|y l IH]; intros [|i] H Hp; cbn in *; try done.
  - injection H as ->. rewrite b2n_true by done. lia.
  - specialize (IH i H Hp). lia.
Qed.
Lemma countb_fmap {A B} (f : A -> B) (p : B -> bool) l : countb p (f <$> l) = countb (fun x => p (f x)) l.
Proof. induction l as [|x l IH]; cbn; [done|]. by rewrite IH. Qed.
Lemma countb_le_length {A} (p : A -> bool) l : countb p l <= length l.
Proof. induction l as [|x l IH]; cbn; [done|]. destruct (p x); blia. Qed.
Lemma countb_all {A} (p : A -> bool) l : (forall x, x ∈ l -> p x = true) -> countb p l = length l.
Proof. induction l as [|y l IH]; cbn; intros H; [done|]. rewrite (H y) by (by left). rewrite IH; [done|]. intros x Hx. apply H. by right. Qed.

(* pigeonhole: if every marked position of l is named by some element of k, there are at most as many marks as names *)
Lemma countb_filter_seq {A} (p : A -> bool) (l : list A) (K : list nat) n :
  (forall i x, l !! i = Some x -> p x = true -> n + i ∈ K) ->
  countb p l <= length (filter (fun i => i ∈ K) (seq n (length l))).
Proof.
  revert n. induction l as [|x l IH]; intros n H; [cbn; lia|]. cbn [countb length]. change (seq n (S (length l))) with (n :: seq (S n) (length l)).
  assert (IH' : countb p l <= length (filter (fun i => i ∈ K) (seq (S n) (length l)))).
  { apply IH. intros i y Hy Hp. replace (S n + i) with (n + S i) by blia. by apply (H (S i) y). }
  rewrite filter_cons. destruct (p x) eqn:E.
  - rewrite decide_True by (replace n with (n + 0) by blia; by apply (H 0 x)). cbn. blia.
  - case_decide; cbn; blia.
Qed.
Lemma countb_names {A B} (p : A -> bool) (l : list A) (g : B -> option nat) (k : list B) :
  (forall i x, l !! i = Some x -> p x = true -> exists y, y ∈ k /\ g y = Some i) ->
  countb p l <= countb (fun y => bool_decide (is_Some (g y))) k.
Proof.
  intros H. set (K := omap g k).
  assert (H1 : countb p l <= length (filter (fun i => i ∈ K) (seq 0 (length l)))).
  { apply countb_filter_seq. intros i x Hx Hp. destruct (H i x Hx Hp) as (y & Hy & Hg). apply elem_of_list_omap. eauto. }
  assert (H2 : length (filter (fun i => i ∈ K) (seq 0 (length l))) <= length K).
  { apply submseteq_length, NoDup_submseteq; [apply list.NoDup_filter, list_numbers.NoDup_seq|]. by intros i [Hi _]%elem_of_list_filter. }
  assert (H3 : length K = countb (fun y => bool_decide (is_Some (g y))) k).
  { subst K. clear. induction k as [|y k IH]; [done|]. cbn [countb]. rewrite <- IH.
    change (omap g (y :: k)) with (match g y with Some z => z :: omap g k | None => omap g k end).
    destruct (g y) as [z|]; [rewrite b2n_true by (apply bool_decide_eq_true; by eexists); done|].
    rewrite b2n_false; [done|]. apply bool_decide_eq_false. by intros [? ?]. }
  blia.
Qed.
