(* L1g: the pool view is computed from three lists - the Pending flags of the queues, the busy flags of the threads,
   the classes of the actors' stacks - and the pool maximum.  What a change of one entry of a list does to the view. *)
From stdpp Require Import list numbers option.
From RecordUpdate Require Import RecordUpdate.
From L1 Require Import Model Own Shape Stuck Live.
From L1g Require Import Count MView.

Definition pq (s : state) (q : nat) : option bool := pendq <$> s.(queues) !! q.
Definition bt (s : state) (t : nat) : option bool := busy <$> s.(threads) !! t.
Definition scl (st : list frame) : acl * pcl := (aclass st, pclass st).
Definition sc (s : state) (b : nat) : option (acl * pcl) := (fun ac => scl ac.(stack)) <$> s.(actors) !! b.
Definition scls (s : state) : list (acl * pcl) := (fun ac => scl ac.(stack)) <$> s.(actors).
Definition tcl2 (b : bool) (c : acl * pcl) : tcl := tcl_of b c.2.

Lemma mq_lookup s q : m_q (mv s) !! q = pq s q.
Proof. unfold pq, mv. simpl. apply list_lookup_fmap. Qed.
Lemma ma_scls s : m_a (mv s) = (scls s).*1.
Proof. unfold mv, scls, stacks. cbn [m_a]. by rewrite <- !list_fmap_compose. Qed.
Lemma ma_lookup s b : m_a (mv s) !! b = fst <$> sc s b.
Proof. rewrite ma_scls, list_lookup_fmap. unfold scls, sc. by rewrite list_lookup_fmap. Qed.
Lemma tcls_scls s : tcls s = zip_with tcl2 (busy <$> s.(threads)) (drop (ncallers s) (scls s)).
Proof. unfold tcls, scls, stacks. by rewrite zip_with_fmap_l, <- !fmap_drop, !zip_with_fmap_r. Qed.
Lemma tcls_lookup s t : tcls s !! t =
  match bt s t, sc s (ncallers s + t) with Some b, Some c => Some (tcl_of b c.2) | _, _ => None end.
Proof.
  unfold tcls, bt, sc, stacks. rewrite lookup_zip_with, lookup_drop, list_lookup_fmap.
  destruct (threads s !! t) as [th|]; cbn; [|done]. by destruct (actors s !! (ncallers s + t)).
Qed.
Lemma tcls_length s : Shape s -> length (tcls s) = length s.(threads).
Proof. intros [L _ _ _ _ _ _]. unfold tcls, stacks. rewrite zip_with_length, drop_length, fmap_length. unfold ncallers. lia. Qed.
Lemma pq_self s q qq : s.(queues) !! q = Some qq -> pq s q = Some (pendq qq).
Proof. unfold pq. by intros ->. Qed.
Lemma sc_self s a ac : s.(actors) !! a = Some ac -> sc s a = Some (scl ac.(stack)).
Proof. unfold sc. by intros ->. Qed.
Lemma scls_lookup s b : scls s !! b = sc s b.
Proof. apply list_lookup_fmap. Qed.

Lemma pq_queues X Y q : X.(queues) = Y.(queues) -> pq X q = pq Y q. Proof. unfold pq. by intros ->. Qed.
Lemma bt_threads X Y t : X.(threads) = Y.(threads) -> bt X t = bt Y t. Proof. unfold bt. by intros ->. Qed.
Lemma sc_actors X Y b : X.(actors) = Y.(actors) -> sc X b = sc Y b. Proof. unfold sc. by intros ->. Qed.

Lemma foldl_notify_eta F ws s : exists A, foldl (notify F) s ws = s <| actors := A |> /\ length A = length s.(actors).
Proof. destruct (foldl_notify_frame F ws s) as (A & HA). exists A. split; [done|]. rewrite <- (foldl_notify_len F ws s), HA. done. Qed.
Lemma run_job_eta F s j : exists A R, run_job F s j = s <| actors := A |> <| ran := R |> /\ length A = length s.(actors).
Proof. destruct (run_job_frame F s j) as (A & R & HA). exists A, R. split; [done|]. rewrite <- (run_job_len F s j), HA. done. Qed.
Lemma woken_scls m s : woken m s -> scls m = scls s.
Proof.
  intros Hw. apply list_eq. intros b. unfold scls. rewrite !list_lookup_fmap. destruct (actors s !! b) as [x|] eqn:Hx.
  - destruct (woken_lookup _ _ _ _ Hw Hx) as (x' & -> & Hxx). cbn. by destruct (aw_stack _ _ Hxx) as [->|(q & r & -> & ->)].
  - apply lookup_ge_None in Hx. rewrite <- (woken_length _ _ Hw) in Hx. apply lookup_ge_None in Hx. by rewrite Hx.
Qed.

Lemma scls_setstack_same X a st x : X.(actors) !! a = Some x -> scl st = scl x.(stack) -> scls (setstack X a st) = scls X.
Proof. intros Hx Hs. unfold scls, setstack, upda; cbn. by apply (fmap_alter_at _ _ _ _ x). Qed.
Lemma scls_upda_same X a f : (forall x, (f x).(stack) = x.(stack)) -> scls (upda X a f) = scls X.
Proof. intros Hf. unfold scls, upda; cbn. apply fmap_alter_same. intros x. by rewrite Hf. Qed.
Lemma actors_upda_self X a f x : X.(actors) !! a = Some x -> (upda X a f).(actors) !! a = Some (f x).
Proof. intros Hx. by rewrite actors_upda_lookup, decide_True, Hx. Qed.

Section View.
  Context (s s' : state) (Hm : s'.(maxt) = s.(maxt)).
  Implicit Types (Q B : list bool) (C : list (acl * pcl)).

  Lemma mv_lists Q B C : pendq <$> s'.(queues) = Q -> busy <$> s'.(threads) = B -> scls s' = C ->
    length B = length s.(threads) -> length C = length s.(actors) ->
    mv s' = {| m_q := Q; m_t := zip_with tcl2 B (drop (ncallers s) C); m_a := C.*1; m_c := m_c (mv s) |}.
  Proof.
    intros HQ HB HC HlB HlC. pose proof (f_equal length HB) as H1. pose proof (f_equal length HC) as H2. unfold scls in H2. rewrite fmap_length in H1. rewrite fmap_length in H2.
    assert (Hn : ncallers s' = ncallers s) by (unfold ncallers; lia).
    unfold mv at 1. rewrite tcls_scls, Hn, HB, HC, Hm, H1, HlB. f_equal; [done|]. by rewrite <- HC, <- ma_scls.
  Qed.

  Lemma mv_view : pendq <$> s'.(queues) = pendq <$> s.(queues) -> busy <$> s'.(threads) = busy <$> s.(threads) -> scls s' = scls s -> mv s' = mv s.
  Proof.
    intros HQ HB HC. rewrite (mv_lists _ _ _ HQ HB HC) by (by rewrite ?fmap_length; unfold scls; rewrite ?fmap_length).
    by rewrite <- tcls_scls, <- ma_scls.
  Qed.
  Lemma mv_q Q : pendq <$> s'.(queues) = Q -> busy <$> s'.(threads) = busy <$> s.(threads) -> scls s' = scls s ->
    mv s' = {| m_q := Q; m_t := m_t (mv s); m_a := m_a (mv s); m_c := m_c (mv s) |}.
  Proof.
    intros HQ HB HC. rewrite (mv_lists _ _ _ HQ HB HC) by (by rewrite ?fmap_length; unfold scls; rewrite ?fmap_length).
    by rewrite <- tcls_scls, <- ma_scls.
  Qed.
  (* a caller changes its class; possibly a queue flag changes, or the caller's scan wakes the dormant thread i *)
  Lemma mv_caller Q a c : a < ncallers s -> pendq <$> s'.(queues) = Q -> busy <$> s'.(threads) = busy <$> s.(threads) ->
    scls s' = <[a := c]> (scls s) ->
    mv s' = {| m_q := Q; m_t := m_t (mv s); m_a := <[a := c.1]> (m_a (mv s)); m_c := m_c (mv s) |}.
  Proof.
    intros Ha HQ HB HC. rewrite (mv_lists _ _ _ HQ HB HC) by (by rewrite ?insert_length, ?fmap_length; unfold scls; rewrite ?fmap_length).
    by rewrite drop_insert_gt, <- tcls_scls, list_fmap_insert, <- ma_scls.
  Qed.
  Lemma mv_wake a c i k : a < ncallers s -> pendq <$> s'.(queues) = pendq <$> s.(queues) ->
    busy <$> s'.(threads) = <[i := true]> (busy <$> s.(threads)) -> scls s' = <[a := c]> (scls s) -> sc s (ncallers s + i) = Some k ->
    mv s' = {| m_q := m_q (mv s); m_t := <[i := tcl2 true k]> (m_t (mv s)); m_a := <[a := c.1]> (m_a (mv s)); m_c := m_c (mv s) |}.
  Proof.
    intros Ha HQ HB HC Hk. rewrite (mv_lists _ _ _ HQ HB HC) by (by rewrite ?insert_length, ?fmap_length; unfold scls; rewrite ?fmap_length).
    rewrite drop_insert_gt, list_fmap_insert, <- ma_scls by done. f_equal. change (m_t (mv s)) with (tcls s). rewrite tcls_scls, insert_zip_with.
    f_equal. symmetry. apply list_insert_id. by rewrite lookup_drop, scls_lookup.
  Qed.
  (* the pool actor of thread t moves: its class, the busy flag of its thread, possibly a queue flag *)
  Lemma mv_pool Q t b c c0 : pendq <$> s'.(queues) = Q -> busy <$> s'.(threads) = <[t := b]> (busy <$> s.(threads)) ->
    scls s' = <[ncallers s + t := c]> (scls s) -> sc s (ncallers s + t) = Some c0 -> c0.1 = c.1 ->
    mv s' = {| m_q := Q; m_t := <[t := tcl2 b c]> (m_t (mv s)); m_a := m_a (mv s); m_c := m_c (mv s) |}.
  Proof.
    intros HQ HB HC Hc0 Hc1. rewrite (mv_lists _ _ _ HQ HB HC) by (by rewrite ?insert_length, ?fmap_length; unfold scls; rewrite ?fmap_length).
    rewrite drop_insert_le, list_fmap_insert by lia. replace (ncallers s + t - ncallers s) with t by lia. rewrite <- insert_zip_with, <- tcls_scls. f_equal.
    rewrite <- Hc1, <- ma_scls. apply list_insert_id. by rewrite ma_lookup, Hc0.
  Qed.
End View.

Lemma scls_setstack X a st : scls (setstack X a st) = <[a := scl st]> (scls X).
Proof. unfold scls, setstack, upda; cbn. by apply fmap_alter_const. Qed.
Lemma mv_notify F s ws q g a st : mv (setstack (updq (foldl (notify F) s ws) q g) a st) = mv (setstack (updq s q g) a st).
Proof.
  pose proof (woken_scls _ _ (woken_foldl_notify F ws s)) as HC. destruct (foldl_notify_frame F ws s) as (A & HA). rewrite HA in *.
  apply mv_view; [done..|]. rewrite !scls_setstack. f_equal. exact HC.
Qed.
Lemma mv_run_job F s j a st : mv (setstack (run_job F s j) a st) = mv (setstack s a st).
Proof.
  pose proof (woken_scls _ _ (woken_run_job F s j)) as HC. destruct (run_job_frame F s j) as (A & R & HA). rewrite HA in *.
  apply mv_view; [done..|]. rewrite !scls_setstack. f_equal. exact HC.
Qed.

Record rest_same (s s' : state) : Prop := {
  rs_n : ncallers s' = ncallers s; rs_bt : forall t, bt s' t = bt s t; rs_mx : s'.(maxt) = s.(maxt);
  rs_lt : length s'.(threads) = length s.(threads);
}.
Definition q_same (s s' : state) : Prop := forall q, pq s' q = pq s q.
Definition sc_same (s s' : state) : Prop := forall b, sc s' b = sc s b.

Lemma sim_stutter s s' : rest_same s s' -> sc_same s s' -> q_same s s' -> mv s' = mv s.
Proof.
  intros [R1 R2 R3 R4] Hsc Hq. apply mv_view; [done|..]; apply list_eq; intros i; rewrite ?list_lookup_fmap.
  - apply Hq.
  - apply R2.
  - rewrite !scls_lookup. apply Hsc.
Qed.

Lemma mstep_qflag v q fl : (fl = false \/ m_q v !! q = Some fl) ->
  mstep v {| m_q := <[q := fl]> (m_q v); m_t := m_t v; m_a := m_a v; m_c := m_c v |}.
Proof.
  intros [->|H]; [apply M_unpend|]. rewrite list_insert_id by done. destruct v. apply M_stutter.
Qed.

(* classes of pool threads read off the pool invariants *)
Lemma live_class s i th : Shape s -> PoolInv s -> s.(threads) !! i = Some th -> th.(held) = false -> th.(busy) = true ->
  exists c, m_t (mv s) !! i = Some c /\ livec c = true.
Proof.
  intros HS HP Ht Hh Hb. destruct (pool_actor s i th HS Ht) as [ap Eap]. pose proof HS as [L Ta Ca Po He Sh Th].
  pose proof (He i th ap Ht Eap) as Hheld. rewrite Hh in Hheld. pose proof (Po i ap Eap) as Hok.
  change (m_t (mv s)) with (tcls s). rewrite tcls_lookup. unfold bt, sc. rewrite Ht, Eap. cbn. rewrite Hb. eexists. split; [done|].
  destruct (stack ap) as [|fr rest]; [done|]. apply pool_ok_inv in Hok as [(-> & Hfr)|(-> & Hfr)]; destruct fr; try done.
Qed.
Lemma dormant_class s i th : Shape s -> PoolInv s -> s.(threads) !! i = Some th -> th.(busy) = false ->
  exists x, sc s (ncallers s + i) = Some (x, PRecv) /\ m_t (mv s) !! i = Some TDormant.
Proof.
  intros HS HP Ht Hb. destruct (pool_actor s i th HS Ht) as [ap Eap].
  assert (Hps : pool_state_ok th (stack ap) = true) by (apply (HP i th); [done|by rewrite stacks_lookup, Eap]).
  unfold pool_state_ok in Hps. rewrite Hb in Hps. destruct (chan th); [|done].
  destruct (stack ap) as [|[] [|]] eqn:Es; try done.
  exists AOther. unfold sc. rewrite Eap. cbn. rewrite Es. split; [done|].
  change (m_t (mv s)) with (tcls s). rewrite tcls_lookup. unfold bt, sc. rewrite Ht, Eap. cbn. by rewrite Hb, Es.
Qed.


Lemma mv_spawn s a ac newst nth nac :
  Shape s -> s.(actors) !! a = Some ac -> a < ncallers s ->
  nth.(busy) = false -> nac.(stack) = [FTrecv (length s.(threads))] ->
  mv (setstack (s <| threads := s.(threads) ++ [nth] |> <| actors := s.(actors) ++ [nac] |>) a newst) =
  {| m_q := m_q (mv s); m_t := m_t (mv s) ++ [TDormant]; m_a := <[a := aclass newst]> (m_a (mv s)) ++ [AOther];
     m_c := s.(maxt) - S (length s.(threads)) |}.
Proof.
  intros HS Ea Ha Hb Hst. pose proof (sh_len s HS) as L. pose proof (lookup_lt_Some _ _ _ Ea) as Hla.
  set (s1 := setstack _ a newst).
  assert (HC : scls s1 = <[a := scl newst]> (scls s) ++ [(AOther, PRecv)]).
  { unfold s1, scls, setstack, upda; cbn. rewrite alter_app_l, fmap_app by done. cbn. rewrite Hst. f_equal.
    by apply fmap_alter_const. }
  assert (Hn : ncallers s1 = ncallers s) by (unfold ncallers, s1; cbn; rewrite alter_length, !app_length; cbn; lia).
  unfold mv at 1. f_equal.
  - rewrite tcls_scls, Hn, HC. unfold s1; cbn [threads setstack upda set]; cbn.
    rewrite fmap_app, drop_app_le by (rewrite insert_length; unfold scls; rewrite fmap_length; unfold ncallers; lia).
    rewrite drop_insert_gt by done. cbn. rewrite Hb.
    rewrite zip_with_app by (rewrite fmap_length, drop_length; unfold scls; rewrite fmap_length; unfold ncallers; lia).
    by rewrite <- tcls_scls.
  - change (aclass <$> stacks s1) with (m_a (mv s1)). by rewrite ma_scls, HC, fmap_app, list_fmap_insert, <- ma_scls.
  - unfold s1; cbn. rewrite app_length. cbn. lia.
Qed.

(* while nobody holds the threads lock nobody is scanning *)
Lemma noscan s : Shape s -> s.(threads_held) = None -> forall b i, m_a (mv s) !! b <> Some (AScan i).
Proof.
  intros [_ _ _ _ _ _ Th] Hn b i Hb. rewrite ma_lookup in Hb. unfold sc in Hb. destruct (actors s !! b) as [ab|] eqn:Eb; [|done].
  cbn in Hb. destruct (stack ab) as [|fr rest] eqn:Es; [done|]. destruct fr; try done.
  assert (threads_held s = Some b) by (apply Th; eauto). congruence.
Qed.
(* with an empty schedule every Pending queue is still in the hands of the caller that will schedule it *)
Definition fresh_q (st : list frame) : option nat := match st with FD2 q :: _ | FRQ2 q :: _ => Some q | _ => None end.
Lemma pending_le_fresh s : QInv s -> s.(sched) = [] -> nP (mv s) <= nF (mv s).
Proof.
  intros HQ Hs. unfold nP, nF, mv. cbn [m_q m_a]. rewrite !countb_fmap.
  etrans; [apply (countb_names (fun x => id (pendq x)) (queues s) fresh_q (stacks s))|].
  - intros q qq Hq Hp. destruct (HQ q qq Hq) as [_ C2 _]. unfold pendq, id in Hp. destruct (qs qq) eqn:Es; try done.
    destruct (C2 eq_refl) as [_ [Hin|[Ht|Ht]]]; [rewrite Hs in Hin; by apply elem_of_nil in Hin| |].
    all: destruct Ht as (b & st & Hb & Hh); exists st; split; [by eapply elem_of_list_lookup_2|]; destruct st as [|[] ?]; cbn in Hh; try done; by injection Hh as ->.
  - apply countb_mono. intros st _ H. apply bool_decide_eq_true in H as [q H]. destruct st as [|[] ?]; done.
Qed.
