(* L1g: states in which nobody can move except actors that are frozen inside a closure *)
From stdpp Require Import list numbers option.
From RecordUpdate Require Import RecordUpdate.
From L1 Require Import Model Own Shape Stuck Live Wait Help Final Pool.
From L1g Require Import Count MView MSimBase MSim MInv.

(* an actor inside a closure: a pool thread running a job (FDRrun), or a sync caller running a job of the queue it drains
   (FROrun) or its own immediate closure (FSIrun).  Such an actor can always move in the model; "blocked on a gate" means it does not. *)
Definition frozen_frame (fr : frame) : Prop := match fr with FDRrun _ _ | FROrun _ _ | FSIrun _ => True | _ => False end.
Definition frozen_ok (s : state) (B : list nat) : Prop :=
  forall a, a ∈ B -> exists ac fr rest, s.(actors) !! a = Some ac /\ ac.(stack) = fr :: rest /\ frozen_frame fr.
Definition terminal_except (T : tables) (F : facts) (B : list nat) (s : state) : Prop := forall a, a ∉ B -> step T F s a = None.

Section Reach.
  Context (T : tables) (F : facts) (HK : core_tables T) (HT : own_conditions T) (HF : F.(f_dormant_blocks) = true).

  Lemma init_invm nq mx scripts : InvM (mv (init nq mx scripts)).
  Proof.
    unfold InvM. assert (H : nP (mv (init nq mx scripts)) = 0).
    { unfold nP, mv, init. cbn [m_q queues]. apply countb_zero_intro. intros x Hx.
      apply elem_of_list_fmap in Hx as (qq & -> & Hq). apply elem_of_replicate in Hq as [-> _]. done. }
    rewrite H. lia.
  Qed.

  Theorem reachable_invm nq mx scripts tr s :
    wf_scripts nq scripts -> 1 <= mx -> run T F (init nq mx scripts) tr = Some s -> All s /\ InvM (mv s).
  Proof.
    intros Hs Hm. apply (run_invariant T F (fun s => All s /\ InvM (mv s))); [|split; [by apply init_all|apply init_invm]].
    intros s0 a s1 [HA HM] E. split; [by eapply (step_all T F)|].
    eapply mstep_inv; [exact HM|]. destruct HA. by eapply (step_msim T F HK HF).
  Qed.
End Reach.

(* caller w, waiting in sync_background on q, waits behind a frozen actor: its job is stored in q, which a frozen actor runs,
   or a frozen actor holds the job in its hand *)
Definition waits_behind (s : state) (B : list nat) (w q : nat) : Prop :=
  (exists qq b o, s.(queues) !! q = Some qq /\ qq.(owner) = Some b /\ b ∈ B /\ JSyncBg o w ∈ qq.(jobs)) \/
  (exists b ab q' o, b ∈ B /\ s.(actors) !! b = Some ab /\
     (hd_error ab.(stack) = Some (FROrun q' (JSyncBg o w)) \/ hd_error ab.(stack) = Some (FDRrun q' (JSyncBg o w)))).
Record quiet_except (s : state) (B : list nat) : Prop := {
  (* a queue that is not Idle and empty is being run by a frozen actor *)
  qe_queues : forall q qq, s.(queues) !! q = Some qq ->
      (qq.(qs) = Idle /\ qq.(jobs) = []) \/ (qq.(qs) = Running /\ exists b, qq.(owner) = Some b /\ b ∈ B);
  (* a caller that is not frozen has finished its script, or waits in sync behind a frozen actor *)
  qe_callers : forall a ac, s.(actors) !! a = Some ac -> a < ncallers s -> a ∉ B ->
      ac.(stack) = [FTop []] \/ exists q rest, ac.(stack) = FSBwait q :: rest /\ waits_behind s B a q;
  (* a pool thread that is not frozen is dormant *)
  qe_pool : forall t th, s.(threads) !! t = Some th -> ncallers s + t ∉ B ->
      th.(busy) = false /\ exists ap, s.(actors) !! (ncallers s + t) = Some ap /\ ap.(stack) = [FTrecv t];
}.

(* frames at which an actor can be held back without holding back the others: it holds no lock, it is not on its way
   into schedule_thread or reschedule_queue, and a pool thread is inside a queue *)
Definition may_stay (fr : frame) : bool :=
  match fr with
  | FSTscan _ | FTnext _ | FTexam _ | FTrelnone _ | FTrelsome _ _
  | FD2 _ | FRQ1 _ | FRQ2 _ | FSTlock | FSTspawn | FTrecv _ | FTlock _ => false
  | _ => true
  end.

Section Quiet.
  Context (T : tables) (F : facts) (B : list nat) (P : frame -> Prop) (HPm : forall fr, P fr -> may_stay fr = true).

  Theorem quiet_at s : All s -> InvM (mv s) -> held_at P s B -> terminal_except T F B s ->
    (length s.(threads) < s.(maxt) \/ exists t, t < length s.(threads) /\ ncallers s + t ∉ B) ->
    quiet_except s B.
  Proof.
    intros [HS HI HW HP HQ HJ _ _] HM HB Hterm Hfree.
    assert (Hstuck : forall a ac, s.(actors) !! a = Some ac -> a ∉ B -> stuck_ok s ac.(stack)).
    { apply (stuck_frames_at T F B P); try done. intros fr Hf%HPm. by destruct fr. }
    (* every top frame is a stuck frame or that of an actor of B *)
    assert (HA : forall b ab fr rest, s.(actors) !! b = Some ab -> ab.(stack) = fr :: rest -> stuck_frame fr \/ (b ∈ B /\ may_stay fr = true)).
    { intros b ab fr rest Eb Es. destruct (decide (b ∈ B)) as [Hin|Hn].
      - right. split; [done|]. by eapply HPm, held_at_top.
      - left. eapply stuck_hd; [by eapply (Hstuck b ab Eb Hn)|]. by rewrite Es. }
    assert (HA' : forall fr, has_top s fr -> stuck_frame fr \/ may_stay fr = true).
    { intros fr (b & st & Hb & Hh). rewrite stacks_lookup in Hb. destruct (actors s !! b) as [ab|] eqn:Eb; [|done]. injection Hb as <-.
      destruct (stack ab) as [|fr' rest] eqn:Es; [done|]. injection Hh as ->. destruct (HA b ab fr rest Eb Es) as [?|[_ ?]]; auto. }
    (* a Running queue is run by an actor of B *)
    assert (HB1 : forall q qq, s.(queues) !! q = Some qq -> qq.(qs) = Running -> exists b, qq.(owner) = Some b /\ b ∈ B).
    { intros q qq Hq Hr. destruct (running_owner s q qq HI Hq Hr) as (b & ab & Hb & Eb & Hc). exists b. split; [done|].
      destruct (decide (b ∈ B)) as [|Hn]; [done|]. by rewrite (stuck_cnt0 s b ab q HS Eb (Hstuck b ab Eb Hn)) in Hc. }
    (* a pool thread outside B is dormant *)
    assert (HP1 : forall t th, s.(threads) !! t = Some th -> ncallers s + t ∉ B ->
              th.(busy) = false /\ exists ap, s.(actors) !! (ncallers s + t) = Some ap /\ ap.(stack) = [FTrecv t]).
    { intros t th Ht Hn. destruct (pool_actor s t th HS Ht) as [ap Eap].
      destruct (stuck_pool s t th ap HS HP Ht Eap (Hstuck _ ap Eap Hn)) as [Hb Hst]. eauto. }
    (* no queue is Pending: the matching invariant *)
    assert (HB2 : forall q qq, s.(queues) !! q = Some qq -> qq.(qs) <> Pending).
    { intros q qq Hq Hp.
      assert (H1 : 1 <= nP (mv s)).
      { unfold nP, mv. cbn [m_q]. eapply (countb_pos id _ q true); [by rewrite list_lookup_fmap, Hq; cbn; unfold pendq; rewrite Hp|done]. }
      (* no actor is inside schedule_thread *)
      assert (Hacl : forall cl, cl ∈ m_a (mv s) -> cl = AOther).
      { intros cl Hcl. apply elem_of_list_lookup in Hcl as [b Hb]. rewrite ma_lookup in Hb. unfold sc in Hb.
        destruct (actors s !! b) as [ab|] eqn:Eb; [|done]. cbn in Hb. injection Hb as <-.
        destruct (stack ab) as [|fr rest] eqn:Es; [done|]. destruct (HA b ab fr rest Eb Es) as [Hs|[_ Hf]]; destruct fr; done. }
      assert (H2 : nF (mv s) = 0) by (apply countb_zero_intro; intros cl Hcl; by rewrite (Hacl cl Hcl)).
      assert (H3 : nS (mv s) = 0) by (apply countb_zero_intro; intros cl Hcl; by rewrite (Hacl cl Hcl)).
      assert (H4 : nM (mv s) = 0) by (apply countb_zero_intro; intros cl Hcl; by rewrite (Hacl cl Hcl)).
      (* no thread is heading for the schedule *)
      assert (Hcls : forall t c, tcls s !! t = Some c -> (c = TWorking /\ ncallers s + t ∈ B) \/ (c = TDormant /\ ncallers s + t ∉ B)).
      { intros t c Hc. rewrite tcls_lookup in Hc. unfold bt, sc in Hc. destruct (threads s !! t) as [th|] eqn:Et; [|done].
        destruct (actors s !! (ncallers s + t)) as [ap|] eqn:Eap; [|done]. cbn in Hc. injection Hc as <-.
        destruct (decide (ncallers s + t ∈ B)) as [Hin|Hn].
        - left. split; [|done]. destruct (HB _ Hin) as (ab' & fr' & rest' & E1 & E2 & E3%HPm). rewrite Eap in E1. injection E1 as <-.
          pose proof (shape_top s _ ap fr' rest' HS Eap E2) as Hsh. rewrite E2.
          destruct fr'; try discriminate E3; shape_inv Hsh; first [lia | done].
        - right. split; [|done]. destruct (HP1 t th Et Hn) as (Hb & ap' & E1 & E2). rewrite Eap in E1. injection E1 as <-. rewrite E2. cbn. by rewrite Hb. }
      assert (H5 : nH (mv s) = 0).
      { apply countb_zero_intro. intros c Hc. apply elem_of_list_lookup in Hc as [t Ht]. by destruct (Hcls t c Ht) as [[-> _]|[-> _]]. }
      unfold InvM in HM. rewrite H2, H3, H4, H5 in HM.
      assert (H6 : nN (mv s) + m_c (mv s) = 0) by lia.
      destruct Hfree as [Hlt|(t & Hlt & Hn)].
      - unfold mv in H6. cbn [m_c] in H6. lia.
      - assert (H7 : nN (mv s) = 0) by lia. pose proof (countb_zero _ _ H7) as Hz.
        assert (Hlen : t < length (tcls s)) by (by rewrite tcls_length).
        destruct (lookup_lt_is_Some_2 _ _ Hlen) as [c Hc]. specialize (Hz c (elem_of_list_lookup_2 _ _ _ Hc)).
        destruct (Hcls t c Hc) as [[-> Hin]|[-> _]]; done. }
    split.
    - intros q qq Hq. destruct (HQ q qq Hq) as [C1 C2 C3]. destruct C1 as [Hc|[Hc|Hc]]; [|by destruct (HB2 q qq Hq)|right; split; [done|by eapply HB1]].
      left. split; [done|]. destruct (decide (jobs qq = [])) as [|Hn]; [done|]. exfalso. destruct (HA' _ (C3 Hc Hn)); done.
    - intros a ac Ea Hlt Hn. destruct (stuck_caller s a ac HS Ea Hlt (Hstuck a ac Ea Hn)) as [?|(q & rest & Es)]; [by left|right].
      exists q, rest. split; [done|]. destruct (HJ a ac Ea) as [J1 J2].
      assert (Hr : ready ac = false) by (apply (J2 q); by rewrite Es).
      destruct (J1 q) as [(qq & o & G1 & G2)|(b & st & o & G1 & (q' & G2))]; [by rewrite Es|done| |].
      + left. destruct (HQ q qq G1) as [C1 C2 C3]. destruct C1 as [Hc|[Hc|Hc]]; [|by destruct (HB2 q qq G1)|].
        * exfalso. assert (Hne : jobs qq <> []) by (intros He; rewrite He in G2; by apply elem_of_nil in G2). destruct (HA' _ (C3 Hc Hne)); done.
        * destruct (HB1 q qq G1 Hc) as (b & Hb1 & Hb2). by exists qq, b, o.
      + right. rewrite stacks_lookup in G1. destruct (actors s !! b) as [ab|] eqn:Eb; [|done]. injection G1 as <-.
        exists b, ab, q', o. split; [|done]. destruct (stack ab) as [|fr' rest'] eqn:Es'; [by destruct G2|].
        destruct (HA b ab fr' rest' Eb Es') as [Hs|[Hin _]]; [|done]. destruct G2 as [G2|G2]; cbn in G2; injection G2 as ->; done.
    - exact HP1.
  Qed.
End Quiet.

Theorem frozen_quiet T F B s : All s -> InvM (mv s) -> frozen_ok s B -> terminal_except T F B s ->
  (length s.(threads) < s.(maxt) \/ exists t, t < length s.(threads) /\ ncallers s + t ∉ B) ->
  quiet_except s B.
Proof. apply (quiet_at T F B frozen_frame). by intros []. Qed.
