(* C10 - different Desync objects make progress independently.  Layer L1, for every program, number of objects,
   pool maximum and schedule.

   "Blocked for an arbitrarily long time" is modelled without changing the model: an actor that is inside a closure
   (a pool thread at FDRrun q j, or a sync caller at FROrun q j / FSIrun q) could always move, but simply never does.
   [frozen_ok s B]: every actor of B is at such a frame.  [terminal_except T F B s]: nobody outside B can move.
   [pool_free mx scripts s B]: the pool has a thread that is not frozen, or may still spawn one (fewer than mx exist).
   [quiet_except s B]: (1) every queue is Idle and empty - all its operations ran - unless a frozen actor is running it;
   (2) every caller outside B finished its script, or waits in sync (FSBwait q) with its job stored in a queue run by a frozen
   actor or held by a frozen actor; (3) every pool thread outside B is dormant.

   Fully proved.  The key is the matching invariant InvM (L1g/MView.v): the schedule_thread calls in flight cover
   the Pending queues that have no thread heading for the schedule, or they cover the whole idle capacity of the pool. *)
From stdpp Require Import list numbers option.
From L0 Require Import Types.
From Gen Require Import Tables.
From L1 Require Import Model Own Shape Stuck Live Wait Help Final Pool.
From L1g Require Import MView Frozen MainC10 ExamplesC10.

Theorem C10_blocked_objects_do_not_stop_the_others_L1 :
  forall (T : tables) (F : facts), core_tables T -> own_conditions T -> F.(f_dormant_blocks) = true ->
  forall nq mx scripts, wf_scripts nq scripts -> 1 <= mx ->
  forall tr s B,
    run T F (init nq mx scripts) tr = Some s -> frozen_ok s B -> terminal_except T F B s -> pool_free mx scripts s B ->
    quiet_except s B.
Proof. exact L_quiet_frozen. Qed.

(* k objects blocked on gates, pool maximum above k *)
Theorem C10_fewer_blocked_than_the_pool_maximum_L1 :
  forall (T : tables) (F : facts), core_tables T -> own_conditions T -> F.(f_dormant_blocks) = true ->
  forall nq mx scripts, wf_scripts nq scripts -> 1 <= mx ->
  forall tr s B,
    run T F (init nq mx scripts) tr = Some s -> frozen_ok s B -> terminal_except T F B s ->
    length (filter (fun a => length scripts <= a) B) < mx ->
    quiet_except s B.
Proof. exact L_quiet_frozen_count. Qed.

(* a thread blocked inside sync is a caller: it occupies no pool thread, and never stops the pool from serving the others *)
Theorem C10_blocked_in_sync_is_not_a_pool_thread_L1 :
  forall (T : tables) (F : facts) nq mx scripts tr s a ac fr rest,
    run T F (init nq mx scripts) tr = Some s -> s.(actors) !! a = Some ac -> ac.(stack) = fr :: rest -> sync_frame fr ->
    a < length scripts.
Proof. exact sync_blocked_is_caller. Qed.
Theorem C10_blocked_in_sync_does_not_stop_the_pool_L1 :
  forall (T : tables) (F : facts), core_tables T -> own_conditions T -> F.(f_dormant_blocks) = true ->
  forall nq mx scripts, wf_scripts nq scripts -> 1 <= mx ->
  forall tr s B,
    run T F (init nq mx scripts) tr = Some s ->
    (forall a, a ∈ B -> exists ac fr rest, s.(actors) !! a = Some ac /\ ac.(stack) = fr :: rest /\ sync_frame fr) ->
    terminal_except T F B s -> quiet_except s B.
Proof. exact L_quiet_blocked_in_sync. Qed.

(* the invariant behind it holds in every reachable state *)
Theorem C10_matching_invariant_L1 :
  forall (T : tables) (F : facts), core_tables T -> own_conditions T -> F.(f_dormant_blocks) = true ->
  forall nq mx scripts tr s, wf_scripts nq scripts -> 1 <= mx -> run T F (init nq mx scripts) tr = Some s -> All s /\ InvM (mv s).
Proof. exact reachable_invm. Qed.

Print Assumptions C10_blocked_objects_do_not_stop_the_others_L1.
Print Assumptions C10_fewer_blocked_than_the_pool_maximum_L1.
Print Assumptions C10_blocked_in_sync_is_not_a_pool_thread_L1.
Print Assumptions C10_blocked_in_sync_does_not_stop_the_pool_L1.
Print Assumptions C10_matching_invariant_L1.

(* non-vacuity: in run G the pool thread running object 0's job (actor 2) is frozen; nobody else can move; one of the two
   pool threads is not frozen; and indeed object 1 is Idle and empty, both callers are done, the other pool thread is dormant *)
Example C10_hypotheses_hold :
  exists s, run gen_tables gen_facts exG_init exG_trace = Some s /\ wf_scripts 2 exG_scripts /\
            frozen_ok s [2] /\ terminal_except gen_tables gen_facts [2] s /\ pool_free 2 exG_scripts s [2] /\
            length (filter (fun a => length exG_scripts <= a) [2]) < 2.
Proof.
  eexists. split; [vm_compute; reflexivity|]. split; [repeat constructor|].
  split; [apply frozen_b_sound; vm_compute; reflexivity|]. split; [apply texc_b_sound; vm_compute; reflexivity|].
  split; [|vm_compute; lia]. right. exists 1. split; [vm_compute; lia|]. cbn. intros H. apply elem_of_list_singleton in H. lia.
Qed.
(* in run S caller 0 is frozen inside its sync closure on object 0; caller 1's desync on object 1 ran, and its sync on
   object 0 waits behind caller 0 *)
Example C10_sync_hypotheses_hold :
  exists s, run gen_tables gen_facts exS_init exS_trace = Some s /\ wf_scripts 2 exS_scripts /\
            (forall a, a ∈ [0] -> exists ac fr rest, s.(actors) !! a = Some ac /\ ac.(stack) = fr :: rest /\ sync_frame fr) /\
            terminal_except gen_tables gen_facts [0] s.
Proof.
  eexists. split; [vm_compute; reflexivity|]. split; [repeat constructor|].
  split; [|apply texc_b_sound; vm_compute; reflexivity].
  intros a Ha. apply elem_of_list_singleton in Ha as ->. eexists _, _, _. split; [vm_compute; reflexivity|]. split; [reflexivity|done].
Qed.
