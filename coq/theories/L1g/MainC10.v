(* L1g: C10 - blocked objects do not stop the others.  The theorems about runs of the L1 model. *)
From stdpp Require Import list list_numbers numbers option.
From RecordUpdate Require Import RecordUpdate.
From L1 Require Import Model Own Shape Stuck Live Wait Help Final Pool.
From L1g Require Import Count MView MSimBase MSim MInv Frozen.

Section Main.
  Context (T : tables) (F : facts) (HK : core_tables T) (HT : own_conditions T) (HF : F.(f_dormant_blocks) = true).
  Context (nq mx : nat) (scripts : list (list op)) (Hwf : wf_scripts nq scripts) (Hmx : 1 <= mx).

  Lemma reach_pool tr s : run T F (init nq mx scripts) tr = Some s ->
    length s.(threads) <= mx /\ s.(maxt) = mx /\ ncallers s = length scripts.
  Proof.
    clear HK HT HF Hwf Hmx. intros Hr. destruct (reachable_pool_bounded T F nq mx scripts tr s Hr) as (H1 & H2 & H3). unfold ncallers. repeat split; [done|done|lia].
  Qed.

  (* the pool has a thread that is not frozen, or may still spawn one *)
  Definition pool_free (s : state) (B : list nat) : Prop :=
    length s.(threads) < mx \/ exists t, t < length s.(threads) /\ length scripts + t ∉ B.

  Theorem L_quiet_frozen tr s B :
    run T F (init nq mx scripts) tr = Some s -> frozen_ok s B -> terminal_except T F B s -> pool_free s B -> quiet_except s B.
  Proof.
    intros Hr HB Hterm Hfree. destruct (reachable_invm T F HK HT HF nq mx scripts tr s Hwf Hmx Hr) as [HA HM].
    destruct (reach_pool tr s Hr) as (P1 & P2 & P3).
    apply (frozen_quiet T F B s HA HM HB Hterm). rewrite P2, P3. exact Hfree.
  Qed.

  (* fewer than mx pool threads are frozen *)
  Lemma few_frozen_free tr s B : run T F (init nq mx scripts) tr = Some s ->
    length (filter (fun a => length scripts <= a) B) < mx -> pool_free s B.
  Proof.
    intros Hr Hlen. destruct (reach_pool tr s Hr) as (P1 & P2 & P3). unfold pool_free.
    destruct (decide (length (threads s) < mx)) as [|Hge]; [by left|]. right.
    destruct (decide (Forall (fun t => length scripts + t ∈ B) (seq 0 (length (threads s))))) as [HF'|Hn].
    2: { (* some pool thread is not in B *) apply not_Forall_Exists in Hn; [|apply _]. apply list.Exists_exists in Hn as (t & Ht%elem_of_seq & Hnin). exists t. split; [lia|done]. }
    exfalso.
    assert (Hall : forall t, t < length (threads s) -> length scripts + t ∈ B).
    { intros t Ht. rewrite list.Forall_forall in HF'. apply HF'. apply elem_of_seq. lia. }
    set (L := (fun t => length scripts + t) <$> seq 0 (length (threads s))).
    assert (H1 : length L <= length (filter (fun a => length scripts <= a) B)).
    { apply submseteq_length, NoDup_submseteq.
      - apply NoDup_fmap_2; [intros ???; lia|apply NoDup_seq].
      - intros x (t & -> & Ht%elem_of_seq)%elem_of_list_fmap. apply elem_of_list_filter. split; [lia|]. apply Hall. lia. }
    unfold L in H1. rewrite fmap_length, seq_length in H1. lia.
  Qed.
  Corollary L_quiet_frozen_count tr s B :
    run T F (init nq mx scripts) tr = Some s -> frozen_ok s B -> terminal_except T F B s ->
    length (filter (fun a => length scripts <= a) B) < mx -> quiet_except s B.
  Proof. intros Hr HB Hterm Hlen. apply (L_quiet_frozen tr s B Hr HB Hterm). by eapply few_frozen_free. Qed.

  (* a thread blocked inside sync is a caller, not a pool thread: it occupies no pool thread *)
  Definition sync_frame (fr : frame) : Prop := match fr with FROrun _ _ | FSIrun _ => True | _ => False end.
  Lemma sync_blocked_is_caller tr s a ac fr rest :
    run T F (init nq mx scripts) tr = Some s -> s.(actors) !! a = Some ac -> ac.(stack) = fr :: rest -> sync_frame fr -> a < length scripts.
  Proof.
    clear HK HT HF Hwf Hmx. intros Hr Ea Es Hf. destruct (reach_pool tr s Hr) as (_ & _ & <-).
    pose proof (reachable_shape T F nq mx scripts tr s Hr) as HS.
    destruct (kind_of s a ac HS Ea) as [[Hlt _]|(t & -> & Hok)]; [done|]. exfalso.
    rewrite Es in Hok. apply pool_ok_inv in Hok as [(-> & H1)|(-> & H1)]; by destruct fr.
  Qed.
  Theorem L_quiet_blocked_in_sync tr s B :
    run T F (init nq mx scripts) tr = Some s ->
    (forall a, a ∈ B -> exists ac fr rest, s.(actors) !! a = Some ac /\ ac.(stack) = fr :: rest /\ sync_frame fr) ->
    terminal_except T F B s -> quiet_except s B.
  Proof.
    intros Hr HB Hterm.
    assert (HB' : frozen_ok s B).
    { intros a Ha. destruct (HB a Ha) as (ac & fr & rest & E1 & E2 & E3). exists ac, fr, rest. repeat split; try done. by destruct fr. }
    assert (Hcal : forall a, a ∈ B -> a < length scripts).
    { intros a Ha. destruct (HB a Ha) as (ac & fr & rest & E1 & E2 & E3). by eapply sync_blocked_is_caller. }
    apply (L_quiet_frozen tr s B Hr HB' Hterm). unfold pool_free.
    destruct (threads s) as [|th ths] eqn:Et; [left; cbn; lia|]. right. exists 0. split; [cbn; lia|].
    intros Hin. specialize (Hcal _ Hin). lia.
  Qed.
End Main.

(* checkable forms, for the examples *)
Definition texc_b (T : tables) (F : facts) (B : list nat) (s : state) : bool :=
  forallb (fun a => bool_decide (a ∈ B) || match step T F s a with None => true | Some _ => false end) (seq 0 (length s.(actors))).
Lemma texc_b_sound T F B s : texc_b T F B s = true -> terminal_except T F B s.
Proof.
  intros H a Ha. unfold texc_b in H. rewrite forallb_forall in H.
  destruct (decide (a < length (actors s))) as [Hlt|Hge].
  - assert (Hin : In a (seq 0 (length (actors s)))) by (apply in_seq; lia). specialize (H a Hin).
    rewrite bool_decide_false in H by done. cbn in H. by destruct (step T F s a).
  - unfold step. rewrite (proj2 (lookup_ge_None _ _)) by lia. done.
Qed.
Definition frozen_b (s : state) (B : list nat) : bool :=
  forallb (fun a => match s.(actors) !! a with
                    | Some ac => match ac.(stack) with (FDRrun _ _ | FROrun _ _ | FSIrun _) :: _ => true | _ => false end
                    | None => false end) B.
Lemma frozen_b_sound s B : frozen_b s B = true -> frozen_ok s B.
Proof.
  intros H a Ha. unfold frozen_b in H. rewrite forallb_forall in H. specialize (H a). rewrite <- elem_of_list_In in H. specialize (H Ha).
  destruct (actors s !! a) as [ac|]; [|done]. destruct (stack ac) as [|fr rest] eqn:E; [done|]. exists ac, fr, rest. repeat split; try done. by destruct fr.
Qed.
