(* L-bound with nesting: the nested scheduler model has no livelock, with an explicit bound.
   Every nested run is an L1 run of the flattened program plus one step per body activation that is started, and a body is started
   at most once:  length tr <= L1n_bound mx ntop P = L1_bound mx (scripts of all activations) + number of body activations
   (L1_bound: L1b/Explicit.v, a polynomial in the pool maximum, the number of activations and the total number of operations).
   Hypotheses: own_conditions, imm_conditions, bound_conditions (as for L_bound) and nwf.  Holds for every pool maximum (also 0) and
   all facts.  Together with C03n_quiescent_is_complete: every maximal nested run is finite and ends complete. *)
From stdpp Require Import list numbers list_numbers option.
From L0 Require Import Types.
From Gen Require Import Tables.
From L1 Require Import Model Own Shape Stuck.
From L1h Require Import Sim.
From L1b Require Import Measure Good Bound Explicit.
From L1n Require Import Model LBound Wf FlattenWf Examples.
From L1b Require Inst.
From L1h Require Inst.

Theorem L_bound_nested : forall (T : tables) (F : facts), own_conditions T -> imm_conditions T -> bound_conditions T ->
  forall nq mx ntop (P : prog), nwf nq ntop P ->
  forall tr ns, nrun T F ntop P (ninit nq mx P) tr = Some ns -> length tr <= L1n_bound mx ntop P.
Proof. exact L_bound_n. Qed.

Theorem L_bound_no_infinite_nested_run : forall (T : tables) (F : facts), own_conditions T -> imm_conditions T -> bound_conditions T ->
  forall nq mx ntop (P : prog), nwf nq ntop P ->
    ~ exists f : nat -> nat, forall n, is_Some (nrun T F ntop P (ninit nq mx P) (f <$> seq 0 n)).
Proof. exact no_infinite_nrun. Qed.

Theorem L_bound_nested_prog : forall (T : tables) (F : facts), own_conditions T -> imm_conditions T -> bound_conditions T ->
  forall nq mx (scs : list (list nop)), wo nq scs ->
  forall tr ns, nrun T F (length scs) (flatten scs) (ninit nq mx (flatten scs)) tr = Some ns -> length tr <= L1n_bound mx (length scs) (flatten scs).
Proof. exact (fun T F H1 H2 H3 nq mx scs Hwo => L_bound_nested T F H1 H2 H3 nq mx (length scs) (flatten scs) (flatten_nwf nq scs Hwo)). Qed.

(* on the tables generated from the source *)
Lemma clbn_own : own_conditions gen_tables. Proof. exact L1b.Inst.clb_own. Qed.
Lemma clbn_imm : imm_conditions gen_tables. Proof. exact L1h.Inst.clh_imm. Qed.
Lemma clbn_bound : bound_conditions gen_tables. Proof. exact L1b.Inst.clb_bound. Qed.

Theorem L_bound_nested_now : forall (F : facts) nq mx ntop (P : prog), nwf nq ntop P ->
  forall tr ns, nrun gen_tables F ntop P (ninit nq mx P) tr = Some ns -> length tr <= L1n_bound mx ntop P.
Proof. exact (fun F => L_bound_nested gen_tables F clbn_own clbn_imm clbn_bound). Qed.

(* non-vacuity: the run of program S (49 steps, one of them the start of the body) and its bound:
   L1_bound = 16 * 3 operations * 3078 + pool maximum 1 * 513 (L1b/Explicit.v: W1, W2 for 3 activations and pool maximum 1), plus 1 body *)
Example L_bound_nested_example :
  nwf 2 2 exS_prog /\ (exists ns, nrun gen_tables gen_facts 2 exS_prog exS_init (exS_tr1 ++ exS_tr2 ++ exS_tr3) = Some ns) /\
  length (exS_tr1 ++ exS_tr2 ++ exS_tr3) = 49 /\ N.of_nat (L1n_bound 1 2 exS_prog) = 148258%N.
Proof.
  split; [exact exS_wf|]. split; [destruct exS_run as (ns & H & _); by exists ns|]. split; [reflexivity|].
  (* the bound is a polynomial in the sizes of the program: the sizes are computed, the polynomial is left to lia *)
  assert (E : total_ops (a_script <$> exS_prog) = 3 /\ length (a_script <$> exS_prog) = 3 /\ length exS_prog = 3) by done.
  destruct E as (E1 & E2 & E3). unfold L1n_bound, L1_bound, phi, W1, W2, W3, Kb, Lb. rewrite E1, E2, E3. lia.
Qed.

Print Assumptions L_bound_nested.
Print Assumptions L_bound_no_infinite_nested_run.
Print Assumptions L_bound_nested_prog.
Print Assumptions L_bound_nested_now.
Print Assumptions L_bound_nested_example.
