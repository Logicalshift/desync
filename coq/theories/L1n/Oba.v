(* L1n: a fact about the abstract history machine of L1h that the nested invariants need:
   the object of an operation in progress is the object of its Call event *)
From stdpp Require Import list numbers option.
From L1h Require Import Hist Abs AInv.

Definition ph_q (p : phase) : option nat := match p with PPre _ q | PHand q | PWait q => Some q | _ => None end.
Definition OBA (v : aview) (h : list hevent) : Prop :=
  forall a x q, v_acts v !! a = Some x -> ph_q (ph x) = Some q -> exists k, Call (aop x) q k ∈ h.

Lemma OBA_veq w v h : veq w v -> OBA v h -> OBA w h.
Proof. intros (E & _) H a x q. rewrite E. apply H. Qed.

Lemma oba_alter v h evs a p :
  OBA v h -> (forall x q, v_acts v !! a = Some x -> ph_q p = Some q -> exists k, Call (aop x) q k ∈ h ++ evs) ->
  forall b y q, alter (set_ph p) a (v_acts v) !! b = Some y -> ph_q (ph y) = Some q -> exists k, Call (aop y) q k ∈ h ++ evs.
Proof.
  intros HO Hn b y q [(-> & x & Hx & ->)|(Hne & Hb)]%lookup_alter_Some Hq.
  - cbn in *. by eapply Hn.
  - destruct (HO b y q Hb Hq) as [k Hk]. exists k. apply elem_of_app. by left.
Qed.

Lemma astep_oba v a evs w h : OBA v h -> astep v a evs w -> OBA w (h ++ evs).
Proof.
  intros HO Hst.
  assert (Hmono : forall b y q, v_acts v !! b = Some y -> ph_q (ph y) = Some q -> exists k, Call (aop y) q k ∈ h ++ evs).
  { intros b y q Hb Hq. destruct (HO b y q Hb Hq) as [k Hk]. exists k. apply elem_of_app. by left. }
  destruct Hst as [w Hv|w Hv|w x k q Ha Hp Hv|w x q d Ha Hp Hv|w x k q Ha Hp Hk Hpe Hv|w x q j Ha Hp Hj Hv|w x q js Ha Hp Hpe Hv
                  |w q j js Hpe Hv|w x q Ha Hp Hfl Hv|w x Ha Hp Hv|w x q Ha Hp Hv|w x k q Ha Hp Hv];
    (eapply OBA_veq; [exact Hv|]); clear Hv w; intros b y q0; cbn [v_acts].
  - exact (Hmono b y q0).
  - intros [Hb|[_ Hb]]%lookup_app_Some; [by apply (Hmono b y q0)|]. destruct (b - _); [|done]. injection Hb as <-. done.
  - intros Hb Hq. destruct (decide (a = b)) as [<-|Hne].
    + rewrite list_lookup_insert in Hb by (by eapply lookup_lt_Some). injection Hb as <-. cbn in *. injection Hq as <-.
      exists k. apply elem_of_app. right. by left.
    + rewrite list_lookup_insert_ne in Hb by done. by apply (Hmono b y q0).
  - apply (oba_alter v h _ a _ HO). intros x' q' Hx' Hq'. by destruct d.
  - apply (oba_alter v h _ a _ HO). intros x' q' Hx' [= <-]. rewrite Ha in Hx'. injection Hx' as <-.
    apply (Hmono a x q Ha). by rewrite Hp.
  - apply (oba_alter v h _ a _ HO). intros x' q' Hx' [= <-]. rewrite Ha in Hx'. injection Hx' as <-.
    apply (Hmono a x q Ha). by rewrite Hp.
  - apply (oba_alter v h _ a _ HO). intros x' q' Hx' Hq'. done.
  - intros Hb Hq. destruct (arun_acts_inv _ _ _ _ Hb) as (y0 & Hy0 & E1 & E2 & _). rewrite E2. apply (Hmono b y0 q0 Hy0). by rewrite <- E1.
  - apply (oba_alter v h _ a _ HO). intros x' q' Hx' Hq'. done.
  - apply (oba_alter v h _ a _ HO). intros x' q' Hx' Hq'. done.
  - apply (oba_alter v h _ a _ HO). intros x' q' Hx' Hq'. done.
  - apply (oba_alter v h _ a _ HO). intros x' q' Hx' Hq'. done.
Qed.
