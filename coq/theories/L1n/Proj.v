(* L1n: every run of the nested model projects to a run of the (unmodified) L1 model with the same history:
   all L1 invariants hold in the base state of every reachable nested state *)
From stdpp Require Import list numbers list_numbers option.
From RecordUpdate Require Import RecordUpdate.
From L1 Require Import Model Own Shape Stuck Live Final Pool.
From L1z Require Import ZFinal.
From L1g Require Import MView Frozen.
From L1h Require Import Hist Sim Reach.
From L1n Require Import Model.

Definition next_op (ac : actor) : option op := match ac.(stack) with FTop (o :: _) :: _ => Some o | _ => None end.
(* the body activation of the closure an activation is about to finish *)
Definition body_of (ns : nstate) (ac : actor) : option nat := o ← clos_op ac; qk ← ns.(ops) !! o; qk.2.

Lemma next_op_Some ac o : next_op ac = Some o <-> exists os rest, ac.(stack) = FTop (o :: os) :: rest.
Proof.
  unfold next_op. split; [|by intros (os & rest & ->)].
  destruct (stack ac) as [|fr rest]; [done|]. destruct fr; try done. destruct script; [done|]. intros [= ->]. eauto.
Qed.
Lemma body_of_Some ns ac k : body_of ns ac = Some k <-> exists o q, clos_op ac = Some o /\ ns.(ops) !! o = Some (q, Some k).
Proof.
  unfold body_of. split; [|intros (o & q & -> & Eo); cbn; by rewrite Eo].
  destruct (clos_op ac) as [o|]; [|done]. cbn. destruct (ops ns !! o) as [[q k']|] eqn:Eo; [|done]. cbn. intros ->. eauto.
Qed.

Lemma body_of_case {A} ns ac (f : nat -> A) (d : A) :
  match clos_op ac with Some o => match ns.(ops) !! o with Some (_, Some k) => f k | _ => d end | None => d end =
  match body_of ns ac with Some k => f k | None => d end.
Proof. unfold body_of. destruct (clos_op ac) as [o|]; [|done]. cbn. by destruct (ops ns !! o) as [[? [k|]]|]. Qed.

Section Proj.
  Context (T : tables) (F : facts) (ntop : nat) (P : prog).

  Lemma nstep_eq ns a : nstep T F ntop P ns a =
    if is_kid ntop P a && negb (bool_decide (a ∈ ns.(started))) then None else
    ac ← ns.(base).(actors) !! a;
    match next_op ac with
    | Some o => ns' ← bstep T F ns a;
                Some (ns' <| ops := ns.(ops) ++ [(op_q o, kid_at P a (default 0 (ns.(ncnt) !! a)))] |> <| ncnt := alter S a ns.(ncnt) |>)
    | None => match body_of ns ac with
              | Some k => if bool_decide (k ∈ ns.(started)) then (if done_b ns.(base) k then bstep T F ns a else None)
                          else Some (ns <| started := k :: ns.(started) |>)
              | None => bstep T F ns a
              end
    end.
  Proof.
    unfold nstep. destruct (_ && _); [done|]. destruct (actors (base ns) !! a) as [ac|]; [|done]. cbn.
    rewrite body_of_case. unfold next_op. destruct (stack ac) as [|fr rest]; [done|]. destruct fr; try done. by destruct script.
  Qed.

  Inductive ncase (ns : nstate) (a : nat) (ns' : nstate) : Prop :=
  | nc_start ac k :
      ns.(base).(actors) !! a = Some ac -> body_of ns ac = Some k -> k ∉ ns.(started) ->
      ns' = ns <| started := k :: ns.(started) |> -> ncase ns a ns'
  | nc_issue ac o s' :
      ns.(base).(actors) !! a = Some ac -> next_op ac = Some o -> step T F ns.(base) a = Some s' ->
      ns' = {| base := s'; nh := ns.(nh) ++ obs' T ns.(base) a s'; started := ns.(started);
               ncnt := alter S a ns.(ncnt); ops := ns.(ops) ++ [(op_q o, kid_at P a (default 0 (ns.(ncnt) !! a)))] |} -> ncase ns a ns'
  | nc_base ac s' :
      ns.(base).(actors) !! a = Some ac -> next_op ac = None -> step T F ns.(base) a = Some s' ->
      (forall k, body_of ns ac = Some k -> k ∈ ns.(started) /\ done_b ns.(base) k = true) ->
      ns' = {| base := s'; nh := ns.(nh) ++ obs' T ns.(base) a s'; started := ns.(started); ncnt := ns.(ncnt); ops := ns.(ops) |} -> ncase ns a ns'.

  Lemma bstep_inv ns a ns' : bstep T F ns a = Some ns' -> exists s', step T F ns.(base) a = Some s' /\
    ns' = {| base := s'; nh := ns.(nh) ++ obs' T ns.(base) a s'; started := ns.(started); ncnt := ns.(ncnt); ops := ns.(ops) |}.
  Proof.
    unfold bstep, obs. destruct (step T F (base ns) a) as [s'|]; [|done]. cbn. intros [= <-]. exists s'. split; [done|]. by destruct ns.
  Qed.

  Lemma nstep_cases ns a ns' : nstep T F ntop P ns a = Some ns' ->
    (is_kid ntop P a = true -> a ∈ ns.(started)) /\ ncase ns a ns'.
  Proof.
    rewrite nstep_eq. destruct (is_kid ntop P a && negb (bool_decide (a ∈ started ns))) eqn:Eg; [done|]. intros H. split.
    { intros Hk. rewrite Hk in Eg. cbn in Eg. apply negb_false_iff in Eg. by apply bool_decide_eq_true in Eg. }
    clear Eg. destruct (actors (base ns) !! a) as [ac|] eqn:Ea; [|done]. cbn in H. destruct (next_op ac) as [o|] eqn:En.
    - destruct (bstep T F ns a) as [ns1|] eqn:E; [|done]. injection H as <-. apply bstep_inv in E as (s' & Hs & ->). by eapply nc_issue.
    - destruct (body_of ns ac) as [k|] eqn:Eb.
      + case_bool_decide as Hk; [|injection H as <-; by eapply nc_start].
        destruct (done_b (base ns) k) eqn:Ed; [|done]. apply bstep_inv in H as (s' & Hs & ->). eapply nc_base; try done. intros k'. rewrite Eb. by intros [= <-].
      + apply bstep_inv in H as (s' & Hs & ->). eapply nc_base; try done. intros k'. by rewrite Eb.
  Qed.

  Lemma steph_step s h a s' : step T F s a = Some s' -> steph T F (s, h) a = Some (s', h ++ obs' T s a s').
  Proof. intros Hs. unfold steph, obs. cbn. by rewrite Hs. Qed.

  Lemma nrun_snoc ns tr a : nrun T F ntop P ns (tr ++ [a]) = ns1 ← nrun T F ntop P ns tr; nstep T F ntop P ns1 a.
  Proof. unfold nrun. rewrite foldl_app. cbn. done. Qed.
  Lemma nrun_ind ns0 (I : list nat -> nstate -> Prop) :
    I [] ns0 ->
    (forall tr ns a ns', nrun T F ntop P ns0 tr = Some ns -> I tr ns -> nstep T F ntop P ns a = Some ns' -> I (tr ++ [a]) ns') ->
    forall tr ns, nrun T F ntop P ns0 tr = Some ns -> I tr ns.
  Proof.
    intros H0 HI tr. induction tr as [|a tr IH] using rev_ind; intros ns Hr.
    - by injection Hr as <-.
    - rewrite nrun_snoc in Hr. destruct (nrun T F ntop P ns0 tr) as [ns1|] eqn:E; [|done]. eauto.
  Qed.

  Lemma nstep_actor ns a ns' : nstep T F ntop P ns a = Some ns' -> is_Some (ns.(base).(actors) !! a).
  Proof. intros [_ [ac ? Ea|ac ? ? Ea|ac ? Ea]]%nstep_cases; by rewrite Ea. Qed.
  Lemma nterminal_b_sound ns : nterminal_b T F ntop P ns = true -> nterminal T F ntop P ns.
  Proof.
    unfold nterminal_b. rewrite forallb_forall. intros H a. destruct (nstep T F ntop P ns a) as [ns'|] eqn:E; [|done].
    specialize (H a). rewrite <- elem_of_list_In, elem_of_seq, E in H. apply nstep_actor, lookup_lt_is_Some in E. discriminate H. lia.
  Qed.

  Lemma nrun_len ns tr ns' : nrun T F ntop P ns tr = Some ns' ->
    exists tr', runh T F (ns.(base), ns.(nh)) tr' = Some (ns'.(base), ns'.(nh)) /\
                length tr + length ns.(started) = length tr' + length ns'.(started).
  Proof.
    revert tr ns'. apply nrun_ind; [by exists []|]. intros tr ns1 a ns2 _ (tr' & Hr & Hl) Hs. rewrite app_length. cbn.
    destruct (nstep_cases _ _ _ Hs) as [_ [ac k _ _ _ ->|ac o s' _ _ Hs' ->|ac s' _ _ Hs' _ ->]]; cbn.
    1: exists tr'; split; [done|lia].
    all: exists (tr' ++ [a]); rewrite app_length, (runh_app T F), Hr; cbn; split; [by apply steph_step|lia].
  Qed.
  Lemma nrun_nodup ns tr ns' : nrun T F ntop P ns tr = Some ns' -> NoDup ns.(started) -> NoDup ns'.(started).
  Proof.
    intros Hr H0. revert tr ns' Hr. apply (nrun_ind ns (fun _ ns' => NoDup (started ns'))); [done|]. intros _ ns1 a ns2 _ H1 Hs.
    destruct (nstep_cases _ _ _ Hs) as [_ [ac k _ _ Hk ->| |]]; [by constructor|by subst..].
  Qed.

  Theorem nreach_base nq mx tr ns : nrun T F ntop P (ninit nq mx P) tr = Some ns ->
    exists tr', run T F (init nq mx (a_script <$> P)) tr' = Some ns.(base) /\ ns.(nh) = hist T F (init nq mx (a_script <$> P)) tr'.
  Proof.
    intros Hr. destruct (nrun_len _ _ _ Hr) as (tr' & Hr' & _). cbn in Hr'. exists tr'.
    pose proof (runh_fst T F (init nq mx (a_script <$> P), []) tr') as Hf. rewrite Hr' in Hf. cbn in Hf. split; [done|].
    unfold hist. by rewrite Hr'.
  Qed.
End Proj.

(* everything L1 knows about a reachable state *)
Record BaseOK (P : prog) (ns : nstate) : Prop := {
  b_all : All ns.(base); b_all0 : All0 ns.(base); b_m : InvM (mv ns.(base)); b_h : HInv (ns.(base), ns.(nh));
  b_nc : ncallers ns.(base) = length P;
}.

Section Reach.
  Context (T : tables) (F : facts) (HK : core_tables T) (HT : own_conditions T) (HI : imm_conditions T)
          (HF : F.(f_dormant_blocks) = true) (HN : F.(f_sticky_notify) = true).
  Context (nq mx ntop : nat) (P : prog) (HW : nwf nq ntop P) (Hmx : 1 <= mx).

  Lemma nreach_hinv tr ns : nrun T F ntop P (ninit nq mx P) tr = Some ns -> HInv (ns.(base), ns.(nh)).
  Proof. intros (tr' & Hr' & ->)%nreach_base. by apply (reachable_hinv T F HT HI). Qed.

  Theorem nreach_ok tr ns : nrun T F ntop P (ninit nq mx P) tr = Some ns -> BaseOK P ns.
  Proof.
    intros Hr. destruct (nreach_base T F ntop P nq mx tr ns Hr) as (tr' & Hr' & Hh).
    pose proof (w_scripts _ _ _ HW) as Hws.
    destruct (reachable_invm T F HK HT HF nq mx _ tr' _ Hws Hmx Hr') as [H1 H2]. split; [done| |done|by eapply nreach_hinv|].
    - by eapply (reachable_all0 T F HK HT HN).
    - destruct (reachable_pool_bounded T F nq mx _ tr' _ Hr') as (_ & _ & Hl). unfold ncallers. rewrite Hl, fmap_length. lia.
  Qed.
End Reach.
