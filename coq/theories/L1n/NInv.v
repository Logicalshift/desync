(* L1n: the invariant of the nesting bookkeeping (which activation is the body of which operation, what has been started) *)
From stdpp Require Import list numbers option.
From L1 Require Import Model Stuck.
From L1h Require Import Hist Abs.
From L1n Require Import Model Eff Oba.

(* the activation is inside an operation *)
Definition midop (st : list frame) : Prop := forall os, st <> [FTop os].

(* what the invariant reads of a stack is kept: the script frames, and being a bare script frame *)
Definition sstay (st' st : list frame) : Prop := tscripts st' = tscripts st /\ forall os, st = [FTop os] -> st' = [FTop os].
Lemma swake_sstay st' st : swake st' st -> sstay st' st.
Proof. intros H. split; [by apply swake_tscripts|]. intros os. by apply swake_single. Qed.
Lemma sstay_midop st' st : sstay st' st -> midop st' -> midop st.
Proof. intros [_ H] Hm os E. by apply (Hm os), H. Qed.

Lemma acts_lookup_inv s a x : acts s !! a = Some x -> exists ac, s.(actors) !! a = Some ac /\ x = aact ac.
Proof. unfold acts. rewrite list_lookup_fmap. destruct (actors s !! a) as [ac|]; [|done]. cbn. intros [= <-]. eauto. Qed.

Lemma drop_cons_S {A} (l : list A) i x r : drop i l = x :: r -> drop (S i) l = r /\ l !! i = Some x /\ x ∈ l.
Proof.
  revert i. induction l as [|y l IH]; intros [|i] H; cbn in *; try done.
  - injection H as -> ->. repeat split. by left.
  - destruct (IH i H) as (H1 & H2 & H3). repeat split; try done. by right.
Qed.

Section NInv.
  Context (ntop : nat) (P : prog).

  Record act_inv (ns : nstate) (a : nat) (act : act) (st : list frame) (oc : nat) : Prop := {
    (* the script frame is what is left of the script after the operations issued *)
    ia_align : exists i, ns.(ncnt) !! a = Some i /\ tscripts st = [drop i act.(a_script)];
    (* a body that has not been started is inert *)
    ia_unst : is_kid ntop P a = true -> a ∉ ns.(started) -> st = [FTop act.(a_script)];
    (* the operation an activation is inside of is one of its script *)
    ia_cur : midop st -> exists o kd, o ∈ act.(a_script) /\ ns.(ops) !! oc = Some (op_q o, kd);
  }.

  (* a step that does not touch the activation *)
  Lemma act_inv_other ns ns' a act st st' oc : act_inv ns a act st oc -> sstay st' st ->
    ns'.(ncnt) !! a = ns.(ncnt) !! a -> (a ∉ ns'.(started) -> a ∉ ns.(started)) -> ns.(ops) `prefix_of` ns'.(ops) ->
    act_inv ns' a act st' oc.
  Proof.
    intros [A1 A2 A3] Hst Hc Hs Ho. split.
    - by rewrite Hc, (proj1 Hst).
    - intros Hk Hn. by apply (proj2 Hst), A2, Hs.
    - intros Hm. destruct (A3 (sstay_midop _ _ Hst Hm)) as (o & kd & H1 & H2). exists o, kd. split; [done|]. by eapply prefix_lookup.
  Qed.

  Lemma act_inv_issue ns a act o os rest oc : act_inv ns a act (FTop (o :: os) :: rest) oc ->
    exists i, ns.(ncnt) !! a = Some i /\ act.(a_script) !! i = Some o /\ o ∈ act.(a_script) /\ drop (S i) act.(a_script) = os /\ tscripts rest = [].
  Proof.
    intros [(i & Hi & Hal) _ _]. exists i. injection Hal as Hd Hr. symmetry in Hd. by destruct (drop_cons_S _ _ _ _ Hd) as (H1 & H2 & H3).
  Qed.

  Record NInv (ns : nstate) : Prop := {
    n_len : length ns.(ops) = ns.(base).(nextop);
    n_started : forall k, k ∈ ns.(started) -> is_kid ntop P k = true;
    n_acts : forall a act, P !! a = Some act -> exists ac, ns.(base).(actors) !! a = Some ac /\ act_inv ns a act ac.(stack) ac.(opctr);
    (* the body of an operation is the body activation of that operation's object *)
    n_ops : forall o q k, ns.(ops) !! o = Some (q, Some k) ->
        is_kid ntop P k = true /\ exists act, P !! k = Some act /\ act.(a_base) = Some q;
    n_call : forall o q kd, ns.(ops) !! o = Some (q, kd) -> exists kk, Call o q kk ∈ ns.(nh);
    (* a closure that has run: its whole body has been executed *)
    n_ran : forall o q k, ns.(ops) !! o = Some (q, Some k) -> o ∈ ns.(base).(ran) -> k ∈ ns.(started) /\ done_b ns.(base) k = true;
    n_oba : OBA (view ns.(base)) ns.(nh);
  }.

  Definition unstarted (ns : nstate) (a : nat) : Prop :=
    is_kid ntop P a = true /\ a ∉ ns.(started) /\
    exists ac act, ns.(base).(actors) !! a = Some ac /\ P !! a = Some act /\ ac.(stack) = [FTop act.(a_script)].

  Lemma n_unst ns k : NInv ns -> is_kid ntop P k = true -> k ∉ ns.(started) -> unstarted ns k.
  Proof.
    intros HN Hk Hn. split; [done|]. split; [done|]. pose proof Hk as [_ Hlt]%bool_decide_eq_true.
    destruct (lookup_lt_is_Some_2 _ _ Hlt) as [act Hact]. destruct (n_acts _ HN k act Hact) as (ac & Ea & Hi).
    exists ac, act. split; [done|]. split; [done|]. by apply (ia_unst _ _ _ _ _ Hi).
  Qed.
  Lemma n_cur ns a act ac : NInv ns -> P !! a = Some act -> ns.(base).(actors) !! a = Some ac -> midop ac.(stack) ->
    exists o kd, o ∈ act.(a_script) /\ ns.(ops) !! ac.(opctr) = Some (op_q o, kd).
  Proof.
    intros HN Hact Ea. destruct (n_acts _ HN a act Hact) as (ac' & Ea' & Hi). rewrite Ea in Ea'. injection Ea' as <-. apply (ia_cur _ _ _ _ _ Hi).
  Qed.

  Lemma ninit_inv nq mx : NInv (ninit nq mx P).
  Proof.
    split; cbn [ninit ops started nh]; try (intros o q k Ho; by rewrite lookup_nil in Ho).
    - done.
    - intros k Hk. by apply elem_of_nil in Hk.
    - intros a act Hact. eexists. split; [unfold ninit, init; cbn [base actors]; by rewrite !list_lookup_fmap, Hact|]. cbn. split; cbn.
      + exists 0. split; [|done]. apply lookup_replicate. split; [done|by eapply lookup_lt_Some].
      + done.
      + intros Hm. by destruct (Hm (a_script act)).
    - intros a x q Ha Hq. apply acts_lookup_inv in Ha as (ac & Hac & ->). unfold ninit, init in Hac. cbn [base actors] in Hac.
      rewrite !list_lookup_fmap in Hac. destruct (P !! a); [|done]. cbn in Hac. injection Hac as <-. done.
  Qed.
End NInv.
