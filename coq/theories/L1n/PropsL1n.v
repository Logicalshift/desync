(* L1n - nested operations: what C01-C05, C09 and C10 say of jobs that themselves call desync / sync / try_sync.
   A job body is a script of operations on strictly higher-numbered objects, executed by whichever thread runs the job (Model.v).
   Every nested run is an L1 run with the same history (L1n_runs_are_L1_runs), so the safety theorems of L1 / L1h carry over as
   they are (C01n, C02n, C03n_exactly_once, C04n, C05n, C09n); a nested call is called by the job it is in.
   New here: C03n_body_inside_closure, C03n_quiescent_is_complete (L-quiet with nesting), C03n_nothing_lost and C10n.
   L-quiet needs, beyond the hypotheses of L1's L_quiet, f_sticky_notify = true: a pool saturated by threads blocked in nested
   syncs is rescued by the waiter's claim, and that needs the notification to stick (defect F2: C03n_needs_sticky_notify_refuted);
   and nwf: nested operations go to higher objects.  No relation between the pool maximum (>= 1) and the nesting depth is needed.
   In C10n, B0 are activations frozen inside a closure (a pool thread or a caller blocked on a gate inside a job); a queue may then
   stay busy only if its runner is blocked BECAUSE of a frozen activation ([bf]).
   The *_prog theorems state the same for the recursive syntax [list (list nop)]: the flattening of a well-ordered program is nwf.
   Left out: bodies that call into the same or a lower-numbered object (excluded by nwf, as in the harness). *)
From stdpp Require Import list numbers option.
From L0 Require Import Types.
From L1 Require Import Model Own Shape Stuck Live Wait Help Final Pool.
From L1h Require Import Hist Abs Sim HistFacts Main.
From L1g Require Import Frozen.
From L1n Require Import Model Proj NInv Quiet Main Wf FlattenWf Examples.
From Gen Require Import Tables.

Theorem L1n_runs_are_L1_runs : forall (T : tables) (F : facts) ntop (P : prog) nq mx tr ns,
  nrun T F ntop P (ninit nq mx P) tr = Some ns ->
  exists tr', run T F (init nq mx (a_script <$> P)) tr' = Some ns.(base) /\ ns.(nh) = hist T F (init nq mx (a_script <$> P)) tr'.
Proof. exact nreach_base. Qed.

Theorem C01n_one_runner_per_object : forall (T : tables) (F : facts), own_conditions T ->
  forall nq mx ntop (P : prog) tr ns a b q na nb qq,
    nrun T F ntop P (ninit nq mx P) tr = Some ns -> ns.(base).(queues) !! q = Some qq ->
    stack_cnt ns.(base) a q = Some (S na) -> stack_cnt ns.(base) b q = Some (S nb) -> a = b.
Proof. intros T F HT nq mx ntop P tr ns a b q na nb qq (tr' & Hr & _)%nreach_base. by eapply (exclusive T F HT). Qed.
Theorem C01n_ownership_invariant : forall (T : tables) (F : facts), own_conditions T ->
  forall nq mx ntop (P : prog) tr ns, nrun T F ntop P (ninit nq mx P) tr = Some ns -> Inv ns.(base).
Proof. intros T F HT nq mx ntop P tr ns (tr' & Hr & _)%nreach_base. by eapply (reachable_inv T F HT). Qed.

Theorem C02n_call_order_is_run_order : forall (T : tables) (F : facts), own_conditions T -> imm_conditions T ->
  forall nq mx ntop (P : prog) tr ns A B q ka kb,
    nrun T F ntop P (ninit nq mx P) tr = Some ns ->
    Call A q ka ∈ ns.(nh) -> before (Ret A) (Call B q kb) ns.(nh) ->
    forall qb, Run B qb ∈ ns.(nh) -> qb = q /\ before (Run A q) (Run B q) ns.(nh).
Proof. intros T F HT HI nq mx ntop P tr ns A B q ka kb (tr' & Hr & ->)%nreach_base. by eapply (call_order_is_run_order T F HT HI). Qed.
Theorem C02n_queue_law : forall (T : tables) (F : facts), own_conditions T -> imm_conditions T ->
  forall nq mx ntop (P : prog) tr ns q,
    nrun T F ntop P (ninit nq mx P) tr = Some ns -> pushed ns.(nh) q = ranq ns.(nh) q ++ (job_id <$> pend ns.(base) q).
Proof. intros T F HT HI nq mx ntop P tr ns q (tr' & Hr & ->)%nreach_base. by eapply (queue_law T F HT HI). Qed.

Theorem C03n_exactly_once : forall (T : tables) (F : facts), own_conditions T -> imm_conditions T ->
  forall nq mx ntop (P : prog) tr ns,
    nrun T F ntop P (ninit nq mx P) tr = Some ns ->
    NoDup ns.(base).(ran) /\ NoDup (pushed_all ns.(nh)) /\ (forall i, i ∈ ns.(base).(ran) -> exists q, before (Push i q) (Run i q) ns.(nh)).
Proof. intros T F HT HI nq mx ntop P tr ns (tr' & Hr & ->)%nreach_base. by eapply (exactly_once T F HT HI). Qed.
Theorem C03n_body_inside_closure : forall (T : tables) (F : facts), own_conditions T -> imm_conditions T ->
  forall nq mx ntop (P : prog), nwf nq ntop P ->
  forall tr ns o q k, nrun T F ntop P (ninit nq mx P) tr = Some ns ->
    ns.(ops) !! o = Some (q, Some k) -> o ∈ ns.(base).(ran) -> k ∈ ns.(started) /\ done_b ns.(base) k = true.
Proof. exact body_done_n. Qed.

Theorem C04n_sync_runs_own_closure : forall (T : tables) (F : facts), own_conditions T -> imm_conditions T ->
  forall nq mx ntop (P : prog) tr ns i q k,
    nrun T F ntop P (ninit nq mx P) tr = Some ns -> k <> KDesync -> Call i q k ∈ ns.(nh) -> Ret i ∈ ns.(nh) ->
    exists h1 h2 h3 h4, ns.(nh) = h1 ++ Call i q k :: h2 ++ Run i q :: h3 ++ Ret i :: h4 /\ i ∉ runs (h1 ++ h2 ++ h3 ++ h4).
Proof. intros T F HT HI nq mx ntop P tr ns i q k (tr' & Hr & ->)%nreach_base. by eapply (sync_runs_own_closure T F HT HI). Qed.
Theorem C09n_busy_never_runs : forall (T : tables) (F : facts), own_conditions T -> imm_conditions T ->
  forall nq mx ntop (P : prog) tr ns i,
    nrun T F ntop P (ninit nq mx P) tr = Some ns -> RetBusy i ∈ ns.(nh) -> i ∉ ns.(base).(ran) /\ i ∉ pushed_all ns.(nh).
Proof. intros T F HT HI nq mx ntop P tr ns i (tr' & Hr & ->)%nreach_base. by eapply (busy_never_runs T F HT HI). Qed.

Theorem C03n_quiescent_is_complete : forall (T : tables) (F : facts),
  core_tables T -> own_conditions T -> imm_conditions T -> F.(f_dormant_blocks) = true -> F.(f_sticky_notify) = true ->
  forall nq mx ntop (P : prog), nwf nq ntop P -> 1 <= mx ->
  forall tr ns, nrun T F ntop P (ninit nq mx P) tr = Some ns -> nterminal T F ntop P ns ->
    nquiet ntop P ns /\ ncomplete ntop P ns = true.
Proof. exact L_quiet_n. Qed.
Theorem C03n_nothing_lost : forall (T : tables) (F : facts),
  core_tables T -> own_conditions T -> imm_conditions T -> F.(f_dormant_blocks) = true -> F.(f_sticky_notify) = true ->
  forall nq mx ntop (P : prog), nwf nq ntop P -> 1 <= mx ->
  forall tr ns, nrun T F ntop P (ninit nq mx P) tr = Some ns -> nterminal T F ntop P ns ->
  forall i q, Push i q ∈ ns.(nh) -> Run i q ∈ ns.(nh) /\ i ∈ ns.(base).(ran) /\
    forall qo k, ns.(ops) !! i = Some (qo, Some k) -> k ∈ ns.(started) /\ done_b ns.(base) k = true.
Proof. exact nothing_lost_n. Qed.

Theorem C10n_blocked_objects_do_not_stop_the_others : forall (T : tables) (F : facts),
  core_tables T -> own_conditions T -> imm_conditions T -> F.(f_dormant_blocks) = true -> F.(f_sticky_notify) = true ->
  forall nq mx ntop (P : prog), nwf nq ntop P -> 1 <= mx ->
  forall tr ns B0, nrun T F ntop P (ninit nq mx P) tr = Some ns ->
    frozen_ok ns.(base) B0 -> nterminal_except T F ntop P B0 ns -> npool_free T F ns -> nquiet_except ntop P B0 ns.
Proof. exact L_quiet_frozen_n. Qed.

Theorem C05n_drop_after_returned : forall (T : tables) (F : facts), own_conditions T -> imm_conditions T ->
  forall nq mx ntop (P : prog) tr ns A D q ka,
    nrun T F ntop P (ninit nq mx P) tr = Some ns ->
    Call A q ka ∈ ns.(nh) -> before (Ret A) (Call D q KSync) ns.(nh) ->
    forall h3 h4, ns.(nh) = h3 ++ Run D q :: h4 -> Run A q ∈ h3.
Proof. intros T F HT HI nq mx ntop P tr ns A D q ka (tr' & Hr & ->)%nreach_base. by eapply (drop_after_returned T F HT HI). Qed.
Theorem C05n_drop_runs_last : forall (T : tables) (F : facts), own_conditions T -> imm_conditions T ->
  forall nq mx ntop (P : prog) tr ns D q h1 h2,
    nrun T F ntop P (ninit nq mx P) tr = Some ns ->
    ns.(nh) = h1 ++ Call D q KSync :: h2 ->
    (forall B k, B <> D -> Call B q k ∈ ns.(nh) -> finished B h1) ->
    forall h3 h4, ns.(nh) = h3 ++ Run D q :: h4 ->
      (forall B, B <> D -> Push B q ∈ ns.(nh) -> Run B q ∈ h3) /\ (forall B, Run B q ∉ h4).
Proof. intros T F HT HI nq mx ntop P tr ns D q h1 h2 (tr' & Hr & ->)%nreach_base. by eapply (drop_runs_last T F HT HI). Qed.

Theorem L1n_flatten_is_well_formed : forall nq (scs : list (list nop)), wo nq scs -> nwf nq (length scs) (flatten scs).
Proof. exact flatten_nwf. Qed.

Theorem C03n_quiescent_is_complete_prog : forall (T : tables) (F : facts),
  core_tables T -> own_conditions T -> imm_conditions T -> F.(f_dormant_blocks) = true -> F.(f_sticky_notify) = true ->
  forall nq mx (scs : list (list nop)), wo nq scs -> 1 <= mx ->
  forall tr ns, nrun T F (length scs) (flatten scs) (ninit nq mx (flatten scs)) tr = Some ns -> nterminal T F (length scs) (flatten scs) ns ->
    nquiet (length scs) (flatten scs) ns /\ ncomplete (length scs) (flatten scs) ns = true.
Proof.
  exact (fun T F H1 H2 H3 H4 H5 nq mx scs Hwo => C03n_quiescent_is_complete T F H1 H2 H3 H4 H5 nq mx (length scs) (flatten scs) (flatten_nwf nq scs Hwo)).
Qed.

Theorem C03n_nothing_lost_prog : forall (T : tables) (F : facts),
  core_tables T -> own_conditions T -> imm_conditions T -> F.(f_dormant_blocks) = true -> F.(f_sticky_notify) = true ->
  forall nq mx (scs : list (list nop)), wo nq scs -> 1 <= mx ->
  forall tr ns, nrun T F (length scs) (flatten scs) (ninit nq mx (flatten scs)) tr = Some ns -> nterminal T F (length scs) (flatten scs) ns ->
  forall i q, Push i q ∈ ns.(nh) -> Run i q ∈ ns.(nh) /\ i ∈ ns.(base).(ran) /\
    forall qo k, ns.(ops) !! i = Some (qo, Some k) -> k ∈ ns.(started) /\ done_b ns.(base) k = true.
Proof.
  exact (fun T F H1 H2 H3 H4 H5 nq mx scs Hwo => C03n_nothing_lost T F H1 H2 H3 H4 H5 nq mx (length scs) (flatten scs) (flatten_nwf nq scs Hwo)).
Qed.

Theorem C10n_blocked_objects_do_not_stop_the_others_prog : forall (T : tables) (F : facts),
  core_tables T -> own_conditions T -> imm_conditions T -> F.(f_dormant_blocks) = true -> F.(f_sticky_notify) = true ->
  forall nq mx (scs : list (list nop)), wo nq scs -> 1 <= mx ->
  forall tr ns B0, nrun T F (length scs) (flatten scs) (ninit nq mx (flatten scs)) tr = Some ns ->
    frozen_ok ns.(base) B0 -> nterminal_except T F (length scs) (flatten scs) B0 ns -> npool_free T F ns ->
    nquiet_except (length scs) (flatten scs) B0 ns.
Proof.
  exact (fun T F H1 H2 H3 H4 H5 nq mx scs Hwo => C10n_blocked_objects_do_not_stop_the_others T F H1 H2 H3 H4 H5 nq mx (length scs) (flatten scs) (flatten_nwf nq scs Hwo)).
Qed.

(* non-vacuity: the example programs are well-ordered (and exS_prog, exD_prog are their flattenings) *)
Example wo_examples :
  wo 2 [[NDesync 0 [NSync 1 []]]; [NSync 1 []]] /\
  wo 4 [[NDesync 0 [NSync 1 [NDesync 2 []; NTrySync 2 [NDesync 3 []]]]]; [NDesync 1 []; NSync 2 []]] /\
  exS_prog = flatten [[NDesync 0 [NSync 1 []]]; [NSync 1 []]] /\
  ~ wo 2 [[NDesync 1 [NSync 0 []]]].
Proof.
  split; [|split; [|split]].
  - repeat constructor.
  - repeat constructor.
  - reflexivity.
  - intros H. apply list.Forall_cons in H as [H _]. apply list.Forall_cons in H as [H _]. cbn in H. lia.
Qed.

(* finding F2 with nesting: without the sticky notification program S (Examples.v), pool maximum 1, gets stuck *)
Theorem C03n_needs_sticky_notify_refuted :
  exists ns, nrun gen_tables nosticky_facts 2 exS_prog exS_init exN_tr = Some ns /\
    nterminal gen_tables nosticky_facts 2 exS_prog ns /\ ncomplete 2 exS_prog ns = false /\ nwf 2 2 exS_prog /\
    tops ns = [Some (FTop []); Some (FTop []); Some (FSBwait 1); Some (FDRrun 0 (JPlain 0))] /\
    (qs <$> ns.(base).(queues)) = [Running; Pending] /\ ns.(base).(sched) = [1].
Proof.
  exact (match exN_stuck with ex_intro _ ns (conj H1 (conj H2 (conj H3 H4))) =>
           ex_intro _ ns (conj H1 (conj (nterminal_b_sound _ _ _ _ _ H2) (conj H3 (conj exS_wf H4)))) end).
Qed.

(* non-vacuity: the same program on the tables and facts generated from the source: the pool is saturated, the waiter steals,
   the run ends complete *)
Example C03n_hypotheses_hold :
  nwf 2 2 exS_prog /\
  (exists ns, nrun gen_tables gen_facts 2 exS_prog exS_init exS_tr1 = Some ns /\
     tops ns = [Some (FTop []); Some (FTop []); Some (FSBwoken 1); Some (FDRrun 0 (JPlain 0))] /\
     (qs <$> ns.(base).(queues)) = [Running; Pending] /\ ns.(base).(sched) = [1] /\ ns.(started) = [2] /\ length ns.(base).(threads) = 1) /\
  (exists ns, nrun gen_tables gen_facts 2 exS_prog exS_init (exS_tr1 ++ exS_tr2) = Some ns /\
     tops ns = [Some (FTop []); Some (FTop []); Some (FROdeq 1); Some (FDRrun 0 (JPlain 0))] /\
     (qs <$> ns.(base).(queues)) = [Running; Running] /\ ns.(base).(sched) = [] /\ (owner <$> ns.(base).(queues)) = [Some 3; Some 2]) /\
  (exists ns, nrun gen_tables gen_facts 2 exS_prog exS_init (exS_tr1 ++ exS_tr2 ++ exS_tr3) = Some ns /\
     nterminal gen_tables gen_facts 2 exS_prog ns /\ ncomplete 2 exS_prog ns = true /\ ns.(base).(ran) = [0; 2; 1] /\ ns.(started) = [2]).
Proof.
  exact (conj exS_wf (conj exS_saturated (conj exS_steal
    (match exS_run with ex_intro _ ns (conj H1 (conj H2 H3)) => ex_intro _ ns (conj H1 (conj (nterminal_b_sound _ _ _ _ _ H2) H3)) end)))).
Qed.
(* three levels; the try_sync of the second level answers Busy, its body is never started *)
Example C03n_three_levels :
  nwf 4 2 exD_prog /\
  exists ns, nrun gen_tables gen_facts 2 exD_prog (ninit 4 1 exD_prog) exD_tr = Some ns /\
    nterminal gen_tables gen_facts 2 exD_prog ns /\ ncomplete 2 exD_prog ns = true /\
    ns.(started) = [3; 2] /\ ns.(base).(ran) = [4; 2; 3; 0; 1] /\
    ns.(ops) = [(1, None); (2, None); (0, Some 2); (1, Some 3); (2, None); (2, Some 4)] /\
    ns.(nh) = [Call 0 1 KDesync; Push 0 1; Ret 0; Call 1 2 KSync; Push 1 2; Run 1 2; Ret 1; Call 2 0 KDesync; Push 2 0; Ret 2; Run 0 1;
               Call 3 1 KSync; Push 3 1; Call 4 2 KDesync; Push 4 2; Ret 4; Call 5 2 KTry; RetBusy 5; Run 3 1; Ret 3; Run 2 0; Run 4 2].
Proof.
  exact (conj exD_wf (match exD_run with ex_intro _ ns (conj H1 (conj H2 H3)) => ex_intro _ ns (conj H1 (conj (nterminal_b_sound _ _ _ _ _ H2) H3)) end)).
Qed.

(* non-vacuity of C10n: the frozen-caller scenario of Examples.v *)
Example C10n_hypotheses_hold :
  exists ns, nrun gen_tables gen_facts 2 exS_prog (ninit 2 2 exS_prog) exF_tr = Some ns /\ nwf 2 2 exS_prog /\
    frozen_ok ns.(base) [1] /\ nterminal_except gen_tables gen_facts 2 exS_prog [1] ns /\ npool_free gen_tables gen_facts ns /\
    tops ns = [Some (FTop []); Some (FSIrun 1); Some (FSBwait 1); Some (FDRrun 0 (JPlain 0))] /\
    (owner <$> ns.(base).(queues)) = [Some 3; Some 1] /\ ns.(started) = [2].
Proof.
  destruct exF_run as (ns & H1 & H2 & H3 & H4 & H5 & H6 & H7). exists ns. split; [exact H1|]. split; [exact exS_wf|]. split; [|split; [|split]].
  - clear H1 H3 H4 H5 H6 H7. intros a Ha. apply elem_of_list_singleton in Ha as ->. unfold tops in H2.
    destruct (actors (base ns)) as [|a0 [|a1 r]] eqn:E; try done. cbn in H2. injection H2 as _ H2 _.
    destruct (stack a1) as [|fr rest] eqn:Es; [done|]. injection H2 as ->. exists a1, (FSIrun 1), rest. split; [reflexivity|]. split; [exact Es|exact I].
  - by apply nterminal_except_b_sound.
  - left. rewrite H5, H6. lia.
  - exact (conj H2 (conj H4 H7)).
Qed.
(* C05n: the drop of object 1 (operation 2 = sync(free)) is issued by the body of a job of object 0 *)
Example C05n_hypotheses_hold :
  exists ns, nrun gen_tables gen_facts 1 exX_prog (ninit 2 1 exX_prog) exX_tr = Some ns /\
    ns.(ops) = [(1, None); (0, Some 1); (1, None)] /\
    ns.(nh) = [Call 0 1 KDesync; Push 0 1; Ret 0; Call 1 0 KDesync; Push 1 0; Ret 1; Run 0 1] ++ Call 2 1 KSync :: [Push 2 1; Run 2 1; Ret 2; Run 1 0] /\
    (forall B k, B <> 2 -> Call B 1 k ∈ ns.(nh) -> finished B [Call 0 1 KDesync; Push 0 1; Ret 0; Call 1 0 KDesync; Push 1 0; Ret 1; Run 0 1]) /\
    ns.(nh) = [Call 0 1 KDesync; Push 0 1; Ret 0; Call 1 0 KDesync; Push 1 0; Ret 1; Run 0 1; Call 2 1 KSync; Push 2 1] ++ Run 2 1 :: [Ret 2; Run 1 0].
Proof.
  destruct exX_run as (ns & H1 & H2 & H3 & _). exists ns. split; [exact H1|]. split; [exact H3|]. clear H1 H3. rewrite H2. split; [reflexivity|]. split; [|reflexivity].
  intros B k Hne Hc. repeat (apply elem_of_cons in Hc as [Hc|Hc]; [try discriminate; injection Hc as -> _|]); try by apply elem_of_nil in Hc.
  - left. right; right. by left.
  - done.
Qed.

Print Assumptions L1n_runs_are_L1_runs.
Print Assumptions C01n_one_runner_per_object.
Print Assumptions C01n_ownership_invariant.
Print Assumptions C02n_call_order_is_run_order.
Print Assumptions C02n_queue_law.
Print Assumptions C03n_exactly_once.
Print Assumptions C03n_body_inside_closure.
Print Assumptions C04n_sync_runs_own_closure.
Print Assumptions C09n_busy_never_runs.
Print Assumptions C03n_quiescent_is_complete.
Print Assumptions C03n_nothing_lost.
Print Assumptions C10n_blocked_objects_do_not_stop_the_others.
Print Assumptions C05n_drop_after_returned.
Print Assumptions C05n_drop_runs_last.
Print Assumptions L1n_flatten_is_well_formed.
Print Assumptions C03n_quiescent_is_complete_prog.
Print Assumptions C03n_nothing_lost_prog.
Print Assumptions C10n_blocked_objects_do_not_stop_the_others_prog.
Print Assumptions wo_examples.
Print Assumptions C10n_hypotheses_hold.
Print Assumptions C05n_hypotheses_hold.
Print Assumptions C03n_needs_sticky_notify_refuted.
Print Assumptions C03n_hypotheses_hold.
Print Assumptions C03n_three_levels.
