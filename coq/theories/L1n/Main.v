(* L1n: the theorems about nested programs *)
From stdpp Require Import list numbers list_numbers option.
From L1 Require Import Model Own Shape Live Final.
From L1g Require Import Frozen.
From L1h Require Import Hist Abs SimBase Sim HistFacts AInv Reach.
From L1n Require Import Model Proj NInv NStep Quiet.

Lemma forallb_imap_pair {A} (f : nat * A -> bool) (l : list A) :
  (forall i x, l !! i = Some x -> f (i, x) = true) -> forallb f (imap pair l) = true.
Proof.
  intros H. apply forallb_forall. intros [i x] Hin. apply elem_of_list_In, elem_of_lookup_imap in Hin as (j & y & [= -> ->] & Hl). by apply H.
Qed.

Section Nested.
  Context (T : tables) (F : facts) (HK : core_tables T) (HT : own_conditions T) (HI : imm_conditions T)
          (HF : F.(f_dormant_blocks) = true) (HN : F.(f_sticky_notify) = true).
  Context (nq mx ntop : nat) (P : prog) (HW : nwf nq ntop P) (Hmx : 1 <= mx).

  (* a closure that has run: its whole body - the nested operations, recursively - has been executed before *)
  Theorem body_done_n tr ns o q k : nrun T F ntop P (ninit nq mx P) tr = Some ns ->
    ns.(ops) !! o = Some (q, Some k) -> o ∈ ns.(base).(ran) -> k ∈ ns.(started) /\ done_b ns.(base) k = true.
  Proof. intros Hr. exact (n_ran _ _ _ (nreach_ninv T F HT HI nq ntop P HW mx tr ns Hr) o q k). Qed.

  Theorem L_quiet_n tr ns : nrun T F ntop P (ninit nq mx P) tr = Some ns -> nterminal T F ntop P ns ->
    nquiet ntop P ns /\ ncomplete ntop P ns = true.
  Proof.
    intros Hr Hterm.
    pose proof (nreach_ninv T F HT HI nq ntop P HW mx tr ns Hr) as HNI.
    pose proof (nreach_ok T F HK HT HI HF HN nq mx ntop P HW Hmx tr ns Hr) as HB.
    pose proof (nterminal_quiet T F nq ntop P HW ns HNI HB Hterm) as HQ. split; [done|].
    destruct HQ as [Q1 Q2 Q3]. pose proof (a_shape _ (b_all _ _ HB)) as HS.
    unfold ncomplete. rewrite !andb_true_iff. split; [split|].
    - apply forallb_imap_pair. intros a ac Ea. unfold act_done.
      destruct (decide (a < ncallers (base ns))) as [Hlt|Hge].
      + destruct (Q1 a ac Ea Hlt) as [->|(Hk & Hns & act & Hact & ->)]; [done|].
        destruct (a_script act); [done|]. rewrite Hk. cbn. by rewrite bool_decide_eq_false_2.
      + assert (Ht : a - ncallers (base ns) < length (threads (base ns))).
        { apply lookup_lt_Some in Ea. pose proof (sh_len _ HS). unfold ncallers in *. lia. }
        destruct (lookup_lt_is_Some_2 _ _ Ht) as [th Eth]. destruct (Q3 _ th Eth) as (_ & ap & Eap & Est).
        replace (ncallers (base ns) + (a - ncallers (base ns))) with a in Eap by lia. rewrite Ea in Eap. injection Eap as <-. by rewrite Est.
    - apply forallb_forall. intros qq Hin. apply elem_of_list_In, elem_of_list_lookup in Hin as [q Hq]. by destruct (Q2 q qq Hq) as [-> ->].
    - apply forallb_forall. intros th Hin. apply elem_of_list_In, elem_of_list_lookup in Hin as [t Ht]. destruct (Q3 t th Ht) as [-> _]. done.
  Qed.

  (* C10 with nesting: activations frozen inside a closure (B0) - and everything that is suspended or waits because of them -
     do not stop the others *)
  Theorem L_quiet_frozen_n tr ns B0 : nrun T F ntop P (ninit nq mx P) tr = Some ns ->
    frozen_ok ns.(base) B0 -> nterminal_except T F ntop P B0 ns -> npool_free T F ns -> nquiet_except ntop P B0 ns.
  Proof.
    intros Hr HB0 Hterm Hfree.
    pose proof (nreach_ninv T F HT HI nq ntop P HW mx tr ns Hr) as HNI.
    pose proof (nreach_ok T F HK HT HI HF HN nq mx ntop P HW Hmx tr ns Hr) as HB.
    exact (nfrozen_quiet T F nq ntop P HW B0 ns HNI HB Hterm HB0 Hfree).
  Qed.

  (* nothing is lost: in a state in which nobody can move every pushed operation has run, with its whole body *)
  Theorem nothing_lost_n tr ns : nrun T F ntop P (ninit nq mx P) tr = Some ns -> nterminal T F ntop P ns ->
    forall i q, Push i q ∈ ns.(nh) -> Run i q ∈ ns.(nh) /\ i ∈ ns.(base).(ran) /\
      forall qo k, ns.(ops) !! i = Some (qo, Some k) -> k ∈ ns.(started) /\ done_b ns.(base) k = true.
  Proof.
    intros Hr Hterm i q Hp.
    destruct (L_quiet_n tr ns Hr Hterm) as [[_ Q2 _] _].
    destruct (nreach_hinv T F HT HI nq mx ntop P tr ns Hr) as [_ HIv _ HAi]. cbn in HIv, HAi.
    assert (Hpend : pend ns.(base) q = []).
    { unfold pend, oj. destruct (queues (base ns) !! q) as [qq|] eqn:E; [|done]. cbn. destruct (Q2 q qq E) as [Hs Hj].
      rewrite (acq_free _ q qq HIv E) by (by rewrite Hs). done. }
    pose proof (ai_q _ _ HAi q) as Hq. cbn in Hq. rewrite Hpend, app_nil_r in Hq.
    apply elem_of_pushed in Hp. rewrite Hq in Hp. apply elem_of_ranq in Hp.
    assert (Hran : i ∈ ran (base ns)).
    { pose proof (ai_runs _ _ HAi) as Hruns. cbn in Hruns. apply elem_of_rev. rewrite <- Hruns. apply elem_of_runs. eauto. }
    split; [done|]. split; [done|]. intros qo k Ho. by eapply body_done_n.
  Qed.
End Nested.
