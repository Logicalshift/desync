(* L1n: the executable well-formedness check of a flattened program is sound *)
From stdpp Require Import list numbers option.
From L1 Require Import Stuck.
From L1n Require Import Model.

Lemma nwf_b_sound nq ntop P : nwf_b nq ntop P = true -> nwf nq ntop P.
Proof.
  unfold nwf_b. rewrite !andb_true_iff. intros [[[H1 H2] H3] H4].
  apply bool_decide_eq_true in H2. rewrite forallb_forall in H1, H3, H4.
  split.
  - unfold wf_scripts. apply list.Forall_forall. intros sc (act & -> & Hin)%elem_of_list_fmap. apply H1. by apply elem_of_list_In.
  - done.
  - intros a i k Hk. unfold kid_at in Hk. destruct (P !! a) as [acta|] eqn:Ea; [|done]. cbn in Hk.
    destruct (a_kids acta !! i) as [ko|] eqn:Ei; [|done]. cbn in Hk. subst ko.
    specialize (H3 acta). rewrite <- elem_of_list_In in H3. specialize (H3 (elem_of_list_lookup_2 _ _ _ Ea)).
    apply andb_true_iff in H3 as [H3 Hlen]. apply bool_decide_eq_true in Hlen.
    assert (Hi : i < length (a_script acta)) by (apply lookup_lt_Some in Ei; lia).
    destruct (lookup_lt_is_Some_2 _ _ Hi) as [o Eo].
    rewrite forallb_forall in H3. specialize (H3 (o, Some k)). rewrite <- elem_of_list_In in H3.
    assert (Hin : (o, Some k) ∈ zip (a_script acta) (a_kids acta ++ replicate (length (a_script acta)) None)).
    { apply elem_of_list_lookup. exists i. apply lookup_zip_with_Some. exists o, (Some k). split; [done|]. split; [done|]. by apply lookup_app_l_Some. }
    specialize (H3 Hin). cbn in H3. apply andb_true_iff in H3 as [Hr Hb]. apply bool_decide_eq_true in Hr. split; [done|].
    destruct (P !! k) as [actk|] eqn:Ek; [|done]. apply bool_decide_eq_true in Hb. by exists acta, o, actk.
  - intros k act b Ek Hb. specialize (H4 act). rewrite <- elem_of_list_In in H4. specialize (H4 (elem_of_list_lookup_2 _ _ _ Ek)).
    rewrite Hb in H4. rewrite forallb_forall in H4. apply list.Forall_forall. intros o Ho. eapply bool_decide_eq_true_1, H4. by apply elem_of_list_In.
Qed.
