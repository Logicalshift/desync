(* L1n: L-bound with nesting.  A nested run is an L1 run plus one extra step per body that is started; every body is started
   at most once: the length of every nested run is at most L1_bound (L1b/Explicit.v) of the flattened program plus the number of
   body activations. *)
From stdpp Require Import list numbers list_numbers option.
From L1 Require Import Model Own.
From L1h Require Import Sim Reach.
From L1b Require Import Measure Explicit.
From L1n Require Import Model Proj NInv NStep.

Definition L1n_bound (mx ntop : nat) (P : prog) : nat := L1_bound mx (a_script <$> P) + (length P - ntop).

Section Bound.
  Context (T : tables) (F : facts) (HT : own_conditions T) (HI : imm_conditions T) (HBd : bound_conditions T).
  Context (nq mx ntop : nat) (P : prog) (HW : nwf nq ntop P).

  Theorem L_bound_n tr ns : nrun T F ntop P (ninit nq mx P) tr = Some ns -> length tr <= L1n_bound mx ntop P.
  Proof.
    intros Hr. destruct (nrun_len T F ntop P _ _ _ Hr) as (tr' & H1 & H2). cbn in H1, H2.
    pose proof (runh_fst T F (init nq mx (a_script <$> P), []) tr') as Hf. rewrite H1 in Hf. cbn in Hf. symmetry in Hf.
    pose proof (L_bound_explicit T F HT HBd nq mx _ tr' _ (w_scripts _ _ _ HW) Hf) as Hb.
    pose proof (nreach_ninv T F HT HI nq ntop P HW mx tr ns Hr) as HNI.
    assert (Hst : length (started ns) <= length P - ntop).
    { rewrite <- (seq_length (length P - ntop) ntop). apply submseteq_length, NoDup_submseteq; [apply (nrun_nodup T F ntop P _ _ _ Hr); constructor|].
      intros k Hk. apply (n_started _ _ _ HNI) in Hk. apply bool_decide_eq_true in Hk. apply elem_of_seq. lia. }
    unfold L1n_bound. lia.
  Qed.

  Corollary no_infinite_nrun : ~ exists f : nat -> nat, forall n, is_Some (nrun T F ntop P (ninit nq mx P) (f <$> seq 0 n)).
  Proof.
    intros [f Hf]. destruct (Hf (S (L1n_bound mx ntop P))) as [ns Hns]. pose proof (L_bound_n _ _ Hns) as Hl.
    rewrite fmap_length, seq_length in Hl. lia.
  Qed.
End Bound.
