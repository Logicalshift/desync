(* L1n: every nested step keeps the bookkeeping invariant *)
From stdpp Require Import list numbers option.
From RecordUpdate Require Import RecordUpdate.
From L1 Require Import Model Own Stuck.
From L1h Require Import Hist Sim HistFacts AInv Reach.
From L1n Require Import Model Proj Eff Oba NInv.

Section NStep.
  Context (T : tables) (F : facts) (HT : own_conditions T) (HI : imm_conditions T).
  Context (nq ntop : nat) (P : prog) (HW : nwf nq ntop P).

  Lemma ninv_start ns a ac k : NInv ntop P ns -> ns.(base).(actors) !! a = Some ac -> body_of ns ac = Some k ->
    NInv ntop P (ns <| started := k :: ns.(started) |>).
  Proof.
    intros [Nlen Nst Nact Nops Ncall Nran Noba] Ea Eb.
    apply body_of_Some in Eb as (o & q & Ec & Eo). split; cbn; try done.
    - intros k' [->|Hin]%elem_of_cons; [by destruct (Nops o q k Eo)|by apply Nst].
    - intros b act Hact. destruct (Nact b act Hact) as (x & Ex & Hx). exists x. split; [done|].
      apply (act_inv_other ntop P ns _ b act _ _ _ Hx); [done|done| |done]. cbn. intros Hn' Hin. apply Hn'. by right.
    - intros o' q' k' Ho' Hr. destruct (Nran o' q' k' Ho' Hr) as [H1 H2]. split; [by right|done].
  Qed.

  Lemma ninv_issue ns a ac o s' : NInv ntop P ns -> HInv (ns.(base), ns.(nh)) -> (is_kid ntop P a = true -> a ∈ ns.(started)) ->
    ns.(base).(actors) !! a = Some ac -> next_op ac = Some o -> step T F ns.(base) a = Some s' ->
    NInv ntop P {| base := s'; nh := ns.(nh) ++ obs' T ns.(base) a s'; started := ns.(started);
                   ncnt := alter S a ns.(ncnt); ops := ns.(ops) ++ [(op_q o, kid_at P a (default 0 (ns.(ncnt) !! a)))] |}.
  Proof.
    intros [Nlen Nst Nact Nops Ncall Nran Noba] [HS HIv HWf HA] Hst Ea En Hs. cbn [fst snd] in *.
    pose proof (step_sim T F HT HI _ a s' HS HIv HWf Hs) as Hsim.
    apply next_op_Some in En as (os & rest & Est).
    set (evs := obs' T (base ns) a s') in *.
    assert (Hevs : evs = [Call (nextop (base ns)) (op_q o) (op_kind o)]) by (subst evs; unfold obs'; by rewrite Ea, Est).
    destruct (step_stepped T F _ a s' ac Hs Ea) as (ac' & Ea' & Hoth & [(o0 & os0 & rest0 & E0 & Hts & Hop' & Hnext & Hran)|(Hnt & _)]); [|by destruct (Hnt _ _ Est)].
    rewrite Est in E0. injection E0 as <- <- <-.
    split; cbn [base nh started ncnt ops].
    - rewrite app_length, Nlen, Hnext. cbn. lia.
    - done.
    - intros b act Hact. destruct (Nact b act Hact) as (x & Ex & Hx). destruct (decide (b = a)) as [->|Hb].
      + rewrite Ea in Ex. injection Ex as <-. exists ac'. split; [done|]. rewrite Est in Hx.
        destruct (act_inv_issue _ _ _ _ _ _ _ _ _ Hx) as (i & Hi & _ & Hin & Hd & Hrest). split; cbn [ncnt started ops].
        * exists (S i). split; [by rewrite list_lookup_alter, Hi|]. by rewrite Hts, Hrest, Hd.
        * intros Hk Hn'. destruct Hn'. by apply Hst.
        * intros _. exists o, (kid_at P a (default 0 (ncnt ns !! a))). split; [done|].
          rewrite Hop', lookup_app_r by lia. by rewrite Nlen, Nat.sub_diag.
      + destruct (Hoth b x Hb Ex) as (x' & Ex' & Hw & Ho). exists x'. split; [done|]. rewrite Ho.
        apply (act_inv_other ntop P ns _ b act (stack x) _ _); [done|by apply swake_sstay|cbn; by rewrite list_lookup_alter_ne|done|by apply prefix_app_r].
    - intros o' q' k' Ho'. apply lookup_app_Some in Ho' as [Ho'|[Hge Ho']]; [by eapply Nops|].
      destruct (o' - length (ops ns)) as [|?] eqn:E0; [|done]. cbn in Ho'. injection Ho' as <- Hkid.
      destruct (w_kid _ _ _ HW a _ k' Hkid) as (Hrange & acta & o2 & actk & Ha1 & Ha2 & Ha3 & Ha4).
      split; [by apply bool_decide_eq_true|]. exists actk. split; [done|].
      destruct (Nact a acta Ha1) as (x & Ex & Hx). rewrite Ea in Ex. injection Ex as <-. rewrite Est in Hx.
      destruct (act_inv_issue _ _ _ _ _ _ _ _ _ Hx) as (i & Hi & Hd2 & _). rewrite Hi in Ha2. cbn in Ha2. rewrite Hd2 in Ha2. by injection Ha2 as <-.
    - intros o' q' kd Ho'. apply lookup_app_Some in Ho' as [Ho'|[Hge Ho']].
      + destruct (Ncall o' q' kd Ho') as [kk Hkk]. exists kk. apply elem_of_app. by left.
      + destruct (o' - length (ops ns)) as [|?] eqn:E0; [|done]. cbn in Ho'. injection Ho' as <- _.
        assert (o' = nextop (base ns)) as -> by lia. exists (op_kind o). apply elem_of_app. right. rewrite Hevs. by left.
    - intros o' q' k' Ho' Hr. rewrite Hran in Hr.
      assert (Hlt : o' < nextop (base ns)).
      { pose proof (ai_runs _ _ HA) as Hruns. pose proof (ai_ids _ _ HA) as Hids. cbn in Hruns, Hids.
        assert (Hin : o' ∈ runs (nh ns)) by (rewrite Hruns; by apply elem_of_rev).
        apply elem_of_runs in Hin as [q2 Hin]. by apply (Hids _ Hin). }
      apply lookup_app_Some in Ho' as [Ho'|[Hge Ho']]; [|rewrite Nlen in Hge; lia].
      destruct (Nran o' q' k' Ho' Hr) as [H1 H2]. split; [done|]. by eapply done_stays.
    - exact (astep_oba _ a _ _ _ Noba Hsim).
  Qed.

  Lemma ninv_base ns a ac s' : NInv ntop P ns -> HInv (ns.(base), ns.(nh)) -> (is_kid ntop P a = true -> a ∈ ns.(started)) ->
    ns.(base).(actors) !! a = Some ac -> next_op ac = None -> step T F ns.(base) a = Some s' ->
    (forall k, body_of ns ac = Some k -> k ∈ ns.(started) /\ done_b ns.(base) k = true) ->
    NInv ntop P {| base := s'; nh := ns.(nh) ++ obs' T ns.(base) a s'; started := ns.(started); ncnt := ns.(ncnt); ops := ns.(ops) |}.
  Proof.
    intros [Nlen Nst Nact Nops Ncall Nran Noba] [HS HIv HWf HA] Hst Ea En Hs Hclos. cbn [fst snd] in *.
    pose proof (step_sim T F HT HI _ a s' HS HIv HWf Hs) as Hsim.
    destruct (step_stepped T F _ a s' ac Hs Ea) as (ac' & Ea' & Hoth & [(o & os & rest & Est & _)|(Hnt & Hts & Hopa & Hnext & Hran)]).
    { by rewrite (proj2 (next_op_Some ac o)) in En by eauto. }
    split; cbn [base nh started ncnt ops].
    - by rewrite Nlen, Hnext.
    - done.
    - intros b act Hact. destruct (Nact b act Hact) as (x & Ex & Hx).
      (* the stepping activation too keeps what the invariant reads *)
      assert (Hb : exists x', actors s' !! b = Some x' /\ sstay (stack x') (stack x) /\ opctr x' = opctr x).
      { destruct (decide (b = a)) as [->|Hb]; [|destruct (Hoth b x Hb Ex) as (x' & Ex' & Hw & Ho); eauto using swake_sstay].
        rewrite Ea in Ex. injection Ex as <-. exists ac'. split; [done|]. split; [|done]. split; [done|]. intros sc E. by destruct (Hnt sc []). }
      destruct Hb as (x' & Ex' & Hw & Ho). exists x'. split; [done|]. rewrite Ho.
      by apply (act_inv_other ntop P ns _ b act (stack x) _ _).
    - done.
    - intros o' q' kd Ho'. destruct (Ncall o' q' kd Ho') as [kk Hkk]. exists kk. apply elem_of_app. by left.
    - intros o' q' k' Ho' Hr.
      assert (Hold : k' ∈ started ns /\ done_b (base ns) k' = true).
      { destruct Hran as [Hrn|(o2 & Hc2 & Hrn)]; rewrite Hrn in Hr; [by eapply Nran|].
        apply elem_of_cons in Hr as [->|Hr]; [|by eapply Nran]. apply Hclos, body_of_Some. eauto. }
      destruct Hold as [H1 H2]. split; [done|]. by eapply done_stays.
    - exact (astep_oba _ a _ _ _ Noba Hsim).
  Qed.

  Lemma ninv_step ns a ns' : NInv ntop P ns -> HInv (ns.(base), ns.(nh)) -> nstep T F ntop P ns a = Some ns' -> NInv ntop P ns'.
  Proof.
    intros HN HH [Hst [ac k Ea Eb Hk ->|ac o s' Ea En Hs ->|ac s' Ea En Hs Hclos ->]]%nstep_cases.
    - by eapply ninv_start.
    - by eapply ninv_issue.
    - by eapply ninv_base.
  Qed.

  Theorem nreach_ninv mx tr ns : nrun T F ntop P (ninit nq mx P) tr = Some ns -> NInv ntop P ns.
  Proof.
    revert tr ns. apply nrun_ind; [apply ninit_inv|]. intros tr ns a ns' Hr H Hs.
    eapply ninv_step; [exact H|by eapply (nreach_hinv T F HT HI)|exact Hs].
  Qed.
End NStep.
