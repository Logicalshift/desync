(* L1n: L-quiet with nesting.  In a reachable state of the nested model in which nobody can move, no activation is suspended
   inside a closure, every started activation has finished, every queue is Idle and empty and the pool is dormant.
   The new argument is the induction over the objects (highest first): a queue that is being run is run by an activation
   suspended in a closure; the body it waits for is not finished, so it is blocked in sync_background on a HIGHER object,
   whose queue is then being run (induction), or about to be rescheduled (somebody can move), or whose job is in the hand of
   an activation suspended on a still higher object. *)
From stdpp Require Import list numbers list_numbers option.
From L1 Require Import Model Own Shape Stuck Final.
From L1z Require Import ZFinal.
From L1g Require Import Frozen.
From L1h Require Import Hist Abs SimBase HistFacts AInv Reach.
From L1n Require Import Model Proj Eff Oba NInv FrozenN.

(* nobody outside B0 can move (B0: activations frozen inside a closure - blocked on a gate for an arbitrarily long time) *)
Definition nterminal_except (T : tables) (F : facts) (ntop : nat) (P : prog) (B0 : list nat) (ns : nstate) : Prop :=
  forall a, a ∉ B0 -> nstep T F ntop P ns a = None.

Definition nterminal_except_b (T : tables) (F : facts) (ntop : nat) (P : prog) (B0 : list nat) (ns : nstate) : bool :=
  forallb (fun a => bool_decide (a ∈ B0) || match nstep T F ntop P ns a with None => true | Some _ => false end) (seq 0 (length ns.(base).(actors))).
Lemma nterminal_except_b_sound T F ntop P B0 ns : nterminal_except_b T F ntop P B0 ns = true -> nterminal_except T F ntop P B0 ns.
Proof.
  unfold nterminal_except_b. rewrite forallb_forall. intros H a Hn. destruct (nstep T F ntop P ns a) as [ns'|] eqn:E; [|done].
  specialize (H a). rewrite <- elem_of_list_In, elem_of_seq, E, bool_decide_eq_false_2 in H by done.
  apply nstep_actor, lookup_lt_is_Some in E. discriminate H. lia.
Qed.

Section Quiet.
  Context (T : tables) (F : facts) (nq ntop : nat) (P : prog) (HW : nwf nq ntop P) (B0 : list nat).

  (* the activations that could move in the base model but are held back by the nesting *)
  Definition enabled_b (s : state) (a : nat) : bool := match step T F s a with Some _ => true | None => false end.
  Definition held (ns : nstate) : list nat := filter (fun a => enabled_b ns.(base) a = true) (seq 0 (length ns.(base).(actors))).

  Lemma held_spec ns a : a ∈ held ns <-> is_Some (step T F ns.(base) a).
  Proof.
    unfold held. rewrite elem_of_list_filter, elem_of_seq. unfold enabled_b. split.
    - intros [H _]. destruct (step T F (base ns) a); [by eexists|done].
    - intros [s' Hs]. rewrite Hs. split; [done|]. split; [lia|]. by eapply lookup_lt_is_Some, step_actor.
  Qed.
  Lemma held_texc ns : terminal_except T F (held ns) ns.(base).
  Proof. intros a Hn. destruct (step T F (base ns) a) as [s'|] eqn:E; [|done]. exfalso. apply Hn, held_spec. by eexists. Qed.

  Inductive hcase (ns : nstate) (a : nat) : Prop :=
  | hc_unstarted ac o os : unstarted ntop P ns a -> ns.(base).(actors) !! a = Some ac -> ac.(stack) = [FTop (o :: os)] -> hcase ns a
  | hc_parent ac o q k :
      ns.(base).(actors) !! a = Some ac -> clos_op ac = Some o -> ns.(ops) !! o = Some (q, Some k) -> k ∈ ns.(started) ->
      done_b ns.(base) k = false -> (is_kid ntop P a = true -> a ∈ ns.(started)) -> hcase ns a.

  Lemma held_cases ns a : NInv ntop P ns -> nterminal_except T F ntop P B0 ns -> a ∈ held ns -> a ∉ B0 -> hcase ns a.
  Proof.
    intros HN Hterm [s' Hs]%held_spec HnB. specialize (Hterm a HnB). rewrite nstep_eq in Hterm.
    destruct (is_kid ntop P a && negb (bool_decide (a ∈ started ns))) eqn:Eg.
    - apply andb_true_iff in Eg as [Hk Hn]. apply negb_true_iff, bool_decide_eq_false in Hn.
      pose proof (n_unst _ _ _ _ HN Hk Hn) as Hu. pose proof Hu as (_ & _ & ac & act & Ea & Hact & Est).
      unfold step in Hs. rewrite Ea in Hs. cbn in Hs. rewrite Est in Hs. destruct (a_script act) as [|o os]; [done|].
      by eapply hc_unstarted.
    - assert (Hst : is_kid ntop P a = true -> a ∈ started ns).
      { intros Hk. rewrite Hk in Eg. cbn in Eg. apply negb_false_iff in Eg. by apply bool_decide_eq_true in Eg. }
      unfold bstep in Hterm. rewrite Hs in Hterm. destruct (step_actor T F _ _ _ Hs) as [ac Ea]. rewrite Ea in Hterm. cbn in Hterm.
      destruct (next_op ac); [done|]. destruct (body_of ns ac) as [k|] eqn:Eb; [|done].
      case_bool_decide as Hk; [|done]. destruct (done_b (base ns) k) eqn:Ed; [done|].
      apply body_of_Some in Eb as (o & q & Ec & Eo). by eapply hc_parent.
  Qed.

  Lemma held_frozen ns : NInv ntop P ns -> nterminal_except T F ntop P B0 ns -> frozen_ok ns.(base) B0 -> frozen_ok' ns.(base) (held ns).
  Proof.
    intros HN Hterm HB0 a Ha. destruct (decide (a ∈ B0)) as [Hin|HnB].
    { destruct (HB0 a Hin) as (ac & fr & rest & E1 & E2 & E3). exists ac, fr, rest. split; [done|]. split; [done|]. by destruct fr. }
    destruct (held_cases ns a HN Hterm Ha HnB) as [ac o os _ Ea Est|ac o q k Ea Ec _ _ _ _].
    - exists ac, (FTop (o :: os)), []. done.
    - unfold clos_op in Ec. destruct (stack ac) as [|fr rest] eqn:Est; [done|]. exists ac, fr, rest. split; [done|]. split; [done|]. by destruct fr.
  Qed.

  (* the shape of an activation that is about to finish a closure *)
  Inductive cshape (ab : actor) (o qc : nat) : Prop :=
  | cs_imm os : ab.(stack) = [FSIrun qc; FTop os] -> o = ab.(opctr) -> cshape ab o qc
  | cs_ro j g os : ab.(stack) = [FROrun qc j; g; FTop os] -> (g = FSDloop qc \/ g = FSBsteal qc) -> o = job_id j -> cshape ab o qc
  | cs_dr j t : ab.(stack) = [FDRrun qc j; FTlock t] -> o = job_id j -> cshape ab o qc.

  Lemma clos_shape s b ab o : Shape s -> s.(actors) !! b = Some ab -> clos_op ab = Some o -> exists qc, cshape ab o qc.
  Proof.
    intros HS Eb Ec. unfold clos_op in Ec. destruct (stack ab) as [|fr rest] eqn:Est; [done|].
    destruct (kind_of s b ab HS Eb) as [[_ Hok]|(t & _ & Hok)]; rewrite Est in Hok.
    - apply caller_ok_inv in Hok as [(-> & Hfr)|[(os & -> & Hsf)|(g & os & -> & Hpo)]].
      + by destruct fr.
      + destruct fr; try done. injection Ec as <-. exists q. by eapply cs_imm.
      + destruct fr; try done. injection Ec as <-. cbn in Hpo. destruct g; try done; apply bool_decide_eq_true in Hpo as <-; exists q; eapply cs_ro; eauto.
    - apply pool_ok_inv in Hok as [(-> & Hfr)|(-> & Hfr)]; [by destruct fr|].
      destruct fr; try done. injection Ec as <-. exists q. by eapply cs_dr.
  Qed.
  Lemma cshape_cnt ab o qc q : cshape ab o qc -> cnt q ab.(stack) = if decide (q = qc) then 1 else 0.
  Proof.
    intros [os -> _|j g os -> [-> | ->] _|j t -> _]; cbn; repeat case_bool_decide; repeat case_decide; subst; try done; lia.
  Qed.
  Lemma cshape_midop ab o qc : cshape ab o qc -> midop ab.(stack).
  Proof. intros [os -> _|j g os -> _ _|j t -> _] os'; done. Qed.
  Lemma cshape_hd ab o qc fr : cshape ab o qc -> hd_error ab.(stack) = Some fr ->
    fr = FSIrun qc \/ exists j, o = job_id j /\ (fr = FROrun qc j \/ fr = FDRrun qc j).
  Proof. intros [os -> _|j g os -> _ ->|j t -> ->] [= <-]; [by left|right; eauto..]. Qed.

  Lemma push_call h i q : HGood h -> Push i q ∈ h -> exists k, Call i q k ∈ h.
  Proof.
    intros Hg Hin. apply elem_of_list_split in Hin as (h1 & h2 & ->). destruct (Hg h1 (Push i q) h2 eq_refl) as ((k & Hk) & _).
    exists k. apply elem_of_app. by left.
  Qed.

  Section Main.
    Context (ns : nstate) (HNI : NInv ntop P ns) (HB : BaseOK P ns)
            (Hterm : nterminal_except T F ntop P B0 ns) (HB0 : frozen_ok ns.(base) B0).

    Local Notation s := (base ns).
    Let HS : Shape s := a_shape _ (b_all _ _ HB).
    Let HIv : Inv s := a_inv _ (b_all _ _ HB).
    Let HWf : WF s := a_wf _ (b_all _ _ HB).
    Let HAi : AInv (view s) ns.(nh) := hi_abs _ (b_h _ _ HB).
    Let HG : HGood ns.(nh) := ai_good _ _ HAi.

    Lemma caller_kid k : is_kid ntop P k = true -> k < ncallers s.
    Proof. intros [_ H]%bool_decide_eq_true. by rewrite (b_nc _ _ HB). Qed.

    Lemma cshape_owner b ab o qc : s.(actors) !! b = Some ab -> cshape ab o qc ->
      exists qq, s.(queues) !! qc = Some qq /\ qq.(owner) = Some b /\ qq.(qs) = Running.
    Proof.
      intros Eb Hsh.
      assert (Hl : qc < length (queues s)).
      { pose proof (WF_self s b ab HWf Eb) as Hw. destruct Hsh as [os Est _|j g os Est _ _|j t Est _]; rewrite Est in Hw; cbn in Hw;
          apply andb_true_iff in Hw as [Hw _]; by apply bool_decide_eq_true in Hw. }
      destruct (lookup_lt_is_Some_2 _ _ Hl) as [qq Eq]. exists qq. split; [done|].
      assert (Hcnt : stack_cnt s b qc = Some 1) by (rewrite (stack_cnt_self s b ab qc Eb), (cshape_cnt ab o qc qc Hsh), decide_True by done; done).
      exact (runner_owns s b qc qq 0 HIv Hcnt Eq).
    Qed.
    Lemma cshape_pend b ab o qc j : s.(actors) !! b = Some ab -> cshape ab o qc ->
      hd_error ab.(stack) = Some (FROrun qc j) \/ hd_error ab.(stack) = Some (FDRrun qc j) -> j ∈ pend s qc.
    Proof.
      intros Eb Hsh Hhd. destruct (cshape_owner b ab o qc Eb Hsh) as (qq & Eq & Ho & _).
      rewrite (pend_self s b ab qc (jobs qq) Eb) by (by rewrite (oj_lookup s qc qq Eq), Ho).
      apply elem_of_app. left. destruct (stack ab) as [|fr rest]; [by destruct Hhd|]. cbn.
      destruct Hhd as [[= ->]|[= ->]]; cbn; rewrite decide_True by done; by left.
    Qed.
    (* the operation whose closure it holds was called on that queue's object *)
    Lemma clos_call b ab o qc : s.(actors) !! b = Some ab -> cshape ab o qc -> exists kk, Call o qc kk ∈ ns.(nh).
    Proof.
      intros Eb Hc.
      assert (Hjob : forall j, hd_error ab.(stack) = Some (FROrun qc j) \/ hd_error ab.(stack) = Some (FDRrun qc j) -> exists kk, Call (job_id j) qc kk ∈ nh ns).
      { intros j Hhd. apply (push_call _ _ _ HG), (pend_pushed _ _ HAi qc j). by eapply cshape_pend. }
      destruct Hc as [os Est ->|j g os Est _ ->|j t Est ->].
      - apply (n_oba _ _ _ HNI b (aact ab) qc); [exact (acts_lookup _ _ _ Eb)|]. cbn. by rewrite Est.
      - apply Hjob. left. by rewrite Est.
      - apply Hjob. right. by rewrite Est.
    Qed.

    Lemma held_stuck a ac : s.(actors) !! a = Some ac -> a ∉ held ns -> stuck_ok s ac.(stack).
    Proof. intros Ea Hn. by eapply (stuck_frames_except' T F (held ns) s HS HWf (held_frozen ns HNI Hterm HB0) (held_texc ns)). Qed.

    Lemma top_frames b ab fr rest : s.(actors) !! b = Some ab -> ab.(stack) = fr :: rest -> stuck_frame fr \/ b ∈ held ns.
    Proof.
      intros Eb Est. destruct (decide (b ∈ held ns)) as [|Hn]; [by right|]. left.
      eapply stuck_hd; [by eapply held_stuck|]. by rewrite Est.
    Qed.

    (* an activation inside an operation: the object of that operation is above the activation's base object *)
    Lemma kid_higher k ak actk qb q1 : s.(actors) !! k = Some ak -> P !! k = Some actk -> actk.(a_base) = Some qb ->
      midop ak.(stack) -> ph_q (aph ak.(stack)) = Some q1 -> qb < q1.
    Proof.
      intros Ek Hact Hb Hm Hq.
      destruct (n_cur _ _ _ _ _ _ HNI Hact Ek Hm) as (o' & kd & Ho' & Hops).
      destruct (n_call _ _ _ HNI _ _ _ Hops) as [k1 H1].
      destruct (n_oba _ _ _ HNI k (aact ak) q1) as [k2 H2]; [exact (acts_lookup _ _ _ Ek)|exact Hq|]. cbn in H2.
      destruct (hg_call_inj _ HG _ _ _ _ _ H1 H2) as [<- _].
      pose proof (w_higher _ _ _ HW k actk qb Hact Hb) as Hall. rewrite list.Forall_forall in Hall. by apply Hall.
    Qed.

    (* b holds the job of waiter w: it runs the queue in which the job is stored, or has the job in its hand *)
    Definition holds_job (b w q : nat) : Prop :=
      (exists qq o, s.(queues) !! q = Some qq /\ qq.(owner) = Some b /\ JSyncBg o w ∈ qq.(jobs)) \/
      (exists ab q' o, s.(actors) !! b = Some ab /\
         (hd_error ab.(stack) = Some (FROrun q' (JSyncBg o w)) \/ hd_error ab.(stack) = Some (FDRrun q' (JSyncBg o w)))).
    Inductive bf : nat -> Prop :=
    | bf_frozen a : a ∈ B0 -> bf a
    | bf_parent p ac o q k : s.(actors) !! p = Some ac -> clos_op ac = Some o -> ns.(ops) !! o = Some (q, Some k) ->
        k ∈ ns.(started) -> done_b s k = false -> bf k -> bf p
    | bf_wait w ac q rest b : s.(actors) !! w = Some ac -> ac.(stack) = FSBwait q :: rest -> holds_job b w q -> bf b -> bf w.

    (* by induction over the objects, highest first: n bounds the number of objects from q upwards *)
    Lemma running_bf_aux n : forall q qq b, length s.(queues) - q <= n -> s.(queues) !! q = Some qq -> qq.(owner) = Some b -> bf b.
    Proof.
      induction n as [|n IH]; intros q qq b Hn Hq Hb.
      { apply lookup_lt_Some in Hq. lia. }
      pose proof HIv as [I1 I2 I3].
      pose proof (I3 q qq b Hq Hb) as Hlt.
      destruct (lookup_lt_is_Some_2 _ _ Hlt) as [ab Eb].
      assert (Hc : cnt q (stack ab) = 1).
      { pose proof (I1 b q qq _ (stack_cnt_self s b ab q Eb) Hq) as H1. by rewrite decide_True in H1 by done. }
      assert (Hbh : b ∈ held ns).
      { destruct (decide (b ∈ held ns)) as [|Hnh]; [done|]. rewrite (stuck_cnt0 s b ab q HS Eb (held_stuck b ab Eb Hnh)) in Hc. done. }
      destruct (decide (b ∈ B0)) as [|HbB]; [by apply bf_frozen|].
      destruct (held_cases ns b HNI Hterm Hbh HbB) as [ac o os _ Ea Est|ac o qo k Ea Ec Eo Hks Hkd _].
      { rewrite Eb in Ea. injection Ea as <-. rewrite Est in Hc. done. }
      rewrite Eb in Ea. injection Ea as <-.
      eapply (bf_parent b ab o qo k); try done.
      destruct (clos_shape s b ab o HS Eb Ec) as [qc Hsh].
      rewrite (cshape_cnt ab o qc q Hsh) in Hc. case_decide as Hqc; [subst qc|done].
      destruct (clos_call b ab o q Eb Hsh) as [k1 H1]. destruct (n_call _ _ _ HNI _ _ _ Eo) as [k2 H2].
      destruct (hg_call_inj _ HG _ _ _ _ _ H1 H2) as [<- _].
      destruct (n_ops _ _ _ HNI _ _ _ Eo) as (Hkid & actk & Hactk & Hbase).
      destruct (n_acts _ _ _ HNI k actk Hactk) as (ak & Ek & _).
      pose proof (caller_kid k Hkid) as Hkc.
      pose proof (sh_caller _ HS k ak Ek Hkc) as Hcok.
      (* an activation that holds a closure on a queue above q *)
      assert (Hupc : forall b2 ab2 o2 q2, s.(actors) !! b2 = Some ab2 -> cshape ab2 o2 q2 -> q < q2 -> bf b2).
      { intros b2 ab2 o2 q2 E2 Hsh2 Hlt2. destruct (cshape_owner b2 ab2 o2 q2 E2 Hsh2) as (qq2 & Eq2 & Ho2 & _).
        apply (IH q2 qq2 b2); [|done|done]. apply lookup_lt_Some in Eq2. lia. }
      destruct (decide (k ∈ B0)) as [|HkB]; [by apply bf_frozen|].
      destruct (decide (k ∈ held ns)) as [Hkh|Hkn].
      - (* the body is itself suspended in a closure: of a queue above q *)
        destruct (held_cases ns k HNI Hterm Hkh HkB) as [? ? ? (_ & Hns & _) _ _|ak' o2 q2 kx Ea2 Ec2 _ _ _ _]; [done|].
        rewrite Ek in Ea2. injection Ea2 as <-.
        destruct (clos_shape s k ak o2 HS Ek Ec2) as [qc2 Hsh2].
        eapply (Hupc k ak o2 qc2 Ek Hsh2). eapply (kid_higher k ak actk q qc2 Ek Hactk Hbase (cshape_midop _ _ _ Hsh2)).
        destruct Hsh2 as [os Est _|j g os Est [-> | ->] _|j t Est _]; rewrite Est in *; try done.
      - (* the body is stuck: it waits in sync_background on a queue above q *)
        pose proof (held_stuck k ak Ek Hkn) as Hsk.
        destruct (stack ak) as [|fr rest] eqn:Estk; [done|].
        apply caller_ok_inv in Hcok as [(-> & Hfr)|[(os & -> & Hsf)|(g & os & -> & Hpo)]].
        + destruct fr; try done. destruct script; [|done]. unfold done_b in Hkd. by rewrite Ek, Estk in Hkd.
        + destruct fr; try done. rename q0 into q1.
          assert (Hq1 : q < q1).
          { eapply (kid_higher k ak actk q q1 Ek Hactk Hbase); rewrite Estk; [by intros os'|done]. }
          destruct (a_j _ (b_all _ _ HB) k ak Ek) as [J1 J2].
          assert (Hrdy : ready ak = false) by (apply (J2 q1); by rewrite Estk).
          destruct (J1 q1) as [(qq1 & o1 & G1 & G2)|(b2 & st & o1 & G1 & (q' & G2))]; [by rewrite Estk|done| |].
          * destruct (z_z _ (b_all0 _ _ HB) k ak Ek) as [_ _ _ Z4].
            destruct (Z4 q1 qq1 o1) as [Hrun|Ht]; try done; [by rewrite Estk|right; by rewrite Estk| |].
            -- destruct (proj2 (I2 q1 qq1 G1) Hrun) as [b1 Hb1].
               eapply (bf_wait k ak q1 [FTop os] b1 Ek Estk); [left; by exists qq1, o1|].
               apply (IH q1 qq1 b1); [|done|done]. apply lookup_lt_Some in G1. lia.
            -- exfalso. destruct Ht as (b3 & st3 & Hb3 & Hh3). rewrite stacks_lookup in Hb3. destruct (actors s !! b3) as [ab3|] eqn:Eb3; [|done]. injection Hb3 as <-.
               destruct (stack ab3) as [|fr3 rest3] eqn:Est3; [done|]. injection Hh3 as ->.
               destruct (top_frames b3 ab3 _ _ Eb3 Est3) as [Hsf3|Hh3]; [done|].
               destruct (held_frozen ns HNI Hterm HB0 b3 Hh3) as (ab' & fr' & rest' & E1 & E2 & E3). rewrite Eb3 in E1. injection E1 as <-. rewrite Est3 in E2. by injection E2 as <- _.
          * rewrite stacks_lookup in G1. destruct (actors s !! b2) as [ab2|] eqn:Eb2; [|done]. injection G1 as <-.
            destruct (stack ab2) as [|fr2 rest2] eqn:Est2; [by destruct G2|].
            assert (Hfr2 : fr2 = FROrun q' (JSyncBg o1 k) \/ fr2 = FDRrun q' (JSyncBg o1 k)) by (destruct G2 as [[= ->]|[= ->]]; eauto).
            eapply (bf_wait k ak q1 [FTop os] b2 Ek Estk).
            { right. exists ab2, q', o1. split; [done|]. rewrite Est2. destruct Hfr2 as [-> | ->]; eauto. }
            destruct (decide (b2 ∈ B0)) as [|Hb2B]; [by apply bf_frozen|].
            destruct (top_frames b2 ab2 _ _ Eb2 Est2) as [Hsf2|Hh2]; [by destruct Hfr2 as [-> | ->]|].
            destruct (held_cases ns b2 HNI Hterm Hh2 Hb2B) as [ac2 ? ? _ Ea2 Est2'|ac2 o2 q2 kx Ea2 Ec2 _ _ _ _].
            { rewrite Eb2 in Ea2. injection Ea2 as <-. rewrite Est2 in Est2'. injection Est2' as -> _. by destruct Hfr2. }
            rewrite Eb2 in Ea2. injection Ea2 as <-.
            destruct (clos_shape s b2 ab2 o2 HS Eb2 Ec2) as [qc2 Hsh2].
            eapply (Hupc b2 ab2 o2 qc2 Eb2 Hsh2).
            (* the queue of that closure is the queue the body waits on *)
            destruct (cshape_hd ab2 o2 qc2 fr2 Hsh2) as [->|(j & -> & Hj)]; [by rewrite Est2|by destruct Hfr2|].
            assert (Hjq : j = JSyncBg o1 k /\ q' = qc2) by (destruct Hfr2 as [-> | ->]; destruct Hj as [[= <- <-]|[= <- <-]]; done).
            destruct Hjq as [-> ->].
            destruct (clos_call b2 ab2 _ qc2 Eb2 Hsh2) as [kk1 Hc1]. cbn in Hc1.
            (* the job is the current operation of the waiting body *)
            assert (Hpend : JSyncBg o1 k ∈ pend s qc2).
            { apply (cshape_pend b2 ab2 _ qc2 _ Eb2 Hsh2). rewrite Est2. destruct Hfr2 as [-> | ->]; eauto. }
            destruct (ai_job _ _ HAi qc2 (JSyncBg o1 k) o1 k Hpend) as (x & q'' & Hx & Hop & _); [by right|].
            cbn in Hx. apply acts_lookup_inv in Hx as (ak' & Ek' & ->). rewrite Ek in Ek'. injection Ek' as <-. cbn in Hop.
            destruct (n_oba _ _ _ HNI k (aact ak) q1) as [kk2 Hc2]; [exact (acts_lookup _ _ _ Ek)|cbn; by rewrite Estk|]. cbn in Hc2.
            rewrite Hop in Hc2. destruct (hg_call_inj _ HG _ _ _ _ _ Hc1 Hc2) as [-> _]. done.
        + destruct fr; try done; destruct g; done.
    Qed.

    Lemma running_bf q qq b : s.(queues) !! q = Some qq -> qq.(owner) = Some b -> bf b.
    Proof. intros Hq. eapply (running_bf_aux (length (queues s))); [lia|exact Hq]. Qed.

    Lemma held_bf a : a ∈ held ns -> bf a \/ unstarted ntop P ns a.
    Proof.
      intros Ha. destruct (decide (a ∈ B0)) as [|HaB]; [left; by apply bf_frozen|].
      destruct (held_cases ns a HNI Hterm Ha HaB) as [ac o os Hu _ _|ac o qo k Ea Ec Eo Hks Hkd _]; [by right|].
      left. destruct (clos_shape s a ac o HS Ea Ec) as [qc Hsh]. destruct (cshape_owner a ac o qc Ea Hsh) as (qq & Eq & Ho & _).
        by eapply running_bf.
    Qed.

    Record nquiet_except : Prop := {
      (* a queue that is not Idle and empty is being run by an activation that is blocked because of a frozen one *)
      nqe_queues : forall q qq, s.(queues) !! q = Some qq ->
          (qq.(qs) = Idle /\ qq.(jobs) = []) \/ (qq.(qs) = Running /\ exists b, qq.(owner) = Some b /\ bf b);
      (* an activation has finished its script, was never started, or is blocked because of a frozen activation *)
      nqe_acts : forall a ac, s.(actors) !! a = Some ac -> a < ncallers s ->
          ac.(stack) = [FTop []] \/ bf a \/
          (is_kid ntop P a = true /\ a ∉ ns.(started) /\ exists act, P !! a = Some act /\ ac.(stack) = [FTop act.(a_script)]);
      (* a pool thread is dormant, or blocked because of a frozen activation *)
      nqe_pool : forall t th, s.(threads) !! t = Some th ->
          bf (ncallers s + t) \/ (th.(busy) = false /\ exists ap, s.(actors) !! (ncallers s + t) = Some ap /\ ap.(stack) = [FTrecv t]);
    }.

    (* the pool has a thread that is neither frozen nor suspended, or may still spawn one *)
    Definition npool_free : Prop :=
      length s.(threads) < s.(maxt) \/ exists t, t < length s.(threads) /\ ncallers s + t ∉ held ns.

    Theorem nfrozen_quiet : npool_free -> nquiet_except.
    Proof.
      intros Hfree.
      destruct (frozen_quiet' T F (held ns) s (b_all _ _ HB) (b_m _ _ HB) (held_frozen ns HNI Hterm HB0) (held_texc ns) Hfree) as [Q1 Q2 Q3].
      split.
      - intros q qq Hq. destruct (Q1 q qq Hq) as [?|(Hr & b & Hb & _)]; [by left|]. right. split; [done|]. exists b. split; [done|]. by eapply running_bf.
      - intros a ac Ea Hlt. destruct (decide (a ∈ held ns)) as [Hin|Hn].
        + destruct (held_bf a Hin) as [?|(Hk & Hns & ac' & act & E1 & E2 & E3)]; [by right; left|].
          right; right. rewrite Ea in E1. injection E1 as <-. eauto.
        + destruct (Q2 a ac Ea Hlt Hn) as [?|(q & rest & Est & Hwb)]; [by left|]. right; left.
          destruct Hwb as [(qq & b & o & G1 & G2 & G3 & G4)|(b & ab & q' & o & Hb & Eb & Hhd)].
          * eapply (bf_wait a ac q rest b Ea Est); [left; by exists qq, o|]. by eapply running_bf.
          * eapply (bf_wait a ac q rest b Ea Est); [right; by exists ab, q', o|].
            destruct (held_bf b Hb) as [?|(_ & _ & ab' & act & E1 & _ & E3)]; [done|]. exfalso.
            rewrite Eb in E1. injection E1 as <-. rewrite E3 in Hhd. by destruct Hhd.
      - intros t th Ht. destruct (decide (ncallers s + t ∈ held ns)) as [Hin|Hn]; [|right; by apply (Q3 t th Ht)].
        destruct (held_bf _ Hin) as [?|(Hk & _)]; [by left|]. pose proof (caller_kid _ Hk). lia.
    Qed.
  End Main.

  Record nquiet (ns : nstate) : Prop := {
    (* every activation that was started (every top-level caller, every body whose job ran) has finished its script;
       a body that was never started still has its whole script *)
    nq_acts : forall a ac, ns.(base).(actors) !! a = Some ac -> a < ncallers ns.(base) ->
        ac.(stack) = [FTop []] \/
        (is_kid ntop P a = true /\ a ∉ ns.(started) /\ exists act, P !! a = Some act /\ ac.(stack) = [FTop act.(a_script)]);
    nq_queues : forall q qq, ns.(base).(queues) !! q = Some qq -> qq.(qs) = Idle /\ qq.(jobs) = [];
    nq_pool : forall t th, ns.(base).(threads) !! t = Some th ->
        th.(busy) = false /\ exists ap, ns.(base).(actors) !! (ncallers ns.(base) + t) = Some ap /\ ap.(stack) = [FTrecv t];
  }.
End Quiet.

Section QuietAll.
  Context (T : tables) (F : facts) (nq ntop : nat) (P : prog) (HW : nwf nq ntop P).
  Context (ns : nstate) (HNI : NInv ntop P ns) (HB : BaseOK P ns) (Hterm : nterminal T F ntop P ns).

  Lemma texc_nil : nterminal_except T F ntop P [] ns. Proof. intros a _. apply Hterm. Qed.
  Lemma frozen_nil : frozen_ok ns.(base) []. Proof. intros a Ha. by apply elem_of_nil in Ha. Qed.
  Lemma bf_nil a : bf [] ns a -> False.
  Proof. induction 1 as [a Ha| |]; [by apply elem_of_nil in Ha|done|done]. Qed.

  Theorem nterminal_quiet : nquiet ntop P ns.
  Proof.
    assert (Hfree : npool_free T F ns).
    { unfold npool_free. destruct (threads (base ns)) as [|th ths] eqn:Eth.
      - left. cbn. pose proof (a_max _ (b_all _ _ HB)). lia.
      - right. exists 0. split; [cbn; lia|]. intros Hin.
        destruct (held_bf T F nq ntop P HW [] ns HNI HB texc_nil frozen_nil _ Hin) as [Hbf|(Hk & _)]; [by apply bf_nil in Hbf|].
        pose proof (caller_kid ntop P ns HB _ Hk). lia. }
    destruct (nfrozen_quiet T F nq ntop P HW [] ns HNI HB texc_nil frozen_nil Hfree) as [Q1 Q2 Q3]. split.
    - intros a ac Ea Hlt. destruct (Q2 a ac Ea Hlt) as [?|[Hbf|?]]; [by left|by apply bf_nil in Hbf|by right].
    - intros q qq Hq. destruct (Q1 q qq Hq) as [?|(_ & b & _ & Hbf)]; [done|by apply bf_nil in Hbf].
    - intros t th Ht. destruct (Q3 t th Ht) as [Hbf|?]; [by apply bf_nil in Hbf|done].
  Qed.
End QuietAll.
