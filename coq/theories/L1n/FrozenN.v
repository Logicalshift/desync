(* L1n: the frozen-actor analysis of L1g/Frozen.v with one more kind of frozen actor: a caller that could issue its next
   operation but does not (a body activation that has not been started). *)
From stdpp Require Import list numbers option.
From L1 Require Import Model Shape Stuck Final.
From L1g Require Import MView Frozen.

Definition frozen_frame' (fr : frame) : Prop :=
  match fr with FDRrun _ _ | FROrun _ _ | FSIrun _ => True | FTop (_ :: _) => True | _ => False end.
Definition frozen_ok' (s : state) (B : list nat) : Prop :=
  forall a, a ∈ B -> exists ac fr rest, s.(actors) !! a = Some ac /\ ac.(stack) = fr :: rest /\ frozen_frame' fr.

Lemma frozen_frame'_stays fr : frozen_frame' fr -> may_stay fr = true.
Proof. by destruct fr. Qed.

Theorem stuck_frames_except' T F B s : Shape s -> WF s -> frozen_ok' s B -> terminal_except T F B s ->
  forall a ac, s.(actors) !! a = Some ac -> a ∉ B -> stuck_ok s ac.(stack).
Proof. apply (stuck_frames_at T F B frozen_frame'). intros fr H%frozen_frame'_stays. by destruct fr. Qed.

Theorem frozen_quiet' T F B s : All s -> InvM (mv s) -> frozen_ok' s B -> terminal_except T F B s ->
  (length s.(threads) < s.(maxt) \/ exists t, t < length s.(threads) /\ ncallers s + t ∉ B) ->
  quiet_except s B.
Proof. exact (quiet_at T F B frozen_frame' frozen_frame'_stays s). Qed.
