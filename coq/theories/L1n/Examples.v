(* L1n: executable scenarios (vm_compute): a pool thread whose body waits in a nested sync and STEALS the queue;
   the same program without the sticky notification (F2 unrepaired) gets stuck; a three-level program; a frozen caller (C10);
   a drop issued from inside a job of another object (C05).  A trace ([ex*_tr]) lists the actor that moves at each step. *)
From stdpp Require Import list numbers list_numbers option.
From L0 Require Import Types.
From Gen Require Import Tables.
From L1 Require Import Model Stuck.
From L1h Require Import Hist.
From L1n Require Import Model Wf Quiet.

(* S: caller 0: desync on object 0 whose body is sync on object 1; caller 1: sync on object 1; pool maximum 1
   activations: 0, 1 the callers, 2 the body; actor 3 is the pool thread.  Caller 1 is inside its closure on object 1 when the pool
   thread starts the body; the body registers as a waiter and waits; caller 1 finishes: object 1 becomes Pending and is scheduled, but
   the only pool thread is the one that waits for the body; the body was notified, claims object 1 itself (FSBclaim), runs its job
   (FSBsteal / FROdeq) and returns; the pool thread finishes the job of object 0. *)
Definition exS_prog : prog := flatten [[NDesync 0 [NSync 1 []]]; [NSync 1 []]].
Definition exS_init : nstate := ninit 2 1 exS_prog.
Definition exS_tr1 : list nat := [0; 0; 0; 0; 0; 0; 0; 0; 1; 1; 3; 3; 3; 3; 3; 3; 3; 2; 2; 2; 2; 2; 2; 2; 1; 1; 1; 1; 1; 1; 1; 1].
Definition exS_tr2 : list nat := [2; 2; 2].
Definition exS_tr3 : list nat := [2; 2; 2; 2; 2; 2; 2; 3; 3; 3; 3; 3; 3; 3].
Definition tops (ns : nstate) : list (option frame) := (fun ac => hd_error ac.(stack)) <$> ns.(base).(actors).

Lemma exS_wf : nwf 2 2 exS_prog. Proof. apply nwf_b_sound. vm_compute. reflexivity. Qed.
(* the pool is saturated by a thread blocked in a nested sync; the queue it waits for is Pending and scheduled *)
Lemma exS_saturated : exists ns, nrun gen_tables gen_facts 2 exS_prog exS_init exS_tr1 = Some ns /\
  tops ns = [Some (FTop []); Some (FTop []); Some (FSBwoken 1); Some (FDRrun 0 (JPlain 0))] /\
  (qs <$> ns.(base).(queues)) = [Running; Pending] /\ ns.(base).(sched) = [1] /\ ns.(started) = [2] /\ length ns.(base).(threads) = 1.
Proof. eexists. split; [vm_compute; reflexivity|done]. Qed.
(* the waiter steals *)
Lemma exS_steal : exists ns, nrun gen_tables gen_facts 2 exS_prog exS_init (exS_tr1 ++ exS_tr2) = Some ns /\
  tops ns = [Some (FTop []); Some (FTop []); Some (FROdeq 1); Some (FDRrun 0 (JPlain 0))] /\
  (qs <$> ns.(base).(queues)) = [Running; Running] /\ ns.(base).(sched) = [] /\
  (owner <$> ns.(base).(queues)) = [Some 3; Some 2].
Proof. eexists. split; [vm_compute; reflexivity|done]. Qed.
Lemma exS_run : exists ns, nrun gen_tables gen_facts 2 exS_prog exS_init (exS_tr1 ++ exS_tr2 ++ exS_tr3) = Some ns /\
  nterminal_b gen_tables gen_facts 2 exS_prog ns = true /\ ncomplete 2 exS_prog ns = true /\
  ns.(base).(ran) = [0; 2; 1] /\ ns.(started) = [2].
Proof. eexists. split; [vm_compute; reflexivity|done]. Qed.

(* the same program when notifications do not stick (defect F2 not repaired): the body registers, caller 1 finishes
   before the body has pushed its job, the body pushes onto the idle queue, reschedules it itself (nobody can take it: the only
   pool thread waits for this body), checks - not notified - and waits for ever *)
Definition nosticky_facts : facts := {| f_dormant_blocks := true; f_sticky_notify := false |}.
Definition exN_tr : list nat := [0; 0; 0; 0; 0; 0; 0; 0; 1; 1; 3; 3; 3; 3; 3; 3; 3; 2; 2; 2; 1; 1; 1; 2; 2; 2; 2; 2; 2; 2; 2].
Lemma exN_stuck : exists ns, nrun gen_tables nosticky_facts 2 exS_prog exS_init exN_tr = Some ns /\
  nterminal_b gen_tables nosticky_facts 2 exS_prog ns = true /\ ncomplete 2 exS_prog ns = false /\
  tops ns = [Some (FTop []); Some (FTop []); Some (FSBwait 1); Some (FDRrun 0 (JPlain 0))] /\
  (qs <$> ns.(base).(queues)) = [Running; Pending] /\ ns.(base).(sched) = [1].
Proof. eexists. split; [vm_compute; reflexivity|done]. Qed.

(* three levels, a try_sync that finds its object busy (its body is never started), pool maximum 1 *)
Definition exD_prog : prog :=
  flatten [[NDesync 0 [NSync 1 [NDesync 2 []; NTrySync 2 [NDesync 3 []]]]]; [NDesync 1 []; NSync 2 []]].
Definition exD_tr : list nat :=
  [1; 1; 1; 1; 1; 1; 1; 1; 1; 1; 1; 1; 1; 0; 0; 0; 0; 0; 0; 0; 5; 5; 5; 5; 5; 5; 5; 5; 5; 5; 5; 5; 5; 5; 5; 2; 2; 2; 3; 3; 3; 3; 3; 3; 3; 3;
   3; 2; 2; 2; 5; 5; 5; 5; 5; 5; 5; 5; 5; 5; 5; 5; 5; 5; 5].
Lemma exD_wf : nwf 4 2 exD_prog. Proof. apply nwf_b_sound. vm_compute. reflexivity. Qed.
Lemma exD_run : exists ns, nrun gen_tables gen_facts 2 exD_prog (ninit 4 1 exD_prog) exD_tr = Some ns /\
  nterminal_b gen_tables gen_facts 2 exD_prog ns = true /\ ncomplete 2 exD_prog ns = true /\
  ns.(started) = [3; 2] /\ ns.(base).(ran) = [4; 2; 3; 0; 1] /\
  ns.(ops) = [(1, None); (2, None); (0, Some 2); (1, Some 3); (2, None); (2, Some 4)] /\
  ns.(nh) = [Call 0 1 KDesync; Push 0 1; Ret 0; Call 1 2 KSync; Push 1 2; Run 1 2; Ret 1; Call 2 0 KDesync; Push 2 0; Ret 2; Run 0 1;
             Call 3 1 KSync; Push 3 1; Call 4 2 KDesync; Push 4 2; Ret 4; Call 5 2 KTry; RetBusy 5; Run 3 1; Ret 3; Run 2 0; Run 4 2].
Proof. eexists. split; [vm_compute; reflexivity|done]. Qed.

(* C10 with nesting: program S with pool maximum 2; caller 1 is frozen inside its sync closure on object 1 (blocked on a
   gate); the pool thread running object 0's job is suspended: the body of that job waits in its nested sync behind caller 1.
   Nobody but caller 1 can move; a second pool thread may still be spawned. *)
Definition exF_tr : list nat := [0; 0; 0; 0; 0; 0; 0; 0; 1; 1; 3; 3; 3; 3; 3; 3; 3; 2; 2; 2; 2; 2; 2; 2].
Lemma exF_run : exists ns, nrun gen_tables gen_facts 2 exS_prog (ninit 2 2 exS_prog) exF_tr = Some ns /\
  tops ns = [Some (FTop []); Some (FSIrun 1); Some (FSBwait 1); Some (FDRrun 0 (JPlain 0))] /\
  nterminal_except_b gen_tables gen_facts 2 exS_prog [1] ns = true /\
  (owner <$> ns.(base).(queues)) = [Some 3; Some 1] /\ length ns.(base).(threads) = 1 /\ ns.(base).(maxt) = 2 /\ ns.(started) = [2].
Proof. eexists. split; [vm_compute; reflexivity|done]. Qed.

(* C05 with nesting: the drop of object 1 (= sync(free), operation 2) is issued by the body of a job of object 0, after the
   desync 0 on object 1 has returned: 0 runs before 2, nothing runs on object 1 after 2 *)
Definition exX_prog : prog := flatten [[NDesync 1 []; NDesync 0 [NSync 1 []]]].
Definition exX_tr : list nat :=
  [0; 0; 0; 0; 0; 0; 0; 0; 0; 0; 0; 0; 0; 0; 0; 2; 2; 2; 2; 2; 2; 2; 2; 2; 2; 2; 2; 2; 2; 2; 1; 1; 1; 1; 1; 2; 2; 2; 2; 2; 2; 2].
Lemma exX_run : exists ns, nrun gen_tables gen_facts 1 exX_prog (ninit 2 1 exX_prog) exX_tr = Some ns /\
  ns.(nh) = [Call 0 1 KDesync; Push 0 1; Ret 0; Call 1 0 KDesync; Push 1 0; Ret 1; Run 0 1; Call 2 1 KSync; Push 2 1; Run 2 1; Ret 2; Run 1 0] /\
  ns.(ops) = [(1, None); (0, Some 1); (1, None)] /\ ncomplete 1 exX_prog ns = true.
Proof. eexists. split; [vm_compute; reflexivity|done]. Qed.
