(* L1n: what one step of the L1 model does to the stacks, operation ids, ran list - the facts the nested invariants need *)
From stdpp Require Import list numbers option.
From RecordUpdate Require Import RecordUpdate.
From L1 Require Import Model Shape.
From L1h Require Import Hist.
From L1n Require Import Model.

Definition swake (st' st : list frame) : Prop := st' = st \/ exists q r, st = FSBwait q :: r /\ st' = FSBwoken q :: r.
Definition tscripts (st : list frame) : list (list op) := omap (fun fr => match fr with FTop os => Some os | _ => None end) st.

Lemma swake_tscripts st' st : swake st' st -> tscripts st' = tscripts st.
Proof. by intros [->|(q & r & -> & ->)]. Qed.
Lemma swake_single st' st os : swake st' st -> st = [FTop os] -> st' = [FTop os].
Proof. intros [->|(q & r & -> & ->)] E; [done|discriminate]. Qed.

Definition keeps (X s : state) : Prop :=
  forall b x, s.(actors) !! b = Some x -> exists x', X.(actors) !! b = Some x' /\ swake x'.(stack) x.(stack) /\ x'.(opctr) = x.(opctr).

Lemma keeps_refl s : keeps s s.
Proof. intros b x Ex. exists x. split; [done|]. split; [by left|done]. Qed.
Lemma keeps_trans X Y s : keeps X Y -> keeps Y s -> keeps X s.
Proof.
  intros H1 H2 b x Ex. destruct (H2 b x Ex) as (y & Ey & Hw & Ho). destruct (H1 b y Ey) as (z & Ez & Hw' & Ho').
  exists z. split; [done|]. split; [|congruence].
  destruct Hw as [<-|(q & r & -> & E)]; [done|]. right. exists q, r. split; [done|]. destruct Hw' as [->|(q' & r' & E' & _)]; congruence.
Qed.
Lemma keeps_upda Y s c f : keeps Y s ->
  (forall x, Y.(actors) !! c = Some x -> swake (f x).(stack) x.(stack) /\ (f x).(opctr) = x.(opctr)) -> keeps (upda Y c f) s.
Proof.
  intros HY Hf. eapply keeps_trans; [|exact HY]. intros b x Ex. rewrite actors_upda_lookup. case_decide as Hc; [subst c|by apply keeps_refl].
  rewrite Ex. exists (f x). split; [done|]. by apply Hf.
Qed.
Lemma woken_keeps m s : woken m s -> keeps m s.
Proof. intros Hw b x Ex. destruct (woken_lookup _ _ _ _ Hw Ex) as (x' & Ex' & []). by exists x'. Qed.

(* Y is s after what a step does before the stepping actor replaces its stack: queues, pool threads and locks are updated,
   actors are woken and get flags, a pool thread is added; at most the closure [co] is recorded as run *)
Definition mid (co : option nat) (Y s : state) : Prop :=
  keeps Y s /\ Y.(nextop) = s.(nextop) /\ (Y.(ran) = s.(ran) \/ exists o, co = Some o /\ Y.(ran) = o :: s.(ran)).

Lemma mid_refl co s : mid co s s.
Proof. split; [apply keeps_refl|]. split; [done|by left]. Qed.
Lemma mid_kicked co Y s c f : mid co Y s -> mid co (upda Y c (set kicked f)) s.
Proof.
  intros (H1 & H2 & H3). split; [|done]. apply keeps_upda; [done|]. intros x _. split; [by left|done].
Qed.
Lemma mid_spawn co s ths l : mid co (s <| threads := ths |> <| actors := s.(actors) ++ l |>) s.
Proof.
  split; [|split; [done|by left]]. intros b x Ex. exists x. split; [by apply lookup_app_l_Some|]. split; [by left|done].
Qed.
Lemma mid_ran o s : mid (Some o) (s <| ran := o :: s.(ran) |>) s.
Proof. split; [exact (keeps_refl s)|]. split; [done|]. right. eauto. Qed.
Lemma mid_run_job F s j : mid (Some (job_id j)) (run_job F s j) s.
Proof.
  split; [apply woken_keeps, woken_run_job|]. destruct (run_job_frame F s j) as (A & R & E). split; [by rewrite E|]. right. exists (job_id j). split; [done|].
  destruct j as [o|o c|o c]; unfold run_job; [done..|]. destruct (_ !! c) as [ac|]; [|done]. by destruct (stack ac) as [|[] ?].
Qed.
Lemma mid_foldl_notify co F ws s : mid co (foldl (notify F) s ws) s.
Proof.
  split; [apply woken_keeps, woken_foldl_notify|]. destruct (foldl_notify_frame F ws s) as (A & ->). split; [done|by left].
Qed.

(* s' is s after a step of actor a (ac before the step): a has issued its next operation and got the next operation id, or it keeps
   its script frames and its operation id and at most its closure is recorded as run; every other actor keeps its stack (or is
   woken) and its operation id *)
Definition stepped (s : state) (a : nat) (ac : actor) (s' : state) : Prop :=
  exists ac', s'.(actors) !! a = Some ac' /\
    (forall b x, b <> a -> s.(actors) !! b = Some x -> exists x', s'.(actors) !! b = Some x' /\ swake x'.(stack) x.(stack) /\ x'.(opctr) = x.(opctr)) /\
    ((exists o os rest, ac.(stack) = FTop (o :: os) :: rest /\ tscripts ac'.(stack) = os :: tscripts rest /\
        ac'.(opctr) = s.(nextop) /\ s'.(nextop) = S s.(nextop) /\ s'.(ran) = s.(ran)) \/
     ((forall sc r, ac.(stack) <> FTop sc :: r) /\ tscripts ac'.(stack) = tscripts ac.(stack) /\ ac'.(opctr) = ac.(opctr) /\
        s'.(nextop) = s.(nextop) /\ (s'.(ran) = s.(ran) \/ exists o, clos_op ac = Some o /\ s'.(ran) = o :: s.(ran)))).

(* all steps but the issue of an operation *)
Lemma stepped_setstack s a ac fr rest co Y st : s.(actors) !! a = Some ac -> ac.(stack) = fr :: rest -> is_top fr = false ->
  clos_op ac = co -> mid co Y s -> tscripts st = tscripts rest -> stepped s a ac (setstack Y a st).
Proof.
  intros Ea Est Hfr <- (HY & Hn & Hr) Hst. destruct (HY a ac Ea) as (y & Ey & _ & Ho).
  exists (y <| stack := st |>). split; [by rewrite actors_setstack_lookup, decide_True, Ey|]. split.
  - intros b x Hb Ex. rewrite actors_setstack_lookup, decide_False by done. by apply HY.
  - right. rewrite Est. split; [intros sc r [= -> _]; done|]. split; [by destruct fr|done].
Qed.

Section Eff.
  Context (T : tables) (F : facts).

  (* queues, pool threads and locks do not occur in [mid]: up to conversion the state is s on all but a few paths *)
  Lemma eff_mid s a ac fr rest m new : eff T F s a ac fr m new -> ac.(stack) = fr :: rest -> is_top fr = false -> mid (clos_op ac) m s.
  Proof.
    intros He Est Hnt. unfold clos_op. rewrite Est.
    destruct He; first
      [ discriminate Hnt | exact (mid_refl _ s) | exact (mid_kicked _ _ s _ _ (mid_refl _ s)) | exact (mid_ran _ s) | exact (mid_run_job F s _)
      | exact (mid_foldl_notify _ F _ s) | exact (mid_spawn _ s _ _) ].
  Qed.

  Lemma step_stepped s a s' ac : step T F s a = Some s' -> s.(actors) !! a = Some ac -> stepped s a ac s'.
  Proof.
    intros (ac0 & fr & rest & m & new & Ea0 & Est & He & ->)%step_eff Ea. rewrite Ea in Ea0. injection Ea0 as <-.
    destruct (decide (is_top fr = true)) as [Htop|Hnt%not_true_is_false].
    - (* the next operation is issued *)
      destruct He; try discriminate Htop. unfold stepped. rewrite Est. unfold setstack, upda; cbn. rewrite !list_lookup_alter, Ea.
      eexists; split; [done|]; split; [|left; eexists o, os, rest; by destruct o].
      intros b x Hb Ex; rewrite !list_lookup_alter_ne by done; exists x; split; [done|]; split; [by left|done].
    - eapply (stepped_setstack _ _ _ _ _ _ _ _ Ea Est Hnt eq_refl); [by eapply eff_mid|]. by destruct He.
  Qed.

  Lemma step_actor s a s' : step T F s a = Some s' -> is_Some (s.(actors) !! a).
  Proof. unfold step. by destruct (actors s !! a). Qed.

  Lemma step_others s a s' : step T F s a = Some s' ->
    forall b x, b <> a -> s.(actors) !! b = Some x -> exists x', s'.(actors) !! b = Some x' /\ swake x'.(stack) x.(stack).
  Proof.
    intros Hs b x Hb Ex. destruct (step_actor s a s' Hs) as [ac Ea].
    destruct (step_stepped s a s' ac Hs Ea) as (_ & _ & H & _). destruct (H b x Hb Ex) as (x' & Ex' & Hw & _). eauto.
  Qed.

  Lemma done_stays s a s' k : step T F s a = Some s' -> done_b s k = true -> done_b s' k = true.
  Proof.
    intros Hs Hd. unfold done_b in *. destruct (actors s !! k) as [x|] eqn:Ex; [|done].
    destruct (stack x) as [|fr r] eqn:Est; [done|]. destruct fr; try done. destruct script; [|done]. destruct r; [|done].
    assert (Hne : k <> a) by (intros ->; unfold step in Hs; rewrite Ex in Hs; cbn in Hs; by rewrite Est in Hs).
    destruct (step_others s a s' Hs k x Hne Ex) as (x' & -> & Hw). by rewrite (swake_single _ _ [] Hw Est).
  Qed.
End Eff.
