(* L1n: the flattening of every well-ordered recursive program is a well-formed flattened program *)
From stdpp Require Import list numbers option.
From L1 Require Import Model Stuck.
From L1n Require Import Model.

(* nop is a nested inductive (the bodies are lists of nop): its induction principle, with Forall over the body *)
Definition nop_ind' (Pr : nop -> Prop) (H : forall o, Forall Pr (nop_body o) -> Pr o) : forall o, Pr o :=
  fix IH (o : nop) : Pr o :=
    H o (match o as o0 return Forall Pr (nop_body o0) with
         | NDesync _ b | NSync _ b | NTrySync _ b =>
             (fix aux (l : list nop) : Forall Pr l := match l with [] => Forall_nil _ | x :: r => Forall_cons _ _ _ (IH x) (aux r) end) b
         end).

Definition erase (o : nop) : op := match o with NDesync q _ => ODesync q | NSync q _ => OSync q | NTrySync q _ => OTrySync q end.
Lemma erase_q o : op_q (erase o) = nop_q o. Proof. by destruct o. Qed.

Lemma wo_op_eq nq lo o : wo_op nq lo o <->
  nop_q o < nq /\ match lo with Some b => b < nop_q o | None => True end /\ Forall (wo_op nq (Some (nop_q o))) (nop_body o).
Proof.
  assert (H : forall q sc, (fix all (q : nat) (sc : list nop) {struct sc} : Prop :=
              match sc with [] => True | o' :: r => wo_op nq (Some q) o' /\ all q r end) q sc <-> Forall (wo_op nq (Some q)) sc).
  { intros q sc. induction sc as [|x sc IH]; [split; [constructor|done]|]. rewrite list.Forall_cons. by rewrite <- IH. }
  destruct o as [q b|q b|q b]; cbn [wo_op nop_q nop_body]; by rewrite H.
Qed.

(* the local fixpoint of fl_op is fl_script *)
Definition go_fix : list nop -> nat -> list op * list (option nat) * list act * nat :=
  fix go (sc : list nop) (next : nat) {struct sc} : list op * list (option nat) * list act * nat :=
    match sc with
    | [] => ([], [], [], next)
    | o :: r => let '(o', k, ds, n1) := fl_op o next in
                let '(os, ks, ds2, n2) := go r n1 in (o' :: os, k :: ks, ds ++ ds2, n2)
    end.
Lemma go_fix_eq sc next : go_fix sc next = fl_script sc next.
Proof. revert next. induction sc as [|o sc IH]; intros next; cbn; [done|]. destruct (fl_op o next) as [[[o' k] ds] n1]. by rewrite IH. Qed.

Lemma fl_op_eq o next : fl_op o next =
  match nop_body o with
  | [] => (erase o, None, [], next)
  | _ => let '(os, ks, ds, n1) := fl_script (nop_body o) (S next) in
         (erase o, Some next, {| a_script := os; a_kids := ks; a_base := Some (nop_q o) |} :: ds, n1)
  end.
Proof.
  rewrite <- go_fix_eq. destruct o as [q b|q b|q b]; destruct b; reflexivity.
Qed.

(* the kids ks of the script os point into the segment ds, whose first activation has index n *)
Definition kids_ok (n : nat) (ds : list act) (os : list op) (ks : list (option nat)) : Prop :=
  forall i k, ks !! i = Some (Some k) ->
    n <= k < n + length ds /\ exists o dk, os !! i = Some o /\ ds !! (k - n) = Some dk /\ dk.(a_base) = Some (op_q o).
Definition act_ok (nq n : nat) (ds : list act) (d : act) : Prop :=
  Forall (fun o => op_q o < nq) d.(a_script) /\
  (forall b, d.(a_base) = Some b -> Forall (fun o => b < op_q o) d.(a_script)) /\
  kids_ok n ds d.(a_script) d.(a_kids).
Definition seg_ok (nq n : nat) (ds : list act) : Prop := Forall (act_ok nq n ds) ds.

Lemma kids_ok_app_l n ds ds' os ks : kids_ok n ds os ks -> kids_ok n (ds ++ ds') os ks.
Proof.
  intros H i k Hk. destruct (H i k Hk) as (Hr & o & dk & H1 & H2 & H3). split; [rewrite app_length; lia|].
  exists o, dk. split; [done|]. split; [by apply lookup_app_l_Some|done].
Qed.
Lemma kids_ok_app_r n ds1 ds2 os ks : kids_ok (length ds1 + n) ds2 os ks -> kids_ok n (ds1 ++ ds2) os ks.
Proof.
  intros H i k Hk. destruct (H i k Hk) as (Hr & o & dk & H1 & H2 & H3). split; [rewrite app_length; lia|].
  exists o, dk. split; [done|]. split; [|done]. rewrite lookup_app_r by lia. rewrite <- H2. f_equal. lia.
Qed.
Lemma act_ok_app_l nq n ds ds' d : act_ok nq n ds d -> act_ok nq n (ds ++ ds') d.
Proof. intros (H1 & H2 & H3). split; [done|]. split; [done|]. by apply kids_ok_app_l. Qed.
Lemma act_ok_app_r nq n ds1 ds2 d : act_ok nq (length ds1 + n) ds2 d -> act_ok nq n (ds1 ++ ds2) d.
Proof. intros (H1 & H2 & H3). split; [done|]. split; [done|]. by apply kids_ok_app_r. Qed.
Lemma seg_ok_app nq n ds1 ds2 : seg_ok nq n ds1 -> seg_ok nq (length ds1 + n) ds2 -> seg_ok nq n (ds1 ++ ds2).
Proof.
  intros H1 H2. apply Forall_app. split.
  - eapply list.Forall_impl; [exact H1|]. intros d. apply act_ok_app_l.
  - eapply list.Forall_impl; [exact H2|]. intros d. apply act_ok_app_r.
Qed.
Lemma kids_ok_cons n os ks o k ds ds2 :
  (forall k0, k = Some k0 -> n <= k0 < n + length ds /\ exists dk, ds !! (k0 - n) = Some dk /\ dk.(a_base) = Some (op_q o)) ->
  kids_ok (length ds + n) ds2 os ks -> kids_ok n (ds ++ ds2) (o :: os) (k :: ks).
Proof.
  intros Hk Hr [|i] k0 Hi; cbn in Hi.
  - injection Hi as ->. destruct (Hk k0 eq_refl) as (Hrg & dk & E1 & E2). split; [rewrite app_length; lia|].
    exists o, dk. split; [done|]. split; [by apply lookup_app_l_Some|done].
  - by apply (kids_ok_app_r n ds ds2 os ks Hr i k0).
Qed.

Definition op_spec (nq : nat) (lo : option nat) (o : nop) (next : nat) (r : op * option nat * list act * nat) : Prop :=
  let '(o', k, ds, n1) := r in
  o' = erase o /\ n1 = length ds + next /\ nop_q o < nq /\ match lo with Some b => b < nop_q o | None => True end /\
  (forall k0, k = Some k0 -> next <= k0 < next + length ds /\ exists dk, ds !! (k0 - next) = Some dk /\ dk.(a_base) = Some (nop_q o)) /\
  seg_ok nq next ds.
Definition script_spec (nq : nat) (lo : option nat) (next : nat) (r : list op * list (option nat) * list act * nat) : Prop :=
  let '(os, ks, ds, n2) := r in
  n2 = length ds + next /\ Forall (fun o => op_q o < nq) os /\ (forall b, lo = Some b -> Forall (fun o => b < op_q o) os) /\
  kids_ok next ds os ks /\ seg_ok nq next ds.

Lemma script_from_ops nq lo sc :
  Forall (fun o => forall next, op_spec nq lo o next (fl_op o next)) sc -> forall next, script_spec nq lo next (fl_script sc next).
Proof.
  induction 1 as [|o sc Ho Hsc IH]; intros next; cbn.
  - split; [cbn; lia|]. split; [constructor|]. split; [intros; constructor|]. split; [intros i k Hk; by rewrite lookup_nil in Hk|constructor].
  - specialize (Ho next). destruct (fl_op o next) as [[[o' k] ds] n1]. destruct Ho as (-> & -> & Hq & Hlo & Hk & Hseg).
    specialize (IH (length ds + next)). destruct (fl_script sc (length ds + next)) as [[[os ks] ds2] n2].
    destruct IH as (-> & Hos & Hlos & Hks & Hseg2).
    split; [rewrite app_length; lia|]. split; [constructor; [by rewrite erase_q|done]|].
    split; [intros b ->; constructor; [by rewrite erase_q|by apply Hlos]|].
    split; [|by apply seg_ok_app].
    apply kids_ok_cons; [|done]. intros k0 E. destruct (Hk k0 E) as (H1 & dk & H2 & H3). split; [done|]. exists dk. by rewrite erase_q.
Qed.

Lemma fl_op_ok nq : forall o lo next, wo_op nq lo o -> op_spec nq lo o next (fl_op o next).
Proof.
  intros o. induction o as [o IH] using nop_ind'. intros lo next Hwo.
  apply wo_op_eq in Hwo as (Hq & Hlo & Hbody).
  rewrite fl_op_eq. destruct (nop_body o) as [|x b] eqn:Eb.
  - split; [done|]. split; [cbn; lia|]. split; [done|]. split; [done|]. split; [done|]. constructor.
  - rewrite <- Eb in *. clear Eb x b.
    assert (Hsp : forall n, script_spec nq (Some (nop_q o)) n (fl_script (nop_body o) n)).
    { apply script_from_ops. rewrite Forall_forall in IH, Hbody |- *. intros x Hx n. apply IH; [done|]. by apply Hbody. }
    specialize (Hsp (S next)). destruct (fl_script (nop_body o) (S next)) as [[[os ks] ds] n1].
    destruct Hsp as (-> & Hos & Hlos & Hks & Hseg).
    split; [done|]. split; [cbn; lia|]. split; [done|]. split; [done|]. split.
    + intros k0 [= <-]. split; [cbn; lia|]. rewrite Nat.sub_diag. eexists. split; [reflexivity|done].
    + (* the new activation followed by its descendants *)
      change (_ :: ds) with ([{| a_script := os; a_kids := ks; a_base := Some (nop_q o) |}] ++ ds).
      apply Forall_app. split.
      * constructor; [|constructor]. split; [done|]. split; [by intros b [= <-]; apply Hlos|]. cbn [a_script a_kids].
        by apply kids_ok_app_r.
      * eapply list.Forall_impl; [exact Hseg|]. intros d Hd. by apply act_ok_app_r.
Qed.

Lemma fl_script_ok nq lo sc next : Forall (wo_op nq lo) sc -> script_spec nq lo next (fl_script sc next).
Proof.
  intros H. apply script_from_ops. eapply list.Forall_impl; [exact H|]. intros o Ho n. by apply fl_op_ok.
Qed.

Definition top_ok (nq n : nat) (ds : list act) (t : act) : Prop :=
  Forall (fun o => op_q o < nq) t.(a_script) /\ t.(a_base) = None /\ kids_ok n ds t.(a_script) t.(a_kids).
Lemma top_ok_app_l nq n ds ds' t : top_ok nq n ds t -> top_ok nq n (ds ++ ds') t.
Proof. intros (H1 & H2 & H3). split; [done|]. split; [done|]. by apply kids_ok_app_l. Qed.

Lemma fl_tops_ok nq scs : wo nq scs -> forall next,
  let '(tops, ds, n2) := fl_tops scs next in
  n2 = length ds + next /\ length tops = length scs /\ Forall (act_ok nq next ds) tops /\ seg_ok nq next ds.
Proof.
  induction 1 as [|sc scs Hsc Hscs IH]; intros next; cbn.
  - split; [cbn; lia|]. split; [done|]. split; constructor.
  - pose proof (fl_script_ok nq None sc next Hsc) as Hs. destruct (fl_script sc next) as [[[os ks] ds] n1].
    destruct Hs as (-> & Hos & _ & Hks & Hseg).
    specialize (IH (length ds + next)). destruct (fl_tops scs (length ds + next)) as [[tops ds2] n2].
    destruct IH as (-> & Hlen & Htops & Hseg2).
    split; [rewrite app_length; lia|]. split; [cbn; by rewrite Hlen|]. split; [|by apply seg_ok_app].
    constructor.
    + split; [done|]. split; [done|]. by apply kids_ok_app_l.
    + eapply list.Forall_impl; [exact Htops|]. intros t. apply act_ok_app_r.
Qed.

Theorem flatten_nwf nq (scs : list (list nop)) : wo nq scs -> nwf nq (length scs) (flatten scs).
Proof.
  intros Hwo. unfold flatten. pose proof (fl_tops_ok nq scs Hwo (length scs)) as H.
  destruct (fl_tops scs (length scs)) as [[tops ds] n2]. destruct H as (_ & Hlen & Htops & Hseg).
  assert (Hact : forall a act, (tops ++ ds) !! a = Some act -> act_ok nq (length scs) ds act).
  { apply Forall_lookup, Forall_app. done. }
  split.
  - unfold wf_scripts. apply list.Forall_forall. intros sc (act & -> & Hin)%elem_of_list_fmap.
    apply elem_of_list_lookup in Hin as [a Ha]. destruct (Hact a act Ha) as (H1 & _).
    apply forallb_forall. intros o Ho. apply bool_decide_eq_true. rewrite list.Forall_forall in H1. apply H1. by apply elem_of_list_In.
  - rewrite app_length. lia.
  - intros a i k Hk. unfold kid_at in Hk. destruct ((tops ++ ds) !! a) as [acta|] eqn:Ea; [|done]. cbn in Hk.
    destruct (a_kids acta !! i) as [ko|] eqn:Ei; [|done]. cbn in Hk. subst ko.
    destruct (Hact a acta Ea) as (_ & _ & Hks). destruct (Hks i k Ei) as (Hr & o & dk & H1 & H2 & H3).
    split; [rewrite app_length; lia|]. exists acta, o, dk. split; [done|]. split; [done|]. split; [|done].
    rewrite lookup_app_r by lia. by rewrite Hlen.
  - intros k act b Hk Hb. destruct (Hact k act Hk) as (_ & H2 & _). by apply H2.
Qed.
