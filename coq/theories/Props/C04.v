(* C04 - sync always returns (liveness part, layer L1, pool maximum >= 1): in every reachable state in which no thread can move,
   every caller has finished its script, i.e. every sync call has returned.  The functional part (closure ran exactly once,
   strictly between call and return, own result) is in L1h/PropsC04.v.
   The pool-of-zero case (callers carry all the work) is not covered by this theorem: it is C04_sync_returns_any_pool_L1,
   and both together C04_full_holds, in L1z/PropsC04zero.v. *)
From stdpp Require Import list numbers option.
From L1 Require Import Model Own Shape Stuck Live Wait Help Final.

Definition C04_full : Prop :=
  forall (T : tables) (F : facts), core_tables T -> own_conditions T -> F.(f_dormant_blocks) = true -> F.(f_sticky_notify) = true ->
  forall nq mx scripts tr s, wf_scripts nq scripts -> run T F (init nq mx scripts) tr = Some s -> terminal T F s ->
    forall a ac, a < length scripts -> s.(actors) !! a = Some ac -> ac.(stack) = [FTop []].

Theorem C04_sync_returns_pool_partial :
  forall (T : tables) (F : facts), core_tables T -> own_conditions T -> F.(f_dormant_blocks) = true ->
  forall nq mx scripts tr s, wf_scripts nq scripts -> 1 <= mx -> run T F (init nq mx scripts) tr = Some s -> terminal T F s ->
    forallb actor_done s.(actors) = true.
Proof.
  intros T F HK HT HF nq mx scripts tr s Hw Hm Hr Ht.
  pose proof (L_quiet T F HK HT HF nq mx scripts tr s Hw Hm Hr Ht) as Hc.
  unfold complete in Hc. apply andb_true_iff in Hc as [Hc _]. apply andb_true_iff in Hc as [Hc _]. exact Hc.
Qed.
Print Assumptions C04_sync_returns_pool_partial.
