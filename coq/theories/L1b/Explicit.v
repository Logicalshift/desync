(* L1b: an explicit bound on the length of every run of the L1 model: the measure is turned into one number. *)
From stdpp Require Import list numbers option list_numbers.
From RecordUpdate Require Import RecordUpdate.
From L1 Require Import Model Own Shape Stuck Pool.
From L1b Require Import Measure Good Bound.

Lemma sum_bound {A} (f : A -> nat) (l : list A) c : (forall x, f x <= c) -> sum_list_with f l <= c * length l.
Proof. intros Hf. induction l as [|x l IH]; cbn; [lia|]. specialize (Hf x). lia. Qed.
Lemma muK_bound s : muK s <= 2 * length s.(actors).
Proof.
  unfold muK. apply sum_bound. intros x. unfold kc. destruct (kicked x), (stack x) as [|fr ?]; try lia; destruct (is_woken fr); lia.
Qed.
(* 13: the largest rank that does not depend on the threads is 10 (FTrelsome), and FSTlock has 3 + the number of threads *)
Lemma muL_bound s : muL s <= (13 + length s.(threads)) * length s.(actors).
Proof.
  unfold muL. apply sum_bound. intros x. unfold lr. destruct (stack x) as [|fr ?]; [lia|].
  destruct fr; cbn; repeat case_match; lia.
Qed.

(* a step that decreases the first component may raise the second by 5 (Bound.decr) and the lower ones up to their
   bounds Kb, Lb: hence 5 * W2 in W1 *)
Section Phi.
  Context (Kb Lb : nat).
  Definition W3 : nat := Lb + 1.
  Definition W2 : nat := Kb * W3 + Lb + 1.
  Definition W1 : nat := 5 * W2 + Kb * W3 + Lb + 1.
  Definition phi (x : nat * (nat * (nat * nat))) : nat := let '(p, (m, (k, l))) := x in p * W1 + m * W2 + k * W3 + l.

  Lemma phi_decr x' x : lex4 x' x -> fst (snd x') <= fst (snd x) + 5 -> fst (snd (snd x')) <= Kb -> snd (snd (snd x')) <= Lb ->
    phi x' < phi x.
  Proof.
    destruct x' as (p' & m' & k' & l'), x as (p & m & k & l). cbn. unfold lex4.
    intros Hlex Hm Hk Hl.
    assert (Hk3 : k' * W3 <= Kb * W3) by (by apply Nat.mul_le_mono_r).
    assert (Hm2 : m' * W2 <= m * W2 + 5 * W2) by (rewrite <- Nat.mul_add_distr_r; by apply Nat.mul_le_mono_r).
    set (A := Kb * W3) in *. unfold W1, W2 in *. fold A in Hm2 |- *.
    destruct Hlex as [Hp|(-> & [Hm'|(-> & [Hk'|(-> & Hl')])])].
    - assert (Hp1 : p' * (5 * (A + Lb + 1) + A + Lb + 1) + (5 * (A + Lb + 1) + A + Lb + 1) <= p * (5 * (A + Lb + 1) + A + Lb + 1)).
      { rewrite <- (Nat.mul_1_l (5 * (A + Lb + 1) + A + Lb + 1)) at 2. rewrite <- Nat.mul_add_distr_r. apply Nat.mul_le_mono_r. lia. }
      lia.
    - assert (Hm1 : m' * (A + Lb + 1) + (A + Lb + 1) <= m * (A + Lb + 1)).
      { rewrite <- (Nat.mul_1_l (A + Lb + 1)) at 2. rewrite <- Nat.mul_add_distr_r. apply Nat.mul_le_mono_r. lia. }
      lia.
    - assert (Hk1 : k' * W3 + W3 <= k * W3).
      { rewrite <- (Nat.mul_1_l W3) at 2. rewrite <- Nat.mul_add_distr_r. apply Nat.mul_le_mono_r. lia. }
      unfold W3 in *. lia.
    - lia.
  Qed.
End Phi.

Definition total_ops (scripts : list (list op)) : nat := sum_list_with length scripts.
Definition Kb (mx : nat) (scripts : list (list op)) : nat := 2 * (length scripts + mx).
Definition Lb (mx : nat) (scripts : list (list op)) : nat := (13 + mx) * (length scripts + mx).
Definition L1_bound (mx : nat) (scripts : list (list op)) : nat :=
  phi (Kb mx scripts) (Lb mx scripts) (16 * total_ops scripts, (mx, (0, 0))).

Lemma mu_init nq mx scripts : mu (init nq mx scripts) = (16 * total_ops scripts, (mx, (0, 0))).
Proof.
  unfold mu, muP, muM, muK, muL, init; cbn.
  assert (H1 : forall l : list (list op), sum_list_with pw ((fun sc => {| stack := [FTop sc]; ready := false; result := false; opctr := 0; kicked := false |}) <$> l) = 16 * total_ops l).
  { induction l as [|x l IH]; cbn; [done|]. rewrite IH. unfold pw, total_ops. cbn. lia. }
  assert (H2 : forall (f : actor -> nat) (l : list (list op)), (forall sc, f {| stack := [FTop sc]; ready := false; result := false; opctr := 0; kicked := false |} = 0) ->
              sum_list_with f ((fun sc => {| stack := [FTop sc]; ready := false; result := false; opctr := 0; kicked := false |}) <$> l) = 0).
  { intros f l Hf. induction l as [|x l IH]; cbn; [done|]. by rewrite IH, Hf. }
  assert (H3 : sum_list_with (fun qq : queue => length (jobs qq)) (replicate nq {| qs := Idle; jobs := []; wake_blocked := []; owner := None |}) = 0).
  { induction nq; cbn; done. }
  rewrite H1, H3, !H2 by done. f_equal. f_equal. lia.
Qed.

Section Explicit.
  Context (T : tables) (F : facts) (HT : own_conditions T) (HB : bound_conditions T).

  Theorem run_length_bound nq mx scripts tr s :
    wf_scripts nq scripts -> run T F (init nq mx scripts) tr = Some s ->
    length tr + phi (Kb mx scripts) (Lb mx scripts) (mu s) <= L1_bound mx scripts.
  Proof.
    intros Hwf. revert s. induction tr as [|a tr IH] using rev_ind; intros s Hr.
    - cbn in Hr. injection Hr as <-. rewrite mu_init. unfold L1_bound. apply Nat.le_refl.
    - rewrite run_snoc in Hr. destruct (run T F (init nq mx scripts) tr) as [s1|] eqn:Hr1; [|done]. cbn in Hr.
      specialize (IH s1 eq_refl).
      assert (HG : Good s1) by (eapply (run_good T F HT); [by apply init_good|exact Hr1]).
      destruct (step_decr T F HB s1 a s HG Hr) as [Hlex HM].
      assert (Hr2 : run T F (init nq mx scripts) (tr ++ [a]) = Some s) by (by rewrite run_snoc, Hr1).
      destruct (reachable_pool_bounded T F nq mx scripts (tr ++ [a]) s Hr2) as (Ht & _ & Ha).
      pose proof (muK_bound s) as HK. pose proof (muL_bound s) as HL.
      assert (HK' : muK s <= Kb mx scripts) by (unfold Kb; rewrite Ha in HK; lia).
      assert (HL' : muL s <= Lb mx scripts).
      { unfold Lb. rewrite Ha in HL. etrans; [exact HL|]. apply Nat.mul_le_mono; lia. }
      pose proof (phi_decr (Kb mx scripts) (Lb mx scripts) (mu s) (mu s1) Hlex HM HK' HL'). rewrite app_length. change (length [a]) with 1. lia.
  Qed.

  Corollary L_bound_explicit nq mx scripts tr s :
    wf_scripts nq scripts -> run T F (init nq mx scripts) tr = Some s -> length tr <= L1_bound mx scripts.
  Proof. intros Hwf Hr. pose proof (run_length_bound nq mx scripts tr s Hwf Hr). lia. Qed.
End Explicit.
