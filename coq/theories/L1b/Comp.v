(* L1b: how the four components of the measure change when one actor takes a step. *)
From stdpp Require Import list numbers option list_numbers.
From RecordUpdate Require Import RecordUpdate.
From L1 Require Import Model Own Shape Stuck.
From L1b Require Import Measure Sums Bystander.

Lemma lex4_K a b c d a' b' c' d' : a <= a' -> b <= b' -> c < c' -> lex4 (a, (b, (c, d))) (a', (b', (c', d'))).
Proof. unfold lex4. lia. Qed.
Lemma lex4_L a b c d a' b' c' d' : a <= a' -> b <= b' -> c <= c' -> d < d' -> lex4 (a, (b, (c, d))) (a', (b', (c', d'))).
Proof. unfold lex4. lia. Qed.

Definition others_by (s s' : state) (a : nat) : Prop :=
  length s'.(actors) = length s.(actors) /\
  forall b ab', s'.(actors) !! b = Some ab' -> b <> a -> exists ab, s.(actors) !! b = Some ab /\ by_ok ab ab'.
Definition others_same (s s' : state) (a : nat) : Prop :=
  length s'.(actors) = length s.(actors) /\ forall b, b <> a -> s'.(actors) !! b = s.(actors) !! b.

Section Comp.
  Context (s s' : state) (a : nat) (ac ac' : actor).
  Context (Ea : s.(actors) !! a = Some ac) (Ea' : s'.(actors) !! a = Some ac').

  Lemma sum_others_le (R : actor -> actor -> Prop) (f g : actor -> nat) :
    length s'.(actors) = length s.(actors) ->
    (forall b y, s'.(actors) !! b = Some y -> b <> a -> exists x, s.(actors) !! b = Some x /\ R x y) ->
    (forall x y, R x y -> g y <= f x) -> g ac' <= f ac -> sum_list_with g s'.(actors) <= sum_list_with f s.(actors).
  Proof.
    intros Hl Ho Hf Hle. eapply (sum_pointwise_le f g); [done|].
    intros i x y Hx Hy. destruct (decide (i = a)) as [->|Hne]; [rewrite Ea in Hx; rewrite Ea' in Hy; injection Hx as <-; by injection Hy as <-|].
    destruct (Ho i y Hy Hne) as (x' & Hx' & Hb). rewrite Hx in Hx'. injection Hx' as <-. by apply Hf.
  Qed.
  Lemma sum_others_lt (R : actor -> actor -> Prop) (f g : actor -> nat) :
    length s'.(actors) = length s.(actors) ->
    (forall b y, s'.(actors) !! b = Some y -> b <> a -> exists x, s.(actors) !! b = Some x /\ R x y) ->
    (forall x y, R x y -> g y <= f x) -> g ac' < f ac -> sum_list_with g s'.(actors) < sum_list_with f s.(actors).
  Proof.
    intros Hl Ho Hf Hlt. eapply (sum_pointwise_lt f g _ _ a ac ac'); try done.
    intros i x y Hx Hy. destruct (decide (i = a)) as [->|Hne]; [rewrite Ea in Hx; rewrite Ea' in Hy; injection Hx as <-; injection Hy as <-; lia|].
    destruct (Ho i y Hy Hne) as (x' & Hx' & Hb). rewrite Hx in Hx'. injection Hx' as <-. by apply Hf.
  Qed.

  Lemma sum_by_lt (f : actor -> nat) : others_by s s' a -> (forall x y, by_ok x y -> f y <= f x) -> f ac' < f ac ->
    sum_list_with f s'.(actors) < sum_list_with f s.(actors).
  Proof. intros [Hl Ho]. by apply (sum_others_lt by_ok). Qed.
  Lemma sum_by_le (f : actor -> nat) : others_by s s' a -> (forall x y, by_ok x y -> f y <= f x) -> f ac' <= f ac ->
    sum_list_with f s'.(actors) <= sum_list_with f s.(actors).
  Proof. intros [Hl Ho]. by apply (sum_others_le by_ok). Qed.

  Lemma muP_lt : others_by s s' a -> pw ac' < pw ac -> muP s' < muP s.
  Proof. intros Ho Hlt. unfold muP. apply sum_by_lt; [done|apply pw_by|done]. Qed.
  Lemma muP_le : others_by s s' a -> pw ac' <= pw ac -> muP s' <= muP s.
  Proof. intros Ho Hlt. unfold muP. apply sum_by_le; [done|apply pw_by|done]. Qed.

  Lemma hand_sum_lt : others_by s s' a -> hand ac' < hand ac -> sum_list_with hand s'.(actors) < sum_list_with hand s.(actors).
  Proof. intros Ho Hlt. apply sum_by_lt; [done| |done]. intros x y H. by rewrite (hand_by x y H). Qed.
  Lemma hand_sum_le : others_by s s' a -> hand ac' <= hand ac -> sum_list_with hand s'.(actors) <= sum_list_with hand s.(actors).
  Proof. intros Ho Hlt. apply sum_by_le; [done| |done]. intros x y H. by rewrite (hand_by x y H). Qed.

  Lemma others_same_eq : others_same s s' a -> forall b y, s'.(actors) !! b = Some y -> b <> a -> exists x, s.(actors) !! b = Some x /\ x = y.
  Proof. intros [_ Ho] b y Hy Hne. rewrite Ho in Hy by done. eauto. Qed.
  Lemma sum_same (f g : actor -> nat) : others_same s s' a -> (forall x, g x <= f x) -> g ac' <= f ac ->
    sum_list_with g s'.(actors) <= sum_list_with f s.(actors).
  Proof. intros Ho Hfg. apply (sum_others_le eq); [apply Ho|by apply others_same_eq|by intros x _ <-]. Qed.
  Lemma sum_same_lt (f g : actor -> nat) : others_same s s' a -> (forall x, g x <= f x) -> g ac' < f ac ->
    sum_list_with g s'.(actors) < sum_list_with f s.(actors).
  Proof. intros Ho Hfg. apply (sum_others_lt eq); [apply Ho|by apply others_same_eq|by intros x _ <-]. Qed.
End Comp.

(* the weight of the stepping actor when its ready flag may have been set by a job that ran *)
Lemma pw_flag_lt ac ac' : (ac.(ready) = true -> ac'.(ready) = true) ->
  (forall r, sum_list_with (wfr r) ac'.(stack) < sum_list_with (wfr r) ac.(stack)) -> pw ac' < pw ac.
Proof.
  intros Hr Hs. unfold pw. destruct (ready ac) eqn:E; [rewrite Hr by done; apply Hs|].
  destruct (ready ac'); [|apply Hs]. eapply Nat.le_lt_trans; [apply sum_wfr_mono|apply Hs].
Qed.
Lemma pw_flag_le ac ac' : (ac.(ready) = true -> ac'.(ready) = true) ->
  (forall r, sum_list_with (wfr r) ac'.(stack) <= sum_list_with (wfr r) ac.(stack)) -> pw ac' <= pw ac.
Proof.
  intros Hr Hs. unfold pw. destruct (ready ac) eqn:E; [rewrite Hr by done; apply Hs|].
  destruct (ready ac'); [|apply Hs]. etrans; [apply sum_wfr_mono|apply Hs].
Qed.

Lemma lr_same s s' x : length s'.(threads) = length s.(threads) ->
  (forall q, (fun qq => qq.(jobs)) <$> (s'.(queues) !! q) = (fun qq => qq.(jobs)) <$> (s.(queues) !! q)) ->
  lr s' x = lr s x.
Proof.
  intros Ht Hq. unfold lr. destruct (stack x) as [|fr ?]; [done|]. destruct fr; cbn; rewrite ?Ht; try done.
  specialize (Hq q). destruct (queues s' !! q) as [qq'|], (queues s !! q) as [qq|]; cbn in Hq; try done. injection Hq as ->. done.
Qed.
