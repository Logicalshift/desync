(* L1b: what a step does to the actors that do not take it (wake-ups by notify and run_job), and how the
   per-actor parts of the measure react. *)
From stdpp Require Import list numbers option list_numbers.
From RecordUpdate Require Import RecordUpdate.
From L1 Require Import Model Step Own Shape Stuck.
From L1b Require Import Measure Sums.

Definition by_ok (ab ab' : actor) : Prop :=
  (ab.(ready) = true -> ab'.(ready) = true) /\ (ab.(result) = true -> ab'.(result) = true) /\
  (ab'.(stack) = ab.(stack) \/ exists q r, ab.(stack) = FSBwait q :: r /\ ab'.(stack) = FSBwoken q :: r).

Lemma wfr_mono fr : wfr true fr <= wfr false fr.
Proof. destruct fr; cbn; lia. Qed.
Lemma sum_wfr_mono st : sum_list_with (wfr true) st <= sum_list_with (wfr false) st.
Proof. induction st as [|fr st IH]; cbn; [done|]. pose proof (wfr_mono fr). lia. Qed.

Lemma pw_by ab ab' : by_ok ab ab' -> pw ab' <= pw ab.
Proof.
  intros (H1 & _ & H3). unfold pw.
  assert (Hs : forall r, sum_list_with (wfr r) (stack ab') <= sum_list_with (wfr r) (stack ab)).
  { intros r. destruct H3 as [->|(q & st & -> & ->)]; [done|]. cbn. destruct r; lia. }
  destruct (ready ab) eqn:E.
  - rewrite H1 by done. apply Hs.
  - destruct (ready ab'); [|apply Hs]. etrans; [apply sum_wfr_mono|apply Hs].
Qed.
Lemma hand_by ab ab' : by_ok ab ab' -> hand ab' = hand ab.
Proof. intros (_ & _ & [H|(q & r & H1 & H2)]); unfold hand; [by rewrite H|by rewrite H1, H2]. Qed.

Lemma awoken_by ab ab' : awoken ab' ab -> by_ok ab ab'.
Proof. intros [H3 _ H1 H2 _ _]. by split_and!. Qed.
Lemma woken_by m s b ab' : woken m s -> m.(actors) !! b = Some ab' -> exists ab, s.(actors) !! b = Some ab /\ by_ok ab ab'.
Proof. intros Hw Hb. destruct (woken_lookup_r _ _ _ _ Hw Hb) as (ab & Hab & H). exists ab. split; [done|by apply awoken_by]. Qed.
