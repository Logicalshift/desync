(* L1b: every step of the L1 model from a state that satisfies the invariants strictly decreases the measure mu (and
   lets its second component grow by at most 5, which the explicit bound of Explicit.v needs).  Hence the model has
   no livelock: on reachable states the inverse of the step relation is well founded, no run goes on for ever. *)
From stdpp Require Import list numbers option list_numbers.
From RecordUpdate Require Import RecordUpdate.
From L1 Require Import Model Step Own Shape Stuck.
From L1b Require Import Measure Sums Good Bystander Comp.

(* no step raises the second component by more than 2 (a pushed job counts twice); 5 is the slack the weight W1 of
   Explicit.v is defined with *)
Definition decr (x' x : nat * (nat * (nat * nat))) : Prop := lex4 x' x /\ fst (snd x') <= fst (snd x) + 5.

(* the resources counted by M that do not sit in an actor's hand *)
Definition res (s : state) : nat :=
  2 * sum_list_with (fun qq => length qq.(jobs)) s.(queues) + length s.(sched) + sum_list_with chan s.(threads)
  + (s.(maxt) - length s.(threads)).
Arguments res : simpl never.
#[local] Arguments Nat.mul : simpl never.
Lemma muM_res s : muM s = sum_list_with hand s.(actors) + res s.
Proof. unfold muM, res. lia. Qed.

Lemma sum_alter_same {A} (g : A -> nat) (f : A -> A) t (l : list A) :
  (forall x, g (f x) = g x) -> sum_list_with g (alter f t l) = sum_list_with g l.
Proof. intros Hf. revert t. induction l as [|x l IH]; intros [|t]; cbn; try done; [by rewrite Hf|by rewrite IH]. Qed.
Lemma sum_ext {A} (f g : A -> nat) l : (forall x, f x = g x) -> sum_list_with f l = sum_list_with g l.
Proof. intros H. induction l as [|x l IH]; cbn; [done|by rewrite H, IH]. Qed.

(* The step replaces the stack of actor a by st, after updating its flags by f.  The measure moves as the four local
   parts of a do: weight, hand plus free resources, wake-up credit, local rank. *)
Section Local.
  Context (s X : state) (a : nat) (ac : actor) (f : actor -> actor) (st : list frame).
  Context (Ea : s.(actors) !! a = Some ac) (HX : X.(actors) = alter f a s.(actors)).
  Let h (x : actor) := f x <| stack := st |>.

  Lemma local_actors : (setstack X a st).(actors) = alter h a s.(actors).
  Proof. unfold setstack, upda; cbn. by rewrite HX, <- list_alter_compose. Qed.

  Lemma local_PMK :
    decr (pw (h ac), (hand (h ac) + res X, (kc (h ac), 0))) (pw ac, (hand ac + res s, (kc ac, 0))) -> decr (mu (setstack X a st)) (mu s).
  Proof.
    pose proof (sum_alter pw h _ a ac Ea) as HP. pose proof (sum_alter hand h _ a ac Ea) as HH. pose proof (sum_alter kc h _ a ac Ea) as HK.
    unfold decr, mu, lex4, muP, muK. cbn [fst snd]. rewrite !muM_res, local_actors. change (res (setstack X a st)) with (res X). lia.
  Qed.

  (* the local rank of the others reads the number of threads and the emptiness of queues only *)
  Lemma local_all : length X.(threads) = length s.(threads) ->
    (forall q, (fun qq => qq.(jobs)) <$> (X.(queues) !! q) = (fun qq => qq.(jobs)) <$> (s.(queues) !! q)) ->
    decr (pw (h ac), (hand (h ac) + res X, (kc (h ac), lr s (h ac)))) (pw ac, (hand ac + res s, (kc ac, lr s ac))) ->
    decr (mu (setstack X a st)) (mu s).
  Proof.
    intros Ht Hq.
    pose proof (sum_alter pw h _ a ac Ea) as HP. pose proof (sum_alter hand h _ a ac Ea) as HH. pose proof (sum_alter kc h _ a ac Ea) as HK.
    pose proof (sum_alter (lr s) h _ a ac Ea) as HL.
    unfold decr, mu, lex4, muP, muK, muL. cbn [fst snd]. rewrite !muM_res, local_actors. change (res (setstack X a st)) with (res X).
    rewrite (sum_ext (lr (setstack X a st)) (lr s)) by (intros; by apply lr_same). lia.
  Qed.
End Local.

Lemma res_updq_same s q f : (forall x, (f x).(jobs) = x.(jobs)) -> res (updq s q f) = res s.
Proof. intros Hf. unfold res, updq; cbn. by rewrite sum_alter_same by (intros; by rewrite Hf). Qed.
Lemma res_updq s q f qq : s.(queues) !! q = Some qq -> res (updq s q f) + 2 * length qq.(jobs) = res s + 2 * length (f qq).(jobs).
Proof. intros Eq. pose proof (sum_alter (fun qq => length qq.(jobs)) f _ q qq Eq). unfold res, updq; cbn. lia. Qed.
Lemma res_updt_same s t f : (forall x, (f x).(chan) = x.(chan)) -> res (updt s t f) = res s.
Proof. intros Hf. unfold res, updt; cbn. by rewrite alter_length, sum_alter_same. Qed.
Lemma res_updt s t f th : s.(threads) !! t = Some th -> res (updt s t f) + th.(chan) = res s + (f th).(chan).
Proof. intros Et. pose proof (sum_alter chan f _ t th Et). unfold res, updt; cbn. rewrite alter_length. lia. Qed.
Lemma jobs_lookup_alter (f : queue -> queue) q (l : list queue) q' :
  (forall x, (f x).(jobs) = x.(jobs)) -> (fun qq => qq.(jobs)) <$> (alter f q l !! q') = (fun qq => qq.(jobs)) <$> (l !! q').
Proof.
  intros Hf. destruct (decide (q = q')) as [->|]; [|by rewrite list_lookup_alter_ne].
  rewrite list_lookup_alter. destruct (l !! q'); cbn; [by rewrite Hf|done].
Qed.

(* steps that wake other actors: their weight does not grow, their hands stay as they are.
   W is s after the wake-ups, X has the actors of W, the stepping actor then replaces its stack. *)
Section Wake.
  Context (s W X : state) (a : nat) (ac : actor) (newst : list frame).
  Context (Ea : s.(actors) !! a = Some ac) (HW : woken W s) (HX : X.(actors) = W.(actors)).
  Let s' := setstack X a newst.

  Lemma wake_others : others_by s s' a.
  Proof.
    split; [unfold s'; by rewrite length_actors_setstack, HX, (woken_length W s)|].
    intros b ab' Hb Hne. unfold s' in Hb. rewrite actors_setstack_lookup, decide_False, HX in Hb by done. by eapply woken_by.
  Qed.
  Lemma wake_self : exists ac1, s'.(actors) !! a = Some (ac1 <| stack := newst |>) /\ by_ok ac ac1.
  Proof.
    destruct (woken_lookup _ _ _ _ HW Ea) as (ac1 & Ea1 & H1). exists ac1. split; [|by apply awoken_by].
    unfold s'. by rewrite actors_setstack_lookup, decide_True, HX, Ea1.
  Qed.
End Wake.

Lemma run_step_decr F s a ac fr rest j newst :
  s.(actors) !! a = Some ac -> ac.(stack) = fr :: rest -> is_runf fr = true ->
  match newst with g :: _ => is_runf g = false | [] => True end ->
  (forall r, sum_list_with (wfr r) newst <= sum_list_with (wfr r) rest) ->
  decr (mu (setstack (run_job F s j) a newst)) (mu s).
Proof.
  intros Ea Est Hfr Hrest Hw. pose proof (woken_run_job F s j) as HX.
  pose proof (wake_others s _ _ a newst HX eq_refl) as Ho. destruct (wake_self s _ _ a ac newst Ea HX eq_refl) as (ac1 & Ea' & Hby).
  assert (Hw0 : forall r, wfr r fr = 0) by (intros r; by destruct fr).
  assert (HP : muP (setstack (run_job F s j) a newst) <= muP s).
  { eapply (muP_le s _ a ac _ Ea Ea'); [done|]. apply pw_flag_le; [apply Hby|]. intros r. cbn. rewrite Est. cbn. rewrite Hw0. specialize (Hw r). lia. }
  assert (HM : muM (setstack (run_job F s j) a newst) < muM s).
  { pose proof (hand_sum_lt s _ a ac _ Ea Ea' Ho) as Hh.
    assert (hand (ac1 <| stack := newst |>) < hand ac) as Hlt.
    { unfold hand. cbn. rewrite Est, Hfr. destruct newst as [|g ?]; [lia|]. rewrite Hrest. lia. }
    specialize (Hh Hlt). rewrite !muM_res. change (res (setstack (run_job F s j) a newst)) with (res (run_job F s j)).
    unfold res. destruct HX as [-> -> _ -> _ -> _ _]. lia. }
  unfold decr, mu, lex4. cbn [fst snd]. lia.
Qed.

Lemma notify_step_decr F s a ac fr rest ws q g newst :
  s.(actors) !! a = Some ac -> ac.(stack) = fr :: rest -> hand ac = 0 ->
  (forall x, (g x).(jobs) = x.(jobs)) ->
  match newst with f :: _ => is_runf f = false | [] => True end ->
  (forall r, sum_list_with (wfr r) newst < wfr r fr + sum_list_with (wfr r) rest) ->
  decr (mu (setstack (updq (foldl (notify F) s ws) q g) a newst)) (mu s).
Proof.
  intros Ea Est Hh0 Hg Hnew Hw. pose proof (woken_foldl_notify F ws s) as HX. set (X := updq (foldl (notify F) s ws) q g).
  pose proof (wake_others s _ X a newst HX eq_refl) as Ho. destruct (wake_self s _ X a ac newst Ea HX eq_refl) as (ac1 & Ea' & Hby).
  assert (HP : muP (setstack X a newst) < muP s).
  { eapply (muP_lt s _ a ac _ Ea Ea'); [done|]. apply pw_flag_lt; [apply Hby|]. intros r. cbn. rewrite Est. apply Hw. }
  assert (HM : muM (setstack X a newst) <= muM s).
  { pose proof (hand_sum_le s _ a ac _ Ea Ea' Ho) as Hh.
    assert (hand (ac1 <| stack := newst |>) <= hand ac) as Hle by (unfold hand at 1; cbn; destruct newst as [|f ?]; [lia|]; rewrite Hnew; lia).
    specialize (Hh Hle). rewrite !muM_res. subst X. change (res (setstack ?Y a newst)) with (res Y). rewrite res_updq_same by done.
    unfold res. destruct HX as [-> -> _ -> _ -> _ _]. lia. }
  unfold decr, mu, lex4. cbn [fst snd]. lia.
Qed.

Lemma spawn_step_decr s a ac rest nth nac newst :
  s.(actors) !! a = Some ac -> ac.(stack) = FSTspawn :: rest -> length s.(threads) < s.(maxt) ->
  nth.(chan) = 0 -> pw nac = 0 -> hand nac = 0 ->
  (forall r, sum_list_with (wfr r) newst <= wfr r FSTspawn + sum_list_with (wfr r) rest) ->
  match newst with f :: _ => is_runf f = false | [] => True end ->
  decr (mu (setstack (s <| threads := s.(threads) ++ [nth] |> <| actors := s.(actors) ++ [nac] |>) a newst)) (mu s).
Proof.
  intros Ea Est Hlt Hch Hpw Hhd Hw Hnew. pose proof (lookup_lt_Some _ _ _ Ea) as Hla.
  pose proof (sum_alter pw (fun x => x <| stack := newst |>) (actors s) a ac Ea) as HP.
  pose proof (sum_alter hand (fun x => x <| stack := newst |>) (actors s) a ac Ea) as HH.
  assert (HP' : pw (ac <| stack := newst |>) <= pw ac) by (unfold pw; cbn; rewrite Est; apply Hw).
  assert (HH' : hand (ac <| stack := newst |>) = 0) by (unfold hand; cbn; destruct newst as [|f ?]; [done|by rewrite Hnew]).
  unfold decr, mu, lex4, muP, muM, setstack, upda; cbn. rewrite alter_app_l by done. rewrite !sum_list_with_app, app_length. cbn. lia.
Qed.

Lemma owner_not_refused (T : tables) (HB : bound_conditions T) s a ac q qq :
  Good s -> s.(actors) !! a = Some ac -> 1 <= cnt q ac.(stack) -> s.(queues) !! q = Some qq ->
  T.(t_dequeue_refuses) qq.(qs) = false.
Proof. intros HG Ea Hc Eq. destruct (cnt_owner s a ac q qq (g_inv _ HG) Ea Hc Eq) as [_ ->]. apply (b_deq_running _ HB). Qed.


Lemma res_sched s l : res (s <| sched := l |>) + length s.(sched) = res s + length l.
Proof. unfold res; cbn. lia. Qed.
(* bring [res] of the new state to [res] of a state with one update *)
Ltac res_peel := repeat lazymatch goal with
  | |- context [res (setstack ?X ?a ?st)] => change (res (setstack X a st)) with (res X)
  | |- context [res (upda ?X ?a ?f)] => change (res (upda X a f)) with (res X)
  | |- context [res (updq ?X ?q ?f)] => rewrite (res_updq_same X q f) by done
  | |- context [res (updt ?X ?t ?f)] => rewrite (res_updt_same X t f) by done
  | |- context [res (set ?fld ?f ?Y)] => change (res (set fld f Y)) with (res Y)
  end.
(* the components are compared in turn: equal ones are so literally after cbn; the first other one decreases *)
Ltac lex_tac := split; [|lia];
  first [ right; split; [reflexivity|];
    first [ right; split; [reflexivity|]; first [ right; split; [reflexivity|lia] | left; lia ] | left; lia ]
  | left; lia ].
Ltac fin Est := unfold decr, lex4, pw, hand, kc, lr; cbn; rewrite ?Est; cbn;
  repeat match goal with H : queues _ !! _ = Some _ |- _ => rewrite H | H : ?b = _ |- context [if ?b then _ else _] => rewrite H end;
  lex_tac.
(* [f]: the update of the stepping actor's flags, if the step makes one *)
Ltac loc_all Ea Est :=
  lazymatch goal with
  | |- decr (mu (setstack (upda _ _ ?f) _ _)) _ => eapply (local_all _ _ _ _ f _ Ea); [done | ..]
  | _ => eapply (local_all _ _ _ _ id _ Ea); [by rewrite list_alter_id | ..]
  end;
  [ cbn; rewrite ?alter_length; done
  | intros ?; cbn; rewrite <- ?list_alter_compose; first [done | apply jobs_lookup_alter; done]
  | res_peel; fin Est ].
Ltac loc_pmk Ea Est :=
  lazymatch goal with
  | |- decr (mu (setstack (upda _ _ ?f) _ _)) _ => eapply (local_PMK _ _ _ _ f _ Ea); [done | ]
  | _ => eapply (local_PMK _ _ _ _ id _ Ea); [by rewrite list_alter_id | ]
  end; res_peel; fin Est.
Lemma res_updq_le s q f c : (forall x, length (f x).(jobs) <= length x.(jobs) + c) -> res (updq s q f) <= res s + 2 * c.
Proof.
  intros Hf. unfold res, updq; cbn. assert (H : forall l t, sum_list_with (fun qq : queue => length qq.(jobs)) (alter f t l) <= sum_list_with (fun qq => length qq.(jobs)) l + c).
  { induction l as [|x l IH]; intros [|t]; cbn; try lia; [specialize (Hf x)|specialize (IH t)]; lia. }
  specialize (H (queues s) q). lia.
Qed.
(* the account of the one queue / thread the step updates, as a hypothesis for [fin] *)
Ltac res_q Eq := lazymatch goal with |- context [updq ?X ?q ?f] => pose proof (res_updq X q f _ Eq) as HR; cbn in HR end.
Ltac res_t Et := lazymatch goal with |- context [updt ?X ?t ?f] =>
  pose proof (res_updt X t f _ Et) as HR; cbn in HR;
  repeat match type of HR with context [res (set ?fld ?g ?Y)] => change (res (set fld g Y)) with (res Y) in HR end end.
Ltac loc_push Ea Est :=
  lazymatch goal with |- context [updq ?X ?q ?f] => pose proof (res_updq_le X q f 1 ltac:(intros ?; cbn; rewrite app_length; cbn; lia)) as HR end;
  loc_pmk Ea Est.

Section Decr.
  Context (T : tables) (F : facts) (HB : bound_conditions T).

  (* the loops that end only when the caller's own job has run: the dequeue does not come back empty-handed before *)
  Lemma deq_flag s a ac q g rest qq : Good s -> s.(actors) !! a = Some ac -> ac.(stack) = FROdeq q :: g :: rest ->
    s.(queues) !! q = Some qq -> T.(t_dequeue_refuses) qq.(qs) = true \/ qq.(jobs) = [] ->
    (g = FSDloop q -> ac.(result) = true) /\ (g = FSBsteal q -> ac.(ready) = true).
  Proof.
    intros HG Ea Est Eq Hno.
    assert (H : ~ ((g = FSDloop q /\ ac.(result) = false) \/ (g = FSBsteal q /\ ac.(ready) = false))).
    { intros Hg. destruct (dequeue_succeeds T HB s a ac q g rest HG Ea Est Hg) as (qq' & j & l & G1 & G2 & G3).
      rewrite Eq in G1. injection G1 as <-. destruct Hno; congruence. }
    split; intros ->; [destruct (result ac)|destruct (ready ac)]; try done; destruct H; auto.
  Qed.

  Lemma step_decr s a s' : Good s -> step T F s a = Some s' -> decr (mu s') (mu s).
  Proof.
    intros HG (ac & fr & rest & m & new & Ea & Est & He & ->)%step_eff. pose proof (g_shape _ HG) as HS.
    pose proof (shape_top s a ac fr rest HS Ea Est) as Hsh.
    destruct He; shape_inv Hsh; cbn [app]; try destruct o.
    all: lazymatch goal with
      | |- decr (mu (setstack (run_job _ _ ?j) _ _)) _ => eapply (run_step_decr F s a ac _ _ j _ Ea Est); [done|done|intros r; cbn; lia]
      | |- decr (mu (setstack (updq (foldl (notify _) _ _) _ _) _ _)) _ =>
          eapply (notify_step_decr F s a ac _ _ _ _ _ _ Ea Est); [by unfold hand; rewrite Est|done|done|intros r; cbn; repeat case_match; lia]
      | |- decr (mu (setstack (spawn _) _ _)) _ =>
          eapply spawn_step_decr; [done|done|lia|done|done|done|intros r; cbn; lia|done]
      | _ => idtac end.
    all: lazymatch type of Est with
      (* a job is pushed: the weight decreases *)
      | _ = FD1 _ :: _ => loc_push Ea Est | _ = FSDpush _ :: _ => loc_push Ea Est
      (* the weight of the frames of sync_background depends on the ready flag *)
      | _ = FSBpush _ :: _ => destruct (ready ac) eqn:Hrdy; loc_push Ea Est
      | _ = FSBstealidle _ :: _ => destruct (ready ac) eqn:Hrdy; loc_pmk Ea Est
      | _ = FD2 _ :: _ => pose proof (res_sched s (sched s ++ [q])) as HR; rewrite app_length in HR; cbn in HR; loc_pmk Ea Est
      | _ = FRQ2 _ :: _ => pose proof (res_sched s (sched s ++ [q])) as HR; rewrite app_length in HR; cbn in HR; loc_pmk Ea Est
      | _ = FSTscan ?i :: _ =>
          try (pose proof (lookup_lt_Some _ _ _ Et)); try res_t Et;
          loc_all Ea Est
      | _ = FSBclaim ?q :: _ =>
          try (pose proof (res_sched s (filter (fun x => x <> q) (sched s))) as HR; pose proof (filter_length (fun x => x <> q) (sched s)));
          destruct (ready ac) eqn:Hrdy; loc_all Ea Est
      (* the dequeue of a loop that waits for the caller's own job *)
      | _ = FROdeq ?q :: _ :: _ =>
          lazymatch goal with
          | |- context [updq] => res_q Eq; rewrite Hjobs in HR; cbn in HR; loc_pmk Ea Est
          | _ => destruct (deq_flag s a ac q _ _ qq HG Ea Est Eq) as [Hf1 Hf2]; [by auto|]; try specialize (Hf1 eq_refl); try specialize (Hf2 eq_refl); loc_all Ea Est
          end
      | _ = FTrecv ?t :: _ => res_t Et; loc_pmk Ea Est
      | _ = FTexam _ :: _ => try (pose proof (res_sched s sc) as HR; rewrite Hsched in HR; cbn in HR); loc_all Ea Est
      | _ = FDRdeq ?q :: _ =>
          lazymatch goal with
          | |- context [updq] => res_q Eq; rewrite Hjobs in HR; cbn in HR; loc_pmk Ea Est
          | E : t_dequeue_refuses _ _ = true |- _ =>
              exfalso; pose proof (owner_not_refused T HB s a ac q qq HG Ea) as Hnr; rewrite Est in Hnr; cbn in Hnr;
              rewrite bool_decide_true in Hnr by done; specialize (Hnr ltac:(lia) Eq); congruence
          | _ => loc_all Ea Est
          end
      (* a drain that is not finished has seen a job *)
      | _ = FDRfin ?q :: _ =>
          lazymatch goal with
          | E : t_drain_fin _ _ _ = (_, false) |- _ =>
              destruct (jobs qq) eqn:Ej; [exfalso; rewrite bool_decide_true in E by done; by pose proof (b_fin_empty T HB _ _ _ E)|]; loc_all Ea Est
          | _ => destruct (jobs qq) eqn:Ej; loc_all Ea Est
          end
      (* the other loops: the local rank decreases *)
      | _ = FSTlock :: _ => loc_all Ea Est | _ = FSDloop _ :: _ => loc_all Ea Est | _ = FSBcheck _ :: _ => loc_all Ea Est
      | _ = FSBsteal _ :: _ => loc_all Ea Est | _ = FTlock _ :: _ => loc_all Ea Est | _ = FTnext _ :: _ => loc_all Ea Est
      | _ = FTrelnone _ :: _ => loc_all Ea Est | _ = FTrelsome _ _ :: _ => loc_all Ea Est
      (* the weight or the wake-up credit decreases *)
      | _ => loc_pmk Ea Est
      end.
  Qed.
End Decr.

Section Bound.
  Context (T : tables) (F : facts) (HT : own_conditions T) (HB : bound_conditions T).

  Theorem reachable_good nq mx scripts tr s :
    wf_scripts nq scripts -> run T F (init nq mx scripts) tr = Some s -> Good s.
  Proof. intros Hs Hr. eapply (run_good T F HT); [|exact Hr]. by apply init_good. Qed.

  Theorem reachable_step_decreases nq mx scripts tr s a s' :
    wf_scripts nq scripts -> run T F (init nq mx scripts) tr = Some s -> step T F s a = Some s' ->
    lex4 (mu s') (mu s).
  Proof. intros Hs Hr Hstep. eapply (step_decr T F HB); [|exact Hstep]. by eapply reachable_good. Qed.

  Definition succ_of (s' s : state) : Prop := Good s /\ exists a, step T F s a = Some s'.

  Theorem succ_wf : well_founded succ_of.
  Proof.
    assert (H : forall x, Acc lex4 x -> forall s, mu s = x -> Acc succ_of s).
    { induction 1 as [x _ IH]. intros s <-. constructor. intros s' (HG & a & Hstep).
      eapply IH; [|reflexivity]. by eapply (step_decr T F HB). }
    intros s. eapply H; [apply lex4_wf|reflexivity].
  Qed.

  Lemma no_infinite_run_from s : Good s -> ~ exists f : nat -> nat, forall n, is_Some (run T F s (f <$> seq 0 n)).
  Proof.
    induction (succ_wf s) as [s _ IH]. intros HG (f & Hf).
    destruct (Hf 1) as [s1 H1]. cbn in H1. unfold run in H1. cbn in H1.
    destruct (step T F s (f 0)) as [s1'|] eqn:Hstep; cbn in H1; [|done]. injection H1 as ->.
    apply (IH s1).
    - split; [done|]. by exists (f 0).
    - by eapply (step_good T F HT).
    - exists (fun n => f (S n)). intros n. specialize (Hf (S n)). change (seq 0 (S n)) with (0 :: seq 1 n) in Hf. rewrite fmap_cons, run_cons, Hstep in Hf.
      change (is_Some (run T F s1 (f <$> seq 1 n))) in Hf. by rewrite <- fmap_S_seq, <- list_fmap_compose in Hf.
  Qed.

  Theorem no_infinite_run nq mx scripts :
    wf_scripts nq scripts -> ~ exists f : nat -> nat, forall n, is_Some (run T F (init nq mx scripts) (f <$> seq 0 n)).
  Proof. intros Hs. apply no_infinite_run_from. by apply init_good. Qed.

  Theorem no_infinite_continuation nq mx scripts tr s :
    wf_scripts nq scripts -> run T F (init nq mx scripts) tr = Some s ->
    ~ exists f : nat -> nat, forall n, is_Some (run T F s (f <$> seq 0 n)).
  Proof. intros Hs Hr. apply no_infinite_run_from. by eapply reachable_good. Qed.

  Theorem no_cycle nq mx scripts tr s tr' :
    wf_scripts nq scripts -> run T F (init nq mx scripts) tr = Some s -> tr' <> [] -> run T F s tr' <> Some s.
  Proof.
    intros Hs Hr Hne Hcyc. pose proof (reachable_good _ _ _ _ _ Hs Hr) as HG.
    assert (Hle : forall tr2 s1 s2, Good s1 -> run T F s1 tr2 = Some s2 -> tr2 <> [] -> lex4 (mu s2) (mu s1)).
    { induction tr2 as [|a tr2 IH]; intros s1 s2 HG1 Hr2 Hn; [done|]. rewrite run_cons in Hr2.
      destruct (step T F s1 a) as [s1'|] eqn:Hstep; cbn in Hr2; [|done].
      pose proof (proj1 (step_decr T F HB _ _ _ HG1 Hstep)) as Hd. destruct tr2 as [|b tr2]; [cbn in Hr2; by injection Hr2 as <-|].
      assert (Hd2 : lex4 (mu s2) (mu s1')) by (eapply IH; [by eapply (step_good T F HT)|done|done]).
      destruct (mu s2) as (a1 & b1 & c1 & d1), (mu s1') as (a2 & b2 & c2 & d2), (mu s1) as (a3 & b3 & c3 & d3). unfold lex4 in *. lia. }
    specialize (Hle tr' s s HG Hcyc Hne). destruct (mu s) as (a1 & b1 & c1 & d1). unfold lex4 in Hle. lia.
  Qed.
End Bound.
