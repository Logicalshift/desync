(* L1b: the invariants the bound rests on, and the one consequence it needs: a caller that loops until its own job
   has run always finds a job to run. *)
From stdpp Require Import list numbers option.
From RecordUpdate Require Import RecordUpdate.
From L1 Require Import Model Own Shape Stuck Live Wait Final.
From L1b Require Import Measure JobLoc.

Record Good (s : state) : Prop := {
  g_shape : Shape s; g_wf : WF s; g_inv : Inv s; g_bg : GInv true s; g_dr : GInv false s;
}.

Section GoodStep.
  Context (T : tables) (F : facts) (HT : own_conditions T).

  Lemma step_good s a s' : Good s -> step T F s a = Some s' -> Good s'.
  Proof.
    intros [H1 H2 H3 H4 H5] Hs. split.
    - by eapply step_shape.
    - by eapply step_wf.
    - by eapply step_inv.
    - by eapply step_g.
    - by eapply step_g.
  Qed.

  Lemma init_good nq mx scripts : wf_scripts nq scripts -> Good (init nq mx scripts).
  Proof. intros Hs. split; [apply init_shape|by apply init_wf|apply init_inv|apply init_g|apply init_g]. Qed.

  Lemma run_good s tr s' : Good s -> run T F s tr = Some s' -> Good s'.
  Proof. apply (run_invariant T F Good step_good). Qed.
End GoodStep.

Lemma run_at_cnt s b ab q j : Shape s -> s.(actors) !! b = Some ab -> run_at q ab.(stack) j -> 1 <= cnt q ab.(stack).
Proof.
  intros HS Eb Hr. destruct (stack ab) as [|fr rest] eqn:Est; [by destruct Hr|].
  pose proof (shape_top s b ab fr rest HS Eb Est) as Hsh.
  destruct Hr as [Hr|Hr]; injection Hr as ->; shape_inv Hsh; cbn; rewrite bool_decide_true by done; lia.
Qed.

Lemma dequeue_succeeds (T : tables) (HB : bound_conditions T) s a ac q g rest :
  Good s -> s.(actors) !! a = Some ac -> ac.(stack) = FROdeq q :: g :: rest ->
  (g = FSDloop q /\ ac.(result) = false) \/ (g = FSBsteal q /\ ac.(ready) = false) ->
  exists qq j l, s.(queues) !! q = Some qq /\ T.(t_dequeue_refuses) qq.(qs) = false /\ qq.(jobs) = j :: l.
Proof.
  intros [HS HW HI HG1 HG0] Ea Est Hg.
  assert (Hq : exists qq, queues s !! q = Some qq).
  { pose proof (WF_self s a ac HW Ea) as Hwf. rewrite Est in Hwf. cbn in Hwf. apply andb_true_iff in Hwf as [Hwf _].
    apply bool_decide_eq_true in Hwf. by apply lookup_lt_is_Some_2. }
  destruct Hq as [qq Eq].
  assert (Hown : qq.(owner) = Some a /\ qq.(qs) = Running).
  { apply (cnt_owner s a ac q qq HI Ea); [|done]. rewrite Est. destruct Hg as [[-> _]|[-> _]]; cbn; rewrite bool_decide_true by done; lia. }
  destruct Hown as [Hown Hrun].
  assert (Hloc : exists k, locq k s a q).
  { destruct Hg as [[-> Hf]|[-> Hf]]; [exists false; apply (HG0 a ac q Ea)|exists true; apply (HG1 a ac q Ea)]; by rewrite ?Est. }
  destruct Hloc as (k & Hloc).
  assert (Hne : qq.(jobs) <> []).
  { destruct Hloc as [(qq' & j & G1 & G2 & _)|(b & st & j & G1 & G2 & _)].
    - rewrite Eq in G1. injection G1 as <-. intros E. rewrite E in G2. by apply elem_of_nil in G2.
    - (* an actor that holds a job of q in its hand owns q: it is a itself, which is at FROdeq *)
      exfalso. rewrite stacks_lookup in G1. destruct (actors s !! b) as [ab|] eqn:Eb; [|done]. injection G1 as <-.
      destruct (cnt_owner s b ab q qq HI Eb (run_at_cnt s b ab q j HS Eb G2) Eq) as [Hb _].
      assert (b = a) by congruence. subst b. rewrite Ea in Eb. injection Eb as <-. rewrite Est in G2. destruct G2 as [G2|G2]; done. }
  destruct (jobs qq) as [|j l] eqn:Ej; [done|]. exists qq, j, l. split; [done|]. split; [|done]. rewrite Hrun. apply (b_deq_running _ HB).
Qed.
