(* L-bound, non-vacuity: concrete runs of programs that use desync, sync (immediate, draining and waiting in the
   background) and try_sync; the measure is computed along the run and decreases at every step until the state is
   terminal and complete. *)
From stdpp Require Import list numbers option list_numbers.
From L1 Require Import Model Own Shape Stuck Final.
From L1b Require Import Measure Sums Explicit.

(* the hand-written tables of L1/Model.v with try_sync repaired: the runs exercise the model; the tables generated
   from the source are instantiated in Inst.v *)
Definition T0 := fixed_trysync orig_tables.

Fixpoint first_enabled (T : tables) (F : facts) (s : state) (n start k : nat) : option (nat * state) :=
  match k with
  | 0 => None
  | S k' => let a := start mod n in
            match step T F s a with Some s' => Some (a, s') | None => first_enabled T F s n (S start) k' end
  end.
(* returns the trace, the final state, and whether every step decreased the measure *)
Fixpoint auto (T : tables) (F : facts) (fuel seed : nat) (s : state) (acc : list nat) (ok : bool) : list nat * state * bool :=
  match fuel with
  | 0 => (rev acc, s, ok)
  | S f => let n := length s.(actors) in
           match first_enabled T F s n (seed * 7 + length acc * 13 + (seed * length acc) mod 5) n with
           | None => (rev acc, s, ok)
           | Some (a, s') => auto T F f seed s' (a :: acc) (ok && lex4b (mu s') (mu s))
           end
  end.

Definition F_sticky := {| f_dormant_blocks := true; f_sticky_notify := true |}.
Definition F_plain := {| f_dormant_blocks := true; f_sticky_notify := false |}.
Definition prog : list (list op) :=
  [[OSync 0; ODesync 0; OSync 1]; [ODesync 0; OSync 0; OTrySync 0]; [OSync 0; OSync 0; ODesync 1]; [ODesync 1; OSync 1; OSync 0]].

Definition passes_through (T : tables) (F : facts) (s : state) (tr : list nat) (p : state -> bool) : bool :=
  (fix go (s : state) (tr : list nat) : bool :=
     p s || match tr with [] => false | a :: tr => match step T F s a with Some s' => go s' tr | None => false end end) s tr.
Definition someone_at (p : frame -> bool) (s : state) : bool :=
  existsb (fun ac => match ac.(stack) with fr :: _ => p fr | [] => false end) s.(actors).

(* pool of two threads, sticky notification: 149 steps, every one decreases the measure, the end is complete; on the
   way some caller went through the claim of sync_background and some pool thread drained a queue *)
Example ex_run_pool2 :
  let '(tr, s, ok) := auto T0 F_sticky 5000 0 (init 2 2 prog) [] true in
  run T0 F_sticky (init 2 2 prog) tr = Some s /\ length tr = 149 /\ ok = true /\
  terminal_b T0 F_sticky s = true /\ complete s = true /\
  mu (init 2 2 prog) = (192, (2, (0, 0))) /\ mu s = (0, (0, (0, 2))) /\
  passes_through T0 F_sticky (init 2 2 prog) tr (someone_at (fun fr => match fr with FSBclaim _ => true | _ => false end)) = true /\
  passes_through T0 F_sticky (init 2 2 prog) tr (someone_at (fun fr => match fr with FDRrun _ _ => true | _ => false end)) = true.
Proof. vm_compute. repeat split; reflexivity. Qed.

(* no pool thread at all, plain condition-variable notification *)
Example ex_run_pool0 :
  let '(tr, s, ok) := auto T0 F_plain 5000 3 (init 2 0 prog) [] true in
  run T0 F_plain (init 2 0 prog) tr = Some s /\ ok = true /\ terminal_b T0 F_plain s = true /\ 100 <= length tr.
Proof. vm_compute. repeat split; try reflexivity. lia. Qed.

(* the explicit bound for this program and pool size: 16 * 12 * 7098 + 2 * 1183 = 1365182 (the run above has 149 steps) *)
Example ex_bound_value :
  total_ops prog = 12 /\ Kb 2 prog = 12 /\ Lb 2 prog = 90 /\ W2 (Kb 2 prog) (Lb 2 prog) = 1183 /\ W1 (Kb 2 prog) (Lb 2 prog) = 7098 /\
  L1_bound 2 prog = 16 * total_ops prog * W1 (Kb 2 prog) (Lb 2 prog) + 2 * W2 (Kb 2 prog) (Lb 2 prog) + 0 * W3 (Lb 2 prog) + 0.
Proof. repeat split; reflexivity. Qed.
