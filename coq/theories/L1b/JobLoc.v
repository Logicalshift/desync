(* L1b: where is the job of a caller that loops until its own job has run?
   [k = true]: a waiter of sync_background (flag `ready`, positions of Wait.wp_q, jobs JSyncBg);
   [k = false]: a draining sync (flag `result`, frames FSDloop and its callees, jobs JSyncDrain).
   While the flag is false the job is in the queue the caller works on, or in the hand of an actor that runs THAT
   queue: the invariant LInv of L1/Wait.v with the tie (Wait.JInv is its instance without). *)
From stdpp Require Import list numbers option.
From L1 Require Import Model Own Shape Stuck Live Wait.

Definition dp_q (st : list frame) : option nat :=
  match st with
  | FSDloop q :: _ => Some q
  | _ :: FSDloop q :: _ => Some q
  | _ => None
  end.
Definition run_at (q : nat) (st : list frame) (j : job) : Prop :=
  hd_error st = Some (FROrun q j) \/ hd_error st = Some (FDRrun q j).

Section Kind.
  Context (k : bool).
  Definition flg (ac : actor) : bool := if k then ac.(ready) else ac.(result).
  Definition pos (st : list frame) : option nat := if k then wp_q st else dp_q st.
  Definition mine (w : nat) (j : job) : bool :=
    match j with
    | JSyncBg _ c => k && bool_decide (c = w)
    | JSyncDrain _ c => negb k && bool_decide (c = w)
    | JPlain _ => false
    end.
  Definition locq (s : state) (w q : nat) : Prop :=
    (exists qq j, s.(queues) !! q = Some qq /\ j ∈ qq.(jobs) /\ mine w j = true) \/
    (exists b st j, stacks s !! b = Some st /\ run_at q st j /\ mine w j = true).
  Definition GInv (s : state) : Prop :=
    forall w ac q, s.(actors) !! w = Some ac -> pos ac.(stack) = Some q -> flg ac = false -> locq s w q.

  Lemma locq_jloc s w q : locq s w q <-> jloc k true s w q.
  Proof.
    split; (intros [H|H]; [by left|right]).
    - destruct H as (b & st & j & H1 & H2 & H3). by exists b, st, q, j.
    - destruct H as (b & st & q' & j & H1 & H2 & H3 & H4). rewrite H3 in H2 by done. by exists b, st, j.
  Qed.
  Lemma GInv_LInv s : GInv s <-> LInv k true false s.
  Proof.
    split.
    - intros H w ac Hw. split; [|done]. intros q Hq Hf. apply locq_jloc. by apply (H w ac).
    - intros H w ac q Hw Hq Hf. apply locq_jloc. by apply (H w ac Hw).
  Qed.

  Lemma step_g T F s a s' : Shape s -> WF s -> GInv s -> step T F s a = Some s' -> GInv s'.
  Proof. intros HS HW HG%GInv_LInv Hstep. apply GInv_LInv. by apply (step_l T F k true false ltac:(done) s a s'). Qed.
  Lemma init_g nq mx scripts : GInv (init nq mx scripts).
  Proof.
    intros w ac q Hw Hq. unfold init in Hw; cbn in Hw. rewrite list_lookup_fmap in Hw. destruct (scripts !! w); [|done]. injection Hw as <-.
    unfold pos in Hq. by destruct k.
  Qed.
End Kind.
