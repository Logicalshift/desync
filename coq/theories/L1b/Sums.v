(* L1b: sums over lists that are compared pointwise; the lexicographic order is well founded. *)
From stdpp Require Import list numbers option list_numbers.
From Coq Require Import Wellfounded.
From L1b Require Import Measure.

Section Sums.
  Context {A : Type}.
  Implicit Types (f g : A -> nat) (l : list A).

  Lemma sum_pointwise_le f g l l' :
    length l' = length l ->
    (forall i x y, l !! i = Some x -> l' !! i = Some y -> g y <= f x) ->
    sum_list_with g l' <= sum_list_with f l.
  Proof.
    revert l'. induction l as [|x l IH]; intros [|y l'] Hlen H; cbn in *; try done.
    pose proof (H 0 x y eq_refl eq_refl). assert (sum_list_with g l' <= sum_list_with f l); [|lia].
    apply IH; [lia|]. intros i x' y' H1 H2. by apply (H (S i)).
  Qed.

  Lemma sum_pointwise_lt f g l l' a x y :
    length l' = length l ->
    (forall i x y, l !! i = Some x -> l' !! i = Some y -> g y <= f x) ->
    l !! a = Some x -> l' !! a = Some y -> g y < f x ->
    sum_list_with g l' < sum_list_with f l.
  Proof.
    revert l' a. induction l as [|x0 l IH]; intros [|y0 l'] a Hlen H Hx Hy Hlt; cbn in *; try done.
    destruct a as [|a]; cbn in *.
    - injection Hx as ->. injection Hy as ->.
      assert (sum_list_with g l' <= sum_list_with f l); [|lia].
      apply sum_pointwise_le; [lia|]. intros i x' y' H1 H2. by apply (H (S i)).
    - pose proof (H 0 x0 y0 eq_refl eq_refl). assert (sum_list_with g l' < sum_list_with f l); [|lia].
      eapply (IH l' a); [lia| |done|done|done]. intros i x' y' H1 H2. by apply (H (S i)).
  Qed.

  Lemma sum_pointwise_eq f g l l' :
    length l' = length l ->
    (forall i x y, l !! i = Some x -> l' !! i = Some y -> g y = f x) ->
    sum_list_with g l' = sum_list_with f l.
  Proof.
    revert l'. induction l as [|x l IH]; intros [|y l'] Hlen H; cbn in *; try done.
    rewrite (H 0 x y eq_refl eq_refl). f_equal. apply IH; [lia|]. intros i x' y' H1 H2. by apply (H (S i)).
  Qed.

  Lemma sum_alter f (h : A -> A) l a x :
    l !! a = Some x -> sum_list_with f (alter h a l) + f x = sum_list_with f l + f (h x).
  Proof.
    revert a. induction l as [|x0 l IH]; intros [|a] Hx; cbn in *; try done.
    - injection Hx as ->. lia.
    - specialize (IH a Hx). lia.
  Qed.
End Sums.

Lemma lex4_intro a b c d a' b' c' d' :
  a <= a' -> (a = a' -> b < b' \/ (b <= b' /\ (b = b' -> c < c' \/ (c <= c' /\ (c = c' -> d < d'))))) ->
  lex4 (a, (b, (c, d))) (a', (b', (c', d'))).
Proof. unfold lex4. intros H1 H2. destruct (decide (a = a')) as [->|]; [|lia]. right. split; [done|]. specialize (H2 eq_refl). lia. Qed.

Lemma lex4b_spec x y : lex4b x y = true <-> lex4 x y.
Proof.
  destruct x as (a & b & c & d), y as (a' & b' & c' & d'). unfold lex4b, lex4.
  rewrite !orb_true_iff, !andb_true_iff, !orb_true_iff, !andb_true_iff, !orb_true_iff, !andb_true_iff, !Nat.ltb_lt, !Nat.eqb_eq. done.
Qed.

Definition code4 (x : nat * (nat * (nat * nat))) : nat * nat * nat * nat := let '(a, (b, (c, d))) := x in (a, b, c, d).

Lemma lex4_wf : well_founded lex4.
Proof.
  assert (H : forall a b c d, Acc lex4 (a, (b, (c, d)))).
  { induction a as [a IHa] using lt_wf_ind. induction b as [b IHb] using lt_wf_ind.
    induction c as [c IHc] using lt_wf_ind. induction d as [d IHd] using lt_wf_ind.
    constructor. intros (a' & b' & c' & d') Hlt. unfold lex4 in Hlt.
    destruct Hlt as [Hlt|(-> & [Hlt|(-> & [Hlt|(-> & Hlt)])])].
    - by apply IHa.
    - by apply IHb.
    - by apply IHc.
    - by apply IHd. }
  intros (a & b & c & d). apply H.
Qed.
