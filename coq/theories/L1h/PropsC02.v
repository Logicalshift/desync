(* C02 - call order is execution order.  Layer L1 (desync / sync / try_sync; queue run by a pool thread, by a draining sync
   caller or by a stealing waiter), for every program, number of objects, pool maximum and schedule.

   The history [hist T F s0 tr] of a run is computed by the observer of L1h/Hist.v from the unmodified model:
   Call i q k (the API call starts and gets the global id i), Push i q (its job is appended to q's queue; an immediate
   sync: push-and-take), Run i q (its closure runs, atomically), Ret i (the call returns to its script).
   [before e1 e2 h]: e1 occurs in h, and e2 occurs later.  [rev (ran s)] is the model's own record of closures run.

   Fully proved.  Table conditions: own_conditions (L1/Own.v) and imm_conditions (L1h/Sim.v). *)
From stdpp Require Import list numbers option.
From L0 Require Import Types.
From Gen Require Import Tables.
From L1 Require Import Model Own Shape Stuck.
From L1h Require Import Hist Abs Sim HistFacts Main Examples.

(* If operation A on object q returned before operation B on q was called, and B has run,
   then A has run, and ran before B - whatever kinds A and B are and whoever ran the queue. *)
Theorem C02_call_order_is_run_order_L1 :
  forall (T : tables) (F : facts), own_conditions T -> imm_conditions T ->
  forall nq mx scripts tr s A B q ka kb,
    run T F (init nq mx scripts) tr = Some s ->
    let h := hist T F (init nq mx scripts) tr in
    Call A q ka ∈ h -> before (Ret A) (Call B q kb) h ->
    forall qb, Run B qb ∈ h -> qb = q /\ before (Run A q) (Run B q) h.
Proof. exact call_order_is_run_order. Qed.

(* the same on the model's ghost list [ran] *)
Theorem C02_call_order_is_run_order_ran_L1 :
  forall (T : tables) (F : facts), own_conditions T -> imm_conditions T ->
  forall nq mx scripts tr s A B q ka kb,
    run T F (init nq mx scripts) tr = Some s ->
    let h := hist T F (init nq mx scripts) tr in
    Call A q ka ∈ h -> before (Ret A) (Call B q kb) h ->
    B ∈ ran s -> exists l1 l2 l3, rev (ran s) = l1 ++ A :: l2 ++ B :: l3.
Proof. exact call_order_is_run_order_ran. Qed.

(* the queue law (INV-B and INV-C of DESIGN.md section 4): per object, the push sequence is the run sequence, followed by the job the current
   owner holds in its hand (FROrun / FDRrun / FSIrun), followed by the stored jobs; and the history agrees with [ran] *)
Theorem C02_queue_law_L1 :
  forall (T : tables) (F : facts), own_conditions T -> imm_conditions T ->
  forall nq mx scripts tr s q,
    run T F (init nq mx scripts) tr = Some s ->
    let h := hist T F (init nq mx scripts) tr in
    pushed h q = ranq h q ++ (job_id <$> pend s q) /\ rev (ran s) = runs h.
Proof. intros T F HT HI nq mx scripts tr s q Hr. by destruct (reach_facts T F HT HI nq mx scripts tr s Hr) as (_ & H1 & H2 & _). Qed.

Print Assumptions C02_call_order_is_run_order_L1.
Print Assumptions C02_call_order_is_run_order_ran_L1.
Print Assumptions C02_queue_law_L1.

(* non-vacuity: in run A (three callers, generated tables) the desync 1 of caller 1 and the desync 0 of caller 0 return
   before caller 0 calls its sync 5; all of them run; the theorem orders them *)
Example C02_hypotheses_hold :
  let h := hist gen_tables gen_facts exA_init exA_trace in
  (exists s, run gen_tables gen_facts exA_init exA_trace = Some s) /\
  Call 1 0 KDesync ∈ h /\ before (Ret 1) (Call 5 0 KSync) h /\
  Call 0 0 KDesync ∈ h /\ before (Ret 0) (Call 5 0 KSync) h /\ Run 5 0 ∈ h.
Proof.
  cbv zeta. rewrite exA_hist_ok. split; [destruct exA_run_ok as (s & H & _); exists s; exact H|].
  repeat split; first [apply elem_of_b_true|apply before_b_true]; vm_compute; reflexivity.
Qed.
