(* L1h: order and exactly-once theorems for every run of the (unmodified) L1 model *)
From stdpp Require Import list numbers option.
From RecordUpdate Require Import RecordUpdate.
From L1 Require Import Model Own Stuck Live Final.
From L1h Require Import Hist Abs SimBase Sim HistFacts AInv Reach Order.

Lemma complete_pend s : Inv s -> complete s = true -> forall q, pend s q = [].
Proof.
  intros HI Hc q. unfold complete in Hc. apply andb_true_iff in Hc as [Hc _]. apply andb_true_iff in Hc as [_ Hc].
  unfold pend, oj. destruct (queues s !! q) as [qq|] eqn:E; [|done]. cbn.
  rewrite forallb_forall in Hc. specialize (Hc qq). rewrite <- elem_of_list_In in Hc. specialize (Hc (elem_of_list_lookup_2 _ _ _ E)).
  destruct (qs qq) eqn:Es; try done. destruct (jobs qq) eqn:Ej; [|done].
  rewrite (acq_free s q qq HI E) by (by rewrite Es). done.
Qed.

Lemma runs_before i j q q' h : before (Run i q) (Run j q') h -> exists l1 l2 l3, runs h = l1 ++ i :: l2 ++ j :: l3.
Proof. intros (h1 & h2 & h3 & ->). exists (runs h1), (runs h2), (runs h3). rewrite runs_app. cbn. rewrite runs_app. done. Qed.

Section Main.
  Context (T : tables) (F : facts) (HT : own_conditions T) (HI : imm_conditions T).
  Context (nq mx : nat) (scripts : list (list op)).

  Lemma reach_facts tr s : run T F (init nq mx scripts) tr = Some s ->
    HGood (hist T F (init nq mx scripts) tr) /\
    (forall q, pushed (hist T F (init nq mx scripts) tr) q = ranq (hist T F (init nq mx scripts) tr) q ++ (job_id <$> pend s q)) /\
    runs (hist T F (init nq mx scripts) tr) = rev (ran s) /\ Inv s.
  Proof.
    intros Hr. destruct (reachable_hinv T F HT HI nq mx scripts tr s Hr) as [H1 H2 H3 H4]. cbn [fst snd] in *.
    destruct H4 as [I1 I2 I3 I4 I5 I6 I7]. done.
  Qed.
  Lemma reach_prefix tr s : run T F (init nq mx scripts) tr = Some s ->
    forall q, exists P, pushed (hist T F (init nq mx scripts) tr) q = ranq (hist T F (init nq mx scripts) tr) q ++ P.
  Proof. intros Hr q. destruct (reach_facts tr s Hr) as (_ & H & _). eexists. apply H. Qed.

  (* the queue law (INV-B and INV-C of DESIGN.md section 4): per object, pushed = ran ++ in hand ++ stored, in this order *)
  Theorem queue_law tr s q : run T F (init nq mx scripts) tr = Some s ->
    pushed (hist T F (init nq mx scripts) tr) q = ranq (hist T F (init nq mx scripts) tr) q ++ (job_id <$> pend s q).
  Proof. intros Hr. by destruct (reach_facts tr s Hr) as (_ & H & _). Qed.
  Theorem history_good tr s : run T F (init nq mx scripts) tr = Some s -> HGood (hist T F (init nq mx scripts) tr).
  Proof. intros Hr. by destruct (reach_facts tr s Hr) as (H & _). Qed.

  Lemma in_ran_runs tr s i : run T F (init nq mx scripts) tr = Some s -> i ∈ ran s <-> i ∈ runs (hist T F (init nq mx scripts) tr).
  Proof. intros Hr. destruct (reach_facts tr s Hr) as (_ & _ & -> & _). by rewrite elem_of_rev. Qed.

  (* C02 *)
  Theorem call_order_is_run_order tr s A B q ka kb :
    run T F (init nq mx scripts) tr = Some s ->
    Call A q ka ∈ hist T F (init nq mx scripts) tr ->
    before (Ret A) (Call B q kb) (hist T F (init nq mx scripts) tr) ->
    forall qb, Run B qb ∈ hist T F (init nq mx scripts) tr ->
      qb = q /\ before (Run A q) (Run B q) (hist T F (init nq mx scripts) tr).
  Proof.
    intros Hr. destruct (reach_facts tr s Hr) as (Hg & _). apply order_C02; [done|]. by eapply reach_prefix.
  Qed.
  Corollary call_order_is_run_order_ran tr s A B q ka kb :
    run T F (init nq mx scripts) tr = Some s ->
    Call A q ka ∈ hist T F (init nq mx scripts) tr ->
    before (Ret A) (Call B q kb) (hist T F (init nq mx scripts) tr) ->
    B ∈ ran s -> exists l1 l2 l3, rev (ran s) = l1 ++ A :: l2 ++ B :: l3.
  Proof.
    intros Hr Hc Hb HB. destruct (reach_facts tr s Hr) as (_ & _ & <- & _). apply (in_ran_runs tr s B Hr) in HB.
    apply elem_of_runs in HB as [qb HB]. destruct (call_order_is_run_order tr s A B q ka kb Hr Hc Hb qb HB) as [_ H]. by eapply runs_before.
  Qed.

  (* C03 *)
  Theorem exactly_once tr s :
    run T F (init nq mx scripts) tr = Some s ->
    NoDup (ran s) /\ NoDup (pushed_all (hist T F (init nq mx scripts) tr)) /\
    (forall i, i ∈ ran s -> exists q, before (Push i q) (Run i q) (hist T F (init nq mx scripts) tr)).
  Proof.
    intros Hr. destruct (reach_facts tr s Hr) as (Hg & Hq & Hruns & _).
    destruct (once_C03 _ Hg (reach_prefix tr s Hr)) as (N1 & N2 & N3). split; [|split; [done|]].
    - apply NoDup_rev_iff. by rewrite <- Hruns.
    - intros i Hi. apply (in_ran_runs tr s i Hr) in Hi. apply elem_of_runs in Hi as [q Hi]. exists q. by apply N3.
  Qed.

  Theorem nothing_lost (HK : core_tables T) (HF : F.(f_dormant_blocks) = true) (Hwf : wf_scripts nq scripts) (Hmx : 1 <= mx) tr s :
    run T F (init nq mx scripts) tr = Some s -> terminal T F s ->
    (forall q, pushed (hist T F (init nq mx scripts) tr) q = ranq (hist T F (init nq mx scripts) tr) q) /\
    (forall i q, Push i q ∈ hist T F (init nq mx scripts) tr -> Run i q ∈ hist T F (init nq mx scripts) tr /\ i ∈ ran s) /\
    NoDup (ran s).
  Proof.
    intros Hr Hterm. destruct (reach_facts tr s Hr) as (Hg & Hq & Hruns & Hinv).
    pose proof (L_quiet T F HK HT HF nq mx scripts tr s Hwf Hmx Hr Hterm) as Hc.
    assert (Hall : forall q, pushed (hist T F (init nq mx scripts) tr) q = ranq (hist T F (init nq mx scripts) tr) q).
    { intros q. rewrite Hq, (complete_pend s Hinv Hc q). cbn. by rewrite app_nil_r. }
    split; [done|]. split; [|by apply (exactly_once tr s Hr)].
    intros i q Hp. apply elem_of_pushed in Hp. rewrite Hall in Hp. apply elem_of_ranq in Hp. split; [done|].
    apply (in_ran_runs tr s i Hr). apply elem_of_runs. eauto.
  Qed.

  (* C04 *)
  Theorem sync_runs_own_closure tr s i q k :
    run T F (init nq mx scripts) tr = Some s -> k <> KDesync ->
    Call i q k ∈ hist T F (init nq mx scripts) tr -> Ret i ∈ hist T F (init nq mx scripts) tr ->
    exists h1 h2 h3 h4, hist T F (init nq mx scripts) tr = h1 ++ Call i q k :: h2 ++ Run i q :: h3 ++ Ret i :: h4 /\ i ∉ runs (h1 ++ h2 ++ h3 ++ h4).
  Proof. intros Hr. destruct (reach_facts tr s Hr) as (Hg & _). apply sync_C04; [done|]. by eapply reach_prefix. Qed.
  Theorem busy_never_runs tr s i :
    run T F (init nq mx scripts) tr = Some s -> RetBusy i ∈ hist T F (init nq mx scripts) tr ->
    i ∉ ran s /\ i ∉ pushed_all (hist T F (init nq mx scripts) tr).
  Proof.
    intros Hr Hb. destruct (reach_facts tr s Hr) as (Hg & _ & Hruns & _). destruct (busy_C04 _ Hg (reach_prefix tr s Hr) i Hb) as [H1 H2].
    split; [|done]. by rewrite (in_ran_runs tr s i Hr).
  Qed.

  (* ... nor later in the run *)
  Corollary busy_never_runs_later tr1 tr2 s' i :
    run T F (init nq mx scripts) (tr1 ++ tr2) = Some s' -> RetBusy i ∈ hist T F (init nq mx scripts) tr1 ->
    i ∉ ran s' /\ i ∉ pushed_all (hist T F (init nq mx scripts) (tr1 ++ tr2)).
  Proof.
    intros Hr Hb. destruct (hist_prefix T F _ _ _ _ Hr) as [h2 Hh].
    apply (busy_never_runs (tr1 ++ tr2) s' i Hr). rewrite Hh. apply elem_of_app. by left.
  Qed.

  (* the result protocol: a waiting sync caller whose result / ready flag is set has had its own closure run,
     and a queued or dequeued sync job belongs to the current operation of a caller that is still waiting *)
  Theorem result_flag_is_own tr s :
    run T F (init nq mx scripts) tr = Some s ->
    (forall a ac q, s.(actors) !! a = Some ac -> aph ac.(stack) = PWait q ->
                    (ac.(result) = true \/ ac.(ready) = true) -> ac.(opctr) ∈ ran s) /\
    (forall q j o c, j ∈ pend s q -> (j = JSyncDrain o c \/ j = JSyncBg o c) ->
                     exists ac q', s.(actors) !! c = Some ac /\ ac.(opctr) = o /\ aph ac.(stack) = PWait q' /\ o ∉ ran s).
  Proof.
    intros Hr. destruct (reachable_hinv T F HT HI nq mx scripts tr s Hr) as [H1 H2 H3 H4]. cbn [fst snd] in *. split.
    - intros a ac q Ea Hp Hfl. pose proof (ai_acts _ _ H4 a (aact ac) (acts_lookup s a ac Ea)) as Hok.
      unfold act_ok in Hok. cbn in Hok. rewrite Hp in Hok. destruct Hok as (_ & _ & _ & Hok). by apply Hok.
    - intros q j o c Hj Hs. destruct (ai_job _ _ H4 q j o c Hj Hs) as (x & q' & Hx & Ho & Hp).
      cbn in Hx. unfold acts in Hx. rewrite list_lookup_fmap in Hx. destruct (actors s !! c) as [ac|]; [|done]. injection Hx as <-.
      exists ac, q'. repeat split; try done. pose proof (pend_not_ran _ _ H4 q j Hj) as Hn. by destruct Hs as [-> | ->].
  Qed.

  (* C05 *)
  Theorem drop_after_returned tr s A D q ka :
    run T F (init nq mx scripts) tr = Some s ->
    Call A q ka ∈ hist T F (init nq mx scripts) tr ->
    before (Ret A) (Call D q KSync) (hist T F (init nq mx scripts) tr) ->
    forall h3 h4, hist T F (init nq mx scripts) tr = h3 ++ Run D q :: h4 -> Run A q ∈ h3.
  Proof.
    intros Hr Hc Hb h3 h4 Hh. destruct (reach_facts tr s Hr) as (Hg & _).
    assert (HrD : Run D q ∈ hist T F (init nq mx scripts) tr) by (rewrite Hh; apply elem_of_app; right; by left).
    destruct (call_order_is_run_order tr s A D q ka KSync Hr Hc Hb q HrD) as [_ Hbe].
    eapply before_split; [by apply hg_nodup|exact Hbe|exact Hh].
  Qed.
  Theorem drop_runs_last tr s D q h1 h2 :
    run T F (init nq mx scripts) tr = Some s ->
    hist T F (init nq mx scripts) tr = h1 ++ Call D q KSync :: h2 ->
    (forall B k, B <> D -> Call B q k ∈ hist T F (init nq mx scripts) tr -> finished B h1) ->
    forall h3 h4, hist T F (init nq mx scripts) tr = h3 ++ Run D q :: h4 ->
      (forall B, B <> D -> Push B q ∈ hist T F (init nq mx scripts) tr -> Run B q ∈ h3) /\ (forall B, Run B q ∉ h4).
  Proof.
    intros Hr. destruct (reach_facts tr s Hr) as (Hg & _). apply last_C05; [done|]. by eapply reach_prefix.
  Qed.
End Main.

(* a checkable form of "no thread can move", for the examples *)
Lemma terminal_b_sound T F s : terminal_b T F s = true -> terminal T F s.
Proof.
  intros H a. unfold terminal_b in H. rewrite forallb_forall in H.
  destruct (decide (a < length (actors s))) as [Hlt|Hge].
  - assert (Hin : In a (seq 0 (length (actors s)))) by (apply in_seq; lia). specialize (H a Hin). by destruct (step T F s a).
  - unfold step. rewrite (proj2 (lookup_ge_None _ _)) by lia. done.
Qed.
