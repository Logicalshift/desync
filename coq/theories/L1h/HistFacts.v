(* L1h: well-formed histories and what follows from well-formedness (pure list reasoning) *)
From stdpp Require Import list numbers option.
From L1h Require Import Hist.

Lemma elem_of_rev {A} (l : list A) x : x ∈ rev l <-> x ∈ l.
Proof. rewrite !elem_of_list_In. symmetry. apply in_rev. Qed.
Lemma NoDup_rev_iff {A} (l : list A) : NoDup (rev l) <-> NoDup l.
Proof. rewrite !NoDup_ListNoDup. split; intros H; [rewrite <- rev_involutive|]; by apply NoDup_rev. Qed.

Lemma pushed_app h1 h2 q : pushed (h1 ++ h2) q = pushed h1 q ++ pushed h2 q. Proof. apply omap_app. Qed.
Lemma pushed_all_app h1 h2 : pushed_all (h1 ++ h2) = pushed_all h1 ++ pushed_all h2. Proof. apply omap_app. Qed.
Lemma ranq_app h1 h2 q : ranq (h1 ++ h2) q = ranq h1 q ++ ranq h2 q. Proof. apply omap_app. Qed.
Lemma runs_app h1 h2 : runs (h1 ++ h2) = runs h1 ++ runs h2. Proof. apply omap_app. Qed.

Lemma elem_of_pushed h q i : i ∈ pushed h q <-> Push i q ∈ h.
Proof.
  unfold pushed. rewrite elem_of_list_omap. split.
  - intros (e & He & Hf). destruct e; try done. case_decide; [|done]. injection Hf as ->. by subst.
  - intros H. exists (Push i q). split; [done|]. by rewrite decide_True.
Qed.
Lemma elem_of_pushed_all h i : i ∈ pushed_all h <-> exists q, Push i q ∈ h.
Proof.
  unfold pushed_all. rewrite elem_of_list_omap. split.
  - intros (e & He & Hf). destruct e; try done. injection Hf as ->. eauto.
  - intros (q & H). by exists (Push i q).
Qed.
Lemma elem_of_ranq h q i : i ∈ ranq h q <-> Run i q ∈ h.
Proof.
  unfold ranq. rewrite elem_of_list_omap. split.
  - intros (e & He & Hf). destruct e; try done. case_decide; [|done]. injection Hf as ->. by subst.
  - intros H. exists (Run i q). split; [done|]. by rewrite decide_True.
Qed.
Lemma elem_of_runs h i : i ∈ runs h <-> exists q, Run i q ∈ h.
Proof.
  unfold runs. rewrite elem_of_list_omap. split.
  - intros (e & He & Hf). destruct e; try done. injection Hf as ->. eauto.
  - intros (q & H). by exists (Run i q).
Qed.
Lemma finished_app i h1 h2 : finished i (h1 ++ h2) <-> finished i h1 \/ finished i h2.
Proof. unfold finished. rewrite !elem_of_app. tauto. Qed.

(* what must be true of the history before an event *)
Definition good (e : hevent) (h1 : list hevent) : Prop :=
  match e with
  | Call i q k => forall e', e' ∈ h1 -> ev_id e' < i
  | Push i q => (exists k, Call i q k ∈ h1) /\ i ∉ pushed_all h1 /\ ~ finished i h1
  | Run i q => Push i q ∈ h1 /\ i ∉ runs h1
  | Ret i => i ∈ pushed_all h1 /\ (forall q k, Call i q k ∈ h1 -> k <> KDesync -> i ∈ runs h1) /\ ~ finished i h1
  | RetBusy i => (exists q, Call i q KTry ∈ h1) /\ i ∉ pushed_all h1 /\ ~ finished i h1
  | RetPanic i => ~ finished i h1
  end.
Definition HGood (h : list hevent) : Prop := forall h1 e h2, h = h1 ++ e :: h2 -> good e h1.

Lemma HGood_nil : HGood [].
Proof. intros h1 e h2 H. by destruct h1. Qed.
Lemma HGood_snoc h e : HGood h -> good e h -> HGood (h ++ [e]).
Proof.
  intros Hg He h1 e' h2 Heq. destruct h2 as [|x h2 _] using rev_ind.
  - apply app_inj_tail in Heq as [-> ->]. done.
  - rewrite app_comm_cons, app_assoc in Heq. apply app_inj_tail in Heq as [-> _]. by eapply Hg.
Qed.
Lemma HGood_prefix h1 h2 : HGood (h1 ++ h2) -> HGood h1.
Proof. intros Hg h3 e h4 ->. apply (Hg h3 e (h4 ++ h2)). by rewrite <- app_assoc. Qed.
Lemma HGood_app h evs : HGood h -> (forall e1 e e2, evs = e1 ++ e :: e2 -> good e (h ++ e1)) -> HGood (h ++ evs).
Proof.
  revert h. induction evs as [|e evs IH]; intros h Hg Hev; [by rewrite app_nil_r|].
  change (e :: evs) with ([e] ++ evs). rewrite app_assoc. apply IH.
  - apply HGood_snoc; [done|]. specialize (Hev [] e evs eq_refl). by rewrite app_nil_r in Hev.
  - intros e1 e' e2 ->. rewrite <- app_assoc. apply (Hev (e :: e1) e' e2). done.
Qed.

Lemma two_occ (h : list hevent) e1 e2 : e1 ∈ h -> e2 ∈ h -> e1 = e2 \/ before e1 e2 h \/ before e2 e1 h.
Proof.
  intros H1 H2. apply elem_of_list_split in H1 as (h1 & h2 & ->).
  apply elem_of_app in H2 as [H2|H2].
  - right; right. apply elem_of_list_split in H2 as (h3 & h4 & ->). exists h3, h4, h2. by rewrite <- app_assoc.
  - apply elem_of_cons in H2 as [->|H2]; [by left|]. right; left.
    apply elem_of_list_split in H2 as (h3 & h4 & ->). by exists h1, h3, h4.
Qed.
Lemma before_good h e1 e2 : HGood h -> before e1 e2 h -> exists h1, good e2 h1 /\ e1 ∈ h1 /\ exists h2, h = h1 ++ e2 :: h2.
Proof.
  intros Hg (h1 & h2 & h3 & ->). exists (h1 ++ e1 :: h2). split; [|split].
  - apply (Hg (h1 ++ e1 :: h2) e2 h3). by rewrite <- app_assoc.
  - apply elem_of_app. right. by left.
  - exists h3. by rewrite <- app_assoc.
Qed.

Section Facts.
  Context (h : list hevent) (Hg : HGood h).

  (* an id is called once *)
  Lemma hg_call_inj i q k q' k' : Call i q k ∈ h -> Call i q' k' ∈ h -> q = q' /\ k = k'.
  Proof.
    intros H1 H2. destruct (two_occ h _ _ H1 H2) as [Heq|[Hb|Hb]]; [by injection Heq| |].
    all: apply (before_good h _ _ Hg) in Hb as (h1 & Hgood & Hin & _); cbn in Hgood; specialize (Hgood _ Hin); cbn in Hgood; lia.
  Qed.
  (* and pushed at most once, on one queue *)
  Lemma hg_push_inj i q q' : Push i q ∈ h -> Push i q' ∈ h -> q = q'.
  Proof.
    intros H1 H2. destruct (two_occ h _ _ H1 H2) as [Heq|[Hb|Hb]]; [by injection Heq| |].
    all: apply (before_good h _ _ Hg) in Hb as (h1 & Hgood & Hin & _); cbn in Hgood; destruct Hgood as (_ & Hn & _);
         exfalso; apply Hn, elem_of_pushed_all; eauto.
  Qed.
  Lemma hg_run_inj i q q' : Run i q ∈ h -> Run i q' ∈ h -> q = q'.
  Proof.
    intros H1 H2. destruct (two_occ h _ _ H1 H2) as [Heq|[Hb|Hb]]; [by injection Heq| |].
    all: apply (before_good h _ _ Hg) in Hb as (h1 & Hgood & Hin & _); cbn in Hgood; destruct Hgood as (_ & Hn);
         exfalso; apply Hn, elem_of_runs; eauto.
  Qed.
End Facts.

(* a reading function yields no duplicates if no event may repeat what it reads from an earlier event *)
Lemma hg_omap_nodup {B} (f : hevent -> option B) h :
  HGood h -> (forall h1 e i, good e h1 -> f e = Some i -> i ∉ omap f h1) -> NoDup (omap f h).
Proof.
  intros Hg Hf. induction h as [|e h IH] using rev_ind; [constructor|].
  rewrite omap_app. apply NoDup_app. split; [apply IH; by eapply HGood_prefix|]. cbn. destruct (f e) as [i|] eqn:E; [|split; [by intros ? ? ?%elem_of_nil|constructor]].
  split; [|apply NoDup_singleton]. intros i' Hi' ->%elem_of_list_singleton. by apply (Hf h e i (Hg h e [] eq_refl) E).
Qed.
Lemma hg_pushed_all_nodup h : HGood h -> NoDup (pushed_all h).
Proof. intros Hg. apply hg_omap_nodup; [done|]. intros h1 [] i Hgd [= <-]. apply Hgd. Qed.
Lemma hg_runs_nodup h : HGood h -> NoDup (runs h).
Proof. intros Hg. apply hg_omap_nodup; [done|]. intros h1 [] i Hgd [= <-]. apply Hgd. Qed.
Lemma hg_pushed_nodup h q : HGood h -> NoDup (pushed h q).
Proof.
  intros Hg. apply hg_omap_nodup; [done|]. intros h1 [] i Hgd Hf; try done. case_decide; [|done]. injection Hf as <-. subst.
  intros Hi%elem_of_pushed. apply (proj1 (proj2 Hgd)), elem_of_pushed_all. eauto.
Qed.

(* a decision procedure for [before], for the examples *)
Fixpoint after (e : hevent) (h : list hevent) : option (list hevent) :=
  match h with [] => None | x :: r => if decide (x = e) then Some r else after e r end.
Definition before_b (e1 e2 : hevent) (h : list hevent) : bool :=
  match after e1 h with Some r => bool_decide (e2 ∈ r) | None => false end.
Lemma after_Some e h r : after e h = Some r -> exists h1, h = h1 ++ e :: r.
Proof.
  revert r. induction h as [|x h IH]; intros r; cbn; [done|]. case_decide.
  - intros [= <-]. subst. by exists [].
  - intros Hr. destruct (IH r Hr) as [h1 ->]. by exists (x :: h1).
Qed.
Lemma before_b_true e1 e2 h : before_b e1 e2 h = true -> before e1 e2 h.
Proof.
  unfold before_b. destruct (after e1 h) as [r|] eqn:E; [|done]. intros H%bool_decide_eq_true.
  destruct (after_Some _ _ _ E) as [h1 ->]. apply elem_of_list_split in H as (h2 & h3 & ->). by exists h1, h2, h3.
Qed.
Lemma elem_of_b_true (e : hevent) (h : list hevent) : bool_decide (e ∈ h) = true -> e ∈ h.
Proof. apply bool_decide_eq_true. Qed.
