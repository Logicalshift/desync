(* L1h: every queue id mentioned by a frame that is past its first lookup exists - for arbitrary scripts.
   (L1/Stuck.v proves the stronger WF, but only for scripts that mention existing queues; WF' is weaker as a hypothesis,
   so its lemmas do not follow from those of WF.) *)
From stdpp Require Import list numbers option.
From RecordUpdate Require Import RecordUpdate.
From L1 Require Import Model Shape Stuck.

Definition frame_ok' (n : nat) (fr : frame) : bool :=
  match fr with
  | FTop _ | FD1 _ | FS1 _ | FTS1 _ => true
  | fr => frame_ok n fr
  end.
Definition WF' (s : state) : Prop :=
  forall a st, stacks s !! a = Some st -> forallb (frame_ok' (length s.(queues))) st = true.

Lemma WF'_view s1 s : stacks s1 = stacks s -> length s1.(queues) = length s.(queues) -> WF' s -> WF' s1.
Proof. intros Hst Hl H a st. rewrite Hst, Hl. apply H. Qed.
Lemma WF'_update s s' a newst :
  WF' s -> stacks s' = <[a := newst]> (stacks s) -> length s'.(queues) = length s.(queues) ->
  forallb (frame_ok' (length s.(queues))) newst = true -> WF' s'.
Proof.
  intros H Hst Hl Hnew b st. rewrite Hst, Hl. intros [(-> & <- & _)|(_ & Hb)]%list_lookup_insert_Some; [done|by apply (H b)].
Qed.
Lemma WF'_self s a ac : WF' s -> s.(actors) !! a = Some ac -> forallb (frame_ok' (length s.(queues))) ac.(stack) = true.
Proof. intros H Ea. apply (H a). by rewrite stacks_lookup, Ea. Qed.
Lemma WF'_wake s w ac q rest : WF' s -> s.(actors) !! w = Some ac -> ac.(stack) = FSBwait q :: rest -> WF' (setstack s w (FSBwoken q :: rest)).
Proof.
  intros H Ew Est. eapply WF'_update; [done|apply stacks_setstack|done|]. pose proof (WF'_self s w ac H Ew) as Hw. by rewrite Est in Hw.
Qed.
Lemma WF'_kick s w (f : actor -> actor) : (forall x, (f x).(stack) = x.(stack)) -> WF' s -> WF' (upda s w f).
Proof. intros Hf. apply WF'_view; [by apply stacks_upda_same|done]. Qed.
Lemma WF'_woken m s : woken m s -> WF' s -> WF' m.
Proof.
  intros Hw H b st. rewrite stacks_lookup, (wk_queues _ _ Hw).
  destruct (actors m !! b) as [x'|] eqn:Hb; [|done]. intros [= <-].
  destruct (woken_lookup_r _ _ _ _ Hw Hb) as (x & Hx & Hxx). pose proof (WF'_self s b x H Hx) as Hs.
  destruct (aw_stack _ _ Hxx) as [->|(q & r & E1 & ->)]; [done|]. by rewrite E1 in Hs.
Qed.

Ltac wf_new' :=
  cbn [forallb frame_ok' frame_ok]; repeat (apply andb_true_intro; split);
  first [ assumption | reflexivity | apply bool_decide_eq_true; eapply lookup_lt_Some; eassumption ].

(* the frames a step pushes are those it replaces, or mention a queue that the step has just looked up *)
Lemma eff_frame_ok' T F s a ac fr m new : eff T F s a ac fr m new ->
  frame_ok' (length s.(queues)) fr = true -> forallb (frame_ok' (length s.(queues))) new = true.
Proof. destruct 1; cbn [frame_ok' frame_ok]; intros Hfr; first [by destruct o | wf_new']. Qed.

Section WFStep.
  Context (T : tables) (F : facts).

  Lemma step_wf' s a s' : WF' s -> step T F s a = Some s' -> WF' s'.
  Proof.
    intros HW (ac & fr & rest & m & new & Ea & Est & He & ->)%step_eff.
    pose proof (WF'_self s a ac HW Ea) as Hold. rewrite Est in Hold. cbn [forallb] in Hold. apply andb_true_iff in Hold as [Hfr Hrest].
    destruct (eff_stacks _ _ _ _ _ _ _ _ He) as (w & sp & Hw & Hst & Hsp).
    pose proof (eff_queues_length _ _ _ _ _ _ _ _ He) as Hl.
    eapply (WF'_update m); [|apply stacks_setstack|done|].
    - intros b st. rewrite Hst, Hl. intros [Hb|[_ Hb]]%lookup_app_Some.
      + rewrite <- (wk_queues _ _ Hw). by apply (WF'_woken w s Hw HW b).
      + destruct Hsp as [[-> _]|(-> & _)]; [done|]. destruct (b - _); [|done]. by injection Hb as <-.
    - rewrite Hl, forallb_app, Hrest, andb_true_r. by eapply eff_frame_ok'.
  Qed.

  Lemma init_wf' nq mx scripts : WF' (init nq mx scripts).
  Proof.
    intros a st Ha. unfold init, stacks in *; cbn in *.
    rewrite <- list_fmap_compose in Ha. rewrite list_lookup_fmap in Ha. destruct (scripts !! a) as [sc|] eqn:E; [|done].
    injection Ha as <-. done.
  Qed.
End WFStep.

Lemma WF'_top s a ac fr rest q :
  WF' s -> s.(actors) !! a = Some ac -> ac.(stack) = fr :: rest -> frame_ok' (length s.(queues)) fr = bool_decide (q < length s.(queues)) ->
  exists qq, s.(queues) !! q = Some qq.
Proof.
  intros HW Ea Est Hfr. pose proof (WF'_self s a ac HW Ea) as H. rewrite Est in H. cbn [forallb] in H. apply andb_true_iff in H as [H _].
  rewrite Hfr in H. apply bool_decide_eq_true in H. by apply lookup_lt_is_Some_2.
Qed.
