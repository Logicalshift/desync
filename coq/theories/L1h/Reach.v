(* L1h: the invariants hold in every reachable state of the product (L1 state, history) *)
From stdpp Require Import list numbers option.
From RecordUpdate Require Import RecordUpdate.
From L1 Require Import Model Own Shape Stuck Final.
From L1h Require Import WeakWF Hist Abs SimBase Sim HistFacts AInv.

Record HInv (sh : state * list hevent) : Prop := {
  hi_shape : Shape sh.1; hi_inv : Inv sh.1; hi_wf : WF' sh.1; hi_abs : AInv (view sh.1) sh.2;
}.

Lemma pend_init nq mx scripts q : pend (init nq mx scripts) q = [].
Proof.
  unfold pend, oj, init; cbn. destruct (replicate nq _ !! q) as [qq|] eqn:E; [|done].
  apply lookup_replicate in E as [-> _]. done.
Qed.
Lemma acts_init nq mx scripts a x : acts (init nq mx scripts) !! a = Some x -> ph x = PIdle.
Proof.
  unfold acts, init; cbn. rewrite list_lookup_fmap, list_lookup_fmap. destruct (scripts !! a); [|done]. cbn. by intros [= <-].
Qed.

Lemma init_ainv nq mx scripts : AInv (view (init nq mx scripts)) [].
Proof.
  split; cbn [view v_acts v_pend v_ran v_next].
  - done.
  - intros q. by rewrite pend_init.
  - intros e He. by apply elem_of_nil in He.
  - intros a x Ha. unfold act_ok. by rewrite (acts_init _ _ _ _ _ Ha).
  - intros a b x y Ha Hb Hx. unfold inop in Hx. by rewrite (acts_init _ _ _ _ _ Ha) in Hx.
  - intros q j o c Hj. rewrite pend_init in Hj. by apply elem_of_nil in Hj.
  - apply HGood_nil.
Qed.

Section Reach.
  Context (T : tables) (F : facts) (HT : own_conditions T) (HI : imm_conditions T).

  Lemma steph_inv sh a sh' : HInv sh -> steph T F sh a = Some sh' -> HInv sh'.
  Proof.
    intros [H1 H2 H3 H4] Hs. unfold steph in Hs. destruct (step T F sh.1 a) as [s'|] eqn:E; [|done]. cbn in Hs. injection Hs as <-.
    split; cbn [fst snd].
    - by eapply step_shape.
    - by eapply step_inv.
    - by eapply step_wf'.
    - unfold obs. rewrite E. eapply astep_inv; [exact H4|]. by eapply step_sim.
  Qed.

  Lemma init_hinv nq mx scripts : HInv (init nq mx scripts, []).
  Proof. split; cbn [fst snd]; [apply init_shape|apply init_inv|apply init_wf'|apply init_ainv]. Qed.

  Lemma runh_none tr : foldl (fun o a => x ← o; steph T F x a) None tr = None.
  Proof. induction tr; cbn; done. Qed.

  Lemma runh_ind (P : state * list hevent -> Prop) sh tr sh' :
    (forall sh a sh1, P sh -> steph T F sh a = Some sh1 -> P sh1) -> P sh -> runh T F sh tr = Some sh' -> P sh'.
  Proof.
    intros Hstep. unfold runh. revert sh. induction tr as [|a tr IH]; intros sh H0; cbn; [by intros [= <-]|].
    destruct (steph T F sh a) as [sh1|] eqn:E; cbn; [|by rewrite runh_none]. apply IH. by eapply Hstep.
  Qed.
  Lemma runh_inv sh tr sh' : HInv sh -> runh T F sh tr = Some sh' -> HInv sh'.
  Proof. apply runh_ind, steph_inv. Qed.

  (* the first component of the product is the unmodified model *)
  Lemma runh_fst sh tr : fst <$> runh T F sh tr = run T F sh.1 tr.
  Proof.
    unfold runh, run. revert sh. induction tr as [|a tr IH]; intros sh; cbn; [done|].
    unfold steph at 2. destruct (step T F sh.1 a) as [s'|] eqn:E; cbn.
    - rewrite IH. done.
    - rewrite runh_none, run_none. done.
  Qed.
  Lemma run_hist s tr s' : run T F s tr = Some s' -> runh T F (s, []) tr = Some (s', hist T F s tr).
  Proof.
    intros Hr. pose proof (runh_fst (s, []) tr) as Hf. cbn in Hf. rewrite Hr in Hf. unfold hist.
    destruct (runh T F (s, []) tr) as [[s1 h1]|]; [|done]. cbn in Hf. by injection Hf as ->.
  Qed.

  Theorem reachable_hinv nq mx scripts tr s :
    run T F (init nq mx scripts) tr = Some s -> HInv (s, hist T F (init nq mx scripts) tr).
  Proof. intros Hr. eapply runh_inv; [apply init_hinv|]. by apply run_hist. Qed.

  Lemma runh_app sh tr1 tr2 : runh T F sh (tr1 ++ tr2) = sh1 ← runh T F sh tr1; runh T F sh1 tr2.
  Proof.
    unfold runh. rewrite foldl_app. destruct (foldl _ (Some sh) tr1) as [sh1|]; cbn; [done|]. by rewrite runh_none.
  Qed.
  Lemma runh_hist_prefix sh tr sh' : runh T F sh tr = Some sh' -> exists h2, sh'.2 = sh.2 ++ h2.
  Proof.
    apply (runh_ind (fun sh1 => exists h2, sh1.2 = sh.2 ++ h2)); [|exists []; by rewrite app_nil_r].
    intros sh1 a sh2 [h2 E2] Hs. unfold steph in Hs. destruct (step T F sh1.1 a); [|done]. injection Hs as <-. cbn. rewrite E2, <- app_assoc. eauto.
  Qed.
  Theorem hist_prefix s tr1 tr2 s' : run T F s (tr1 ++ tr2) = Some s' -> exists h2, hist T F s (tr1 ++ tr2) = hist T F s tr1 ++ h2.
  Proof.
    intros Hr. apply run_hist in Hr. unfold hist at 1. rewrite Hr. rewrite runh_app in Hr.
    destruct (runh T F (s, []) tr1) as [sh1|] eqn:E1; [|done]. cbn in Hr. destruct (runh_hist_prefix _ _ _ Hr) as [h2 H2]. cbn in H2.
    exists h2. unfold hist. rewrite E1. by destruct sh1.
  Qed.
End Reach.
