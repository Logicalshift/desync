(* L1h: how the basic state updates of L1 act on the abstraction (view) *)
From stdpp Require Import list numbers option.
From RecordUpdate Require Import RecordUpdate.
From L1 Require Import Model Own Shape Stuck.
From L1h Require Import WeakWF Hist Abs.

Lemma aph_wake q r : aph (FSBwoken q :: r) = aph (FSBwait q :: r).
Proof.
  destruct r as [|g r]; [done|]. destruct r as [|h r]; [by destruct g|]. destruct r as [|i r]; [by destruct h|]. done.
Qed.
Lemma handl_wake q' o q r : handl q' o (FSBwoken q :: r) = handl q' o (FSBwait q :: r).
Proof. done. Qed.

(* the actors look the same: phases, ids, flags and hands *)
Definition asame (X s : state) : Prop := acts X = acts s /\ forall b q, hv X b q = hv s b q.
Lemma asame_refl s : asame s s. Proof. done. Qed.
Lemma asame_len X s : asame X s -> length X.(actors) = length s.(actors).
Proof. intros [H _]. apply (f_equal length) in H. unfold acts in H. by rewrite !fmap_length in H. Qed.
Lemma acts_lookup s a ac : s.(actors) !! a = Some ac -> acts s !! a = Some (aact ac).
Proof. intros E. unfold acts. by rewrite list_lookup_fmap, E. Qed.

Lemma acts_upda_gen s a f g : (forall x, aact (f x) = g (aact x)) -> acts (upda s a f) = alter g a (acts s).
Proof. intros Hf. unfold acts, upda; cbn. apply list_alter_fmap. apply Forall_forall. intros x _. apply Hf. Qed.
Lemma acts_upda_at s a ac f : s.(actors) !! a = Some ac -> aact (f ac) = aact ac -> acts (upda s a f) = acts s.
Proof.
  intros Ea Hf. unfold acts, upda; cbn. apply list_eq. intros i. rewrite !list_lookup_fmap.
  destruct (decide (a = i)) as [<-|]; [|by rewrite list_lookup_alter_ne]. rewrite list_lookup_alter, Ea. cbn. by rewrite Hf.
Qed.
Lemma hv_upda s a f b q : (forall x, (f x).(stack) = x.(stack) /\ (f x).(opctr) = x.(opctr)) -> hv (upda s a f) b q = hv s b q.
Proof.
  intros Hf. unfold hv. rewrite actors_upda_lookup. case_decide; [|done].
  destruct (actors s !! b) as [x|]; cbn; [|done]. destruct (Hf x) as [-> ->]. done.
Qed.
Lemma asame_upda X s a f :
  (forall x, (f x).(stack) = x.(stack) /\ (f x).(opctr) = x.(opctr) /\ (f x).(result) = x.(result) /\ (f x).(ready) = x.(ready)) ->
  asame X s -> asame (upda X a f) s.
Proof.
  intros Hf [H1 H2]. split.
  - rewrite <- H1, (acts_upda_gen X a f id), list_alter_id; [done..|]. intros x. destruct (Hf x) as (E1 & E2 & E3 & E4). unfold aact. by rewrite E1, E2, E3, E4.
  - intros b q. rewrite hv_upda; [done|]. intros x. destruct (Hf x) as (E1 & E2 & _). done.
Qed.
Lemma asame_wake X s w aw q rest :
  X.(actors) !! w = Some aw -> aw.(stack) = FSBwait q :: rest -> asame X s -> asame (setstack X w (FSBwoken q :: rest)) s.
Proof.
  intros Ew Es [H1 H2]. split.
  - rewrite <- H1. apply (acts_upda_at X w aw); [done|]. unfold aact; cbn -[aph]. by rewrite Es, aph_wake.
  - intros b q'. rewrite <- H2. unfold hv. rewrite actors_setstack_lookup. case_decide; [|done]. subst b. rewrite Ew. cbn. by rewrite Es.
Qed.
Lemma notify_fields F s w : (notify F s w).(queues) = s.(queues) /\ (notify F s w).(ran) = s.(ran) /\ (notify F s w).(nextop) = s.(nextop).
Proof. destruct (notify_frame F s w) as (A & ->). done. Qed.

Lemma oj_queues X Y q : X.(queues) = Y.(queues) -> oj X q = oj Y q.
Proof. unfold oj. by intros ->. Qed.
Lemma oj_lookup s q qq : s.(queues) !! q = Some qq -> oj s q = Some (qq.(owner), qq.(jobs)).
Proof. unfold oj. by intros ->. Qed.
Lemma oj_updq s q f q' :
  oj (updq s q f) q' = if decide (q = q') then (fun qq => ((f qq).(owner), (f qq).(jobs))) <$> s.(queues) !! q' else oj s q'.
Proof. unfold oj. rewrite queues_updq. case_decide; [|done]. by destruct (queues s !! q'). Qed.
Lemma oj_updq_same s q f q' : (forall x, (f x).(owner) = x.(owner) /\ (f x).(jobs) = x.(jobs)) -> oj (updq s q f) q' = oj s q'.
Proof. intros Hf. rewrite oj_updq. case_decide; [|done]. unfold oj. destruct (queues s !! q') as [x|]; [|done]. cbn. by destruct (Hf x) as [-> ->]. Qed.

Lemma oj_setstack X a st q : oj (setstack X a st) q = oj X q. Proof. done. Qed.
Lemma oj_run_job F X j q : oj (run_job F X j) q = oj X q.
Proof. apply oj_queues. destruct (run_job_frame F X j) as (A & R & ->). done. Qed.
Lemma acq_free s q qq : Inv s -> s.(queues) !! q = Some qq -> qq.(qs) <> Running -> qq.(owner) = None.
Proof. intros [_ I2 _] Hq Hn. destruct (owner qq) eqn:E; [|done]. exfalso. apply Hn, (I2 q qq Hq). by eexists. Qed.

(* X differs from s only in what the abstraction does not read *)
Definition quiet (X s : state) : Prop := asame X s /\ (forall q, oj X q = oj s q) /\ X.(ran) = s.(ran) /\ X.(nextop) = s.(nextop).
Lemma quiet_refl s : quiet s s. Proof. done. Qed.
Lemma quiet_upda X s a f :
  (forall x, (f x).(stack) = x.(stack) /\ (f x).(opctr) = x.(opctr) /\ (f x).(result) = x.(result) /\ (f x).(ready) = x.(ready)) ->
  quiet X s -> quiet (upda X a f) s.
Proof. intros Hf (H1 & H2). split; [by apply asame_upda|done]. Qed.
Lemma quiet_updq X s q f : (forall x, (f x).(owner) = x.(owner) /\ (f x).(jobs) = x.(jobs)) -> quiet X s -> quiet (updq X q f) s.
Proof. intros Hf (H1 & H2 & H3). split; [done|]. split; [|done]. intros q'. by rewrite oj_updq_same. Qed.
Lemma quiet_foldl_notify F ws X s : quiet X s -> quiet (foldl (notify F) X ws) s.
Proof.
  apply (foldl_notify_keeps (fun X => quiet X s)); [intros; by apply quiet_upda|].
  intros Y w aw q rest Ew Es (H1 & H2). split; [by eapply asame_wake|done].
Qed.
(* peels the updates of X that quiet does not see *)
Ltac quiet_tac :=
  repeat first
   [ exact (quiet_refl _)
   | apply quiet_foldl_notify
   | apply quiet_upda; [intros ?; done|]
   | apply quiet_updq; [intros ?; done|]
   | lazymatch goal with |- quiet ?X ?s => let Y := lazymatch X with updt ?Y _ _ => Y | set _ _ ?Y => Y end in change (quiet Y s) end ].

(* the hands look the same (flags may differ) *)
Definition hsame (X s : state) : Prop :=
  (forall b q, hv X b q = hv s b q) /\ (forall b, opctr <$> X.(actors) !! b = opctr <$> s.(actors) !! b).
Lemma asame_hsame X s : asame X s -> hsame X s.
Proof.
  intros [H1 H2]. split; [done|]. intros b.
  assert (H3 : acts X !! b = acts s !! b) by (by rewrite H1). unfold acts in H3. rewrite !list_lookup_fmap in H3.
  destruct (actors X !! b) as [x|], (actors s !! b) as [y|]; cbn in *; try done. injection H3 as _ H3 _ _. by rewrite H3.
Qed.
Lemma hsame_upda s a f :
  (forall x, (f x).(stack) = x.(stack) /\ (f x).(opctr) = x.(opctr)) -> hsame (upda s a f) s.
Proof.
  intros Hf. split.
  - intros b q. by apply hv_upda.
  - intros b. rewrite actors_upda_lookup. case_decide; [|done]. destruct (actors s !! b) as [x|]; cbn; [|done]. by destruct (Hf x) as [_ ->].
Qed.
Lemma hsame_trans X Y s : hsame X Y -> hsame Y s -> hsame X s.
Proof. intros [H1 H2] [H3 H4]. split; intros; [by rewrite H1, H3|by rewrite H2, H4]. Qed.
Lemma hsame_ran s f : hsame (s <| ran := f |>) s. Proof. done. Qed.

Lemma acts_setstack X a st : acts (setstack X a st) = alter (set_ph (aph st)) a (acts X).
Proof. by apply acts_upda_gen. Qed.
Lemma hv_setstack X a st b q :
  hv (setstack X a st) b q = if decide (a = b) then (fun ab => handl q ab.(opctr) st) <$> X.(actors) !! b else hv X b q.
Proof. unfold hv. rewrite actors_setstack_lookup. case_decide; [|done]. by destruct (actors X !! b). Qed.
Lemma at_top_setstack X s a ac st : quiet X s -> s.(actors) !! a = Some ac ->
  at_top (setstack X a st) a = match st with FTop _ :: _ => true | _ => false end.
Proof.
  intros [H _] Ea. apply asame_len in H. unfold at_top. rewrite actors_setstack_lookup, decide_True by done.
  destruct (lookup_lt_is_Some_2 (actors X) a) as [x ->]; [|done]. rewrite H. by eapply lookup_lt_Some.
Qed.
Lemma alter_set_ph_same (A : list aactor) (a : nat) x p : A !! a = Some x -> ph x = p -> alter (set_ph p) a A = A.
Proof. intros Ha <-. apply list_eq. intros i. destruct (decide (a = i)) as [<-|]; [|by rewrite list_lookup_alter_ne]. rewrite list_lookup_alter, Ha. by destruct x. Qed.

Lemma pend_view s' s q : oj s' q = oj s q -> (forall b, hv s' b q = hv s b q) -> pend s' q = pend s q.
Proof. intros H1 H2. unfold pend. rewrite H1. destruct (oj s q) as [[[b|] js]|]; [|done|done]. by rewrite H2. Qed.
Lemma pend_self s a ac q js : s.(actors) !! a = Some ac -> oj s q = Some (Some a, js) -> pend s q = handl q ac.(opctr) ac.(stack) ++ js.
Proof. intros Ea Ho. unfold pend. rewrite Ho. unfold hv. by rewrite Ea. Qed.

(* the pending jobs of q once actor a (with operation id o) has the stack [newst]; the other hands are read in s *)
Definition pend_after (X s : state) (a o : nat) (newst : list frame) (q : nat) : list job :=
  match oj X q with
  | Some (Some b, js) => (if decide (a = b) then handl q o newst else default [] (hv s b q)) ++ js
  | Some (None, js) => js
  | None => []
  end.
Lemma veq_refl v : veq v v. Proof. done. Qed.
Lemma veq_trans u v w : veq u v -> veq v w -> veq u w.
Proof. intros (A1 & A2 & A3 & A4) (B1 & B2 & B3 & B4). split; [congruence|]. split; [intros q; by rewrite A2, B2|]. split; congruence. Qed.
Lemma view_setstack X s a ac newst A P R N :
  s.(actors) !! a = Some ac -> hsame X s ->
  alter (set_ph (aph newst)) a (acts X) = A -> (forall q, pend_after X s a ac.(opctr) newst q = P q) -> X.(ran) = R -> X.(nextop) = N ->
  veq (view (setstack X a newst)) {| v_acts := A; v_pend := P; v_ran := R; v_next := N |}.
Proof.
  intros Ea [H1 H2] <- HP <- <-. split; [apply acts_setstack|]. split; [|done]. intros q. cbn. rewrite <- HP.
  unfold pend, pend_after. rewrite oj_setstack. destruct (oj X q) as [[[b|] js]|]; [|done|done].
  f_equal. rewrite hv_setstack. case_decide; subst; [|by rewrite H1].
  specialize (H2 b). rewrite Ea in H2. destruct (actors X !! b) as [x|]; [|done]. cbn in *. injection H2 as ->. done.
Qed.
Lemma pend_after_other X s a o newst oldst q ac :
  s.(actors) !! a = Some ac -> ac.(opctr) = o -> ac.(stack) = oldst ->
  oj X q = oj s q -> handl q o newst = handl q o oldst -> pend_after X s a o newst q = pend s q.
Proof.
  intros Ea Ho Hs Hoj Hh. unfold pend_after, pend. rewrite Hoj. destruct (oj s q) as [[[b|] js]|]; [|done|done].
  f_equal. case_decide; [|done]. subst b. unfold hv. rewrite Ea. cbn. by rewrite Ho, Hs.
Qed.
(* a queue that is free or owned by the stepping actor *)
Definition mine_hand {A} (ow : option nat) (l : list A) : list A := match ow with Some _ => l | None => [] end.
Lemma pend_after_own X s a o newst q ow js :
  oj X q = Some (ow, js) -> ow = None \/ ow = Some a -> pend_after X s a o newst q = mine_hand ow (handl q o newst) ++ js.
Proof. intros Hq Hw. unfold pend_after. rewrite Hq. destruct Hw as [-> | ->]; [done|]. by rewrite decide_True. Qed.
Lemma pend_own s a ac q ow js :
  s.(actors) !! a = Some ac -> oj s q = Some (ow, js) -> ow = None \/ ow = Some a -> pend s q = mine_hand ow (handl q ac.(opctr) ac.(stack)) ++ js.
Proof. intros Ea Hq [-> | ->]; [unfold pend; by rewrite Hq|exact (pend_self s a ac q js Ea Hq)]. Qed.
Lemma pend_after_fupd X s a ac newst q L :
  s.(actors) !! a = Some ac -> (forall q', q' <> q -> oj X q' = oj s q') ->
  (forall q', q' <> q -> handl q' ac.(opctr) newst = handl q' ac.(opctr) ac.(stack)) ->
  pend_after X s a ac.(opctr) newst q = L -> forall q', pend_after X s a ac.(opctr) newst q' = fupd q L (pend s) q'.
Proof. intros Ea Hoj Hh HL q'. unfold fupd. case_decide; [by subst|]. eapply pend_after_other; eauto. Qed.

(* only the phase of the stepping actor may change *)
Lemma sim_phase s a ac X newst :
  s.(actors) !! a = Some ac -> quiet X s ->
  (forall q, handl q ac.(opctr) newst = handl q ac.(opctr) ac.(stack)) ->
  veq (view (setstack X a newst))
      {| v_acts := alter (set_ph (aph newst)) a (v_acts (view s)); v_pend := v_pend (view s); v_ran := v_ran (view s); v_next := v_next (view s) |}.
Proof.
  intros Ea (HA & Hoj & Hran & Hnext) Hhand. apply (view_setstack X s a ac); [done|by apply asame_hsame|by destruct HA as [-> _]| |done..].
  intros q. by eapply pend_after_other.
Qed.
(* ... and if it does not, nothing visible happened *)
Lemma sim_stutter s a ac X newst :
  s.(actors) !! a = Some ac -> quiet X s ->
  aph newst = aph ac.(stack) -> (forall q, handl q ac.(opctr) newst = handl q ac.(opctr) ac.(stack)) ->
  veq (view (setstack X a newst)) (view s).
Proof.
  intros Ea HX Hph Hhand. eapply veq_trans; [by apply (sim_phase s a ac)|]. split; [|done].
  eapply alter_set_ph_same; [by apply acts_lookup|done].
Qed.

(* the stepping actor acquires or releases q, or takes the first job into its hand *)
Lemma sim_q s a ac X q g newst ow js ow' js' :
  s.(actors) !! a = Some ac -> quiet X s ->
  oj s q = Some (ow, js) -> oj (updq X q g) q = Some (ow', js') ->
  aph newst = aph ac.(stack) ->
  (forall q', q' <> q -> handl q' ac.(opctr) newst = handl q' ac.(opctr) ac.(stack)) ->
  (ow = None \/ ow = Some a) -> (ow' = None \/ ow' = Some a) ->
  mine_hand ow' (handl q ac.(opctr) newst) ++ js' = mine_hand ow (handl q ac.(opctr) ac.(stack)) ++ js ->
  veq (view (setstack (updq X q g) a newst)) (view s).
Proof.
  intros Ea (HA & Hoj & Hran & Hnext) Hq Hq' Hph Hother Hw Hw' Heq. apply (view_setstack _ s a ac); [done|by apply asame_hsame| | |done..].
  - change (acts (updq X q g)) with (acts X). destruct HA as [-> _]. eapply alter_set_ph_same; [by apply acts_lookup|done].
  - intros q'. destruct (decide (q' = q)) as [->|Hne].
    + by rewrite (pend_after_own _ _ _ _ _ _ _ _ Hq' Hw'), (pend_own _ _ _ _ _ _ Ea Hq Hw).
    + eapply pend_after_other; try done; [|by apply Hother]. rewrite oj_updq, decide_False by done. apply Hoj.
Qed.

(* a job is appended to q *)
Lemma sim_push s a ac q g newst ow js j :
  s.(actors) !! a = Some ac ->
  oj s q = Some (ow, js) -> oj (updq s q g) q = Some (ow, js ++ [j]) ->
  (forall q', handl q' ac.(opctr) newst = handl q' ac.(opctr) ac.(stack)) ->
  veq (view (setstack (updq s q g) a newst))
      {| v_acts := alter (set_ph (aph newst)) a (v_acts (view s)); v_pend := fupd q (v_pend (view s) q ++ [j]) (v_pend (view s));
         v_ran := v_ran (view s); v_next := v_next (view s) |}.
Proof.
  intros Ea Hq Hq' Hhand. apply (view_setstack _ s a ac); [done..| |done|done].
  apply pend_after_fupd; [done|intros q' Hne; by rewrite oj_updq, decide_False|done|].
  cbn [view v_pend]. unfold pend_after, pend. rewrite Hq', Hq. destruct ow as [b|]; [|done].
  rewrite app_assoc. do 2 f_equal. case_decide; [|done]. subst b. unfold hv. rewrite Ea. apply Hhand.
Qed.

(* push-and-take of an immediate sync *)
Lemma sim_imm s a ac X q g newst L :
  s.(actors) !! a = Some ac -> quiet X s ->
  oj (updq X q g) q = Some (Some a, []) -> handl q ac.(opctr) newst = L ->
  (forall q', q' <> q -> handl q' ac.(opctr) newst = handl q' ac.(opctr) ac.(stack)) ->
  veq (view (setstack (updq X q g) a newst))
      {| v_acts := alter (set_ph (aph newst)) a (v_acts (view s)); v_pend := fupd q L (v_pend (view s));
         v_ran := v_ran (view s); v_next := v_next (view s) |}.
Proof.
  intros Ea (HA & Hoj & Hran & Hnext) Hq' <- Hhand. apply (view_setstack _ s a ac); [done|by apply asame_hsame| | |done..].
  - change (acts (updq X q g)) with (acts X). by destruct HA as [-> _].
  - apply pend_after_fupd; [done|intros q' Hne; by rewrite oj_updq, decide_False|done|].
    rewrite (pend_after_own _ _ _ _ _ _ _ _ Hq'); [apply app_nil_r|by right].
Qed.

(* the owner runs the job it has in its hand *)
Lemma sim_unhand s a ac X q newst j js A :
  s.(actors) !! a = Some ac -> hsame X s -> acts X = A -> (forall q', oj X q' = oj s q') ->
  oj s q = Some (Some a, js) ->
  handl q ac.(opctr) ac.(stack) = [j] -> handl q ac.(opctr) newst = [] ->
  (forall q', q' <> q -> handl q' ac.(opctr) newst = handl q' ac.(opctr) ac.(stack)) ->
  pend s q = j :: js /\
  veq (view (setstack X a newst))
      {| v_acts := alter (set_ph (aph newst)) a A; v_pend := fupd q js (v_pend (view s)); v_ran := X.(ran); v_next := X.(nextop) |}.
Proof.
  intros Ea HH HA Hoj Hq Hold Hnew Hother. split; [by rewrite (pend_self s a ac q js Ea Hq), Hold|].
  apply (view_setstack X s a ac); [done|done|by rewrite HA| |done..].
  apply pend_after_fupd; [done..|]. rewrite (pend_after_own X s a _ _ q (Some a) js); [by rewrite Hnew|by rewrite Hoj|by right].
Qed.

Lemma run_job_view F s j : acts (run_job F s j) = arun_acts j (acts s) /\ hsame (run_job F s j) s /\ (run_job F s j).(ran) = job_id j :: s.(ran)
  /\ (run_job F s j).(nextop) = s.(nextop).
Proof.
  assert (Hfl : forall o c f g, (forall x, aact (f x) = g (aact x)) -> (forall x, (f x).(stack) = x.(stack) /\ (f x).(opctr) = x.(opctr)) ->
            let s1 := upda (s <| ran := o :: ran s |>) c f in
            acts s1 = alter g c (acts s) /\ hsame s1 s /\ ran s1 = o :: ran s /\ nextop s1 = nextop s).
  { intros o c f g Hg Hf. split; [exact (acts_upda_gen _ c f g Hg)|]. split; [exact (hsame_upda _ c f Hf)|done]. }
  destruct j as [o|o c|o c]; [done|by apply Hfl|].
  rewrite run_job_bg. apply wake_elim; [by apply Hfl|]. intros aw q rest Ew Es.
  destruct (asame_wake _ _ c aw q rest Ew Es (asame_refl _)) as [H3 H4]. rewrite H3.
  edestruct Hfl as (H1 & H2 & _); [..|split; [exact H1|split; [|done]; eapply hsame_trans; [by apply asame_hsame|exact H2]]]; done.
Qed.
Lemma sim_run F s a ac q newst j js :
  s.(actors) !! a = Some ac -> oj s q = Some (Some a, js) ->
  handl q ac.(opctr) ac.(stack) = [j] -> handl q ac.(opctr) newst = [] ->
  (forall q', q' <> q -> handl q' ac.(opctr) newst = handl q' ac.(opctr) ac.(stack)) ->
  aph newst = aph ac.(stack) ->
  pend s q = j :: js /\
  veq (view (setstack (run_job F s j) a newst))
      {| v_acts := arun_acts j (v_acts (view s)); v_pend := fupd q js (v_pend (view s)); v_ran := job_id j :: v_ran (view s); v_next := v_next (view s) |}.
Proof.
  intros Ea Hq Hold Hnew Hother Hph.
  destruct (run_job_view F s j) as (R1 & R2 & R3 & R4).
  destruct (sim_unhand s a ac (run_job F s j) q newst j js _ Ea R2 R1) as [P1 P2]; try done.
  { intros q'. apply oj_run_job. }
  split; [done|]. eapply veq_trans; [exact P2|]. split; [|by rewrite R3, R4].
  destruct (arun_acts_fwd j (acts s) a (aact ac) (acts_lookup s a ac Ea)) as (x' & E1 & E2 & _).
  eapply alter_set_ph_same; [exact E1|]. by rewrite E2.
Qed.

(* a new operation starts *)
Lemma sim_call s a ac fr l :
  s.(actors) !! a = Some ac -> (forall q o, handl q o ac.(stack) = []) -> (forall q o, hand_fr q o fr = []) ->
  veq (view (setstack (upda (s <| nextop := S (nextop s) |>) a
                            (fun x => x <| opctr := nextop s |> <| ready := false |> <| result := false |>)) a [fr; FTop l]))
      {| v_acts := <[a := {| ph := api_phase fr; aop := nextop s; ares := false; ardy := false |}]> (v_acts (view s));
         v_pend := v_pend (view s); v_ran := v_ran (view s); v_next := S (v_next (view s)) |}.
Proof.
  intros Ea Hold Hfr.
  split; [|split; [|split]]; cbn [view v_acts v_pend v_ran v_next]; try done.
  - apply list_eq. intros i. unfold acts. rewrite list_lookup_fmap, actors_setstack_lookup, actors_upda_lookup.
    change (actors (s <| nextop := S (nextop s) |>)) with (actors s).
    destruct (decide (a = i)) as [<-|Hne].
    + rewrite Ea. cbn [fmap option_fmap option_map]. rewrite list_lookup_insert; [done|]. rewrite fmap_length. by eapply lookup_lt_Some.
    + rewrite list_lookup_insert_ne by done. by rewrite list_lookup_fmap.
  - intros q. apply pend_view; [done|]. intros b. unfold hv. rewrite actors_setstack_lookup, actors_upda_lookup.
    change (actors (s <| nextop := S (nextop s) |>)) with (actors s).
    case_decide; [|done]. subst b. rewrite Ea. cbn. rewrite Hfr, Hold. done.
Qed.

(* a pool thread is spawned *)
Lemma sim_spawn s a ac newst (new : actor) TH :
  s.(actors) !! a = Some ac -> Inv s -> aph newst = aph ac.(stack) ->
  (forall q, handl q ac.(opctr) newst = handl q ac.(opctr) ac.(stack)) ->
  (forall q, handl q new.(opctr) new.(stack) = []) ->
  veq (view (setstack (s <| threads := TH |> <| actors := s.(actors) ++ [new] |>) a newst))
      {| v_acts := v_acts (view s) ++ [aact new]; v_pend := v_pend (view s); v_ran := v_ran (view s); v_next := v_next (view s) |}.
Proof.
  intros Ea HI Hph Hhand Hnew. assert (Hlt : a < length (actors s)) by (by eapply lookup_lt_Some).
  set (s1 := s <| threads := TH |> <| actors := s.(actors) ++ [new] |>).
  assert (Ea1 : actors s1 !! a = Some ac) by (subst s1; cbn; by rewrite lookup_app_l).
  split; [|split; [|split]]; cbn [view v_acts v_pend v_ran v_next]; try done.
  - rewrite acts_setstack. change (acts s1) with (aact <$> (actors s ++ [new])). rewrite fmap_app.
    change (aact <$> [new]) with [aact new]. change (aact <$> actors s) with (acts s).
    eapply alter_set_ph_same; [rewrite lookup_app_l; [by apply acts_lookup|unfold acts; by rewrite fmap_length]|]. cbn. done.
  - intros q. unfold pend. rewrite oj_setstack. change (oj s1 q) with (oj s q).
    destruct (oj s q) as [[[b|] js]|] eqn:Eo; [|done|done]. f_equal.
    assert (Hb : b < length (actors s)).
    { unfold oj in Eo. destruct (queues s !! q) as [qq|] eqn:Eq; [|done]. cbn in Eo. injection Eo as Eo _. by eapply (inv_valid s HI q qq). }
    unfold hv. rewrite actors_setstack_lookup. case_decide; subst.
    + rewrite Ea1, Ea. cbn. by rewrite Hhand.
    + subst s1. cbn [actors set]. by rewrite lookup_app_l.
Qed.

(* the frames whose only possible event is the return to the script *)
Definition plain_fr (fr : frame) : bool :=
  match fr with
  | FTop _ | FD1 _ | FS1 _ | FTS1 _ | FSDpush _ | FSBpush _ | FSIrun _ | FROrun _ _ | FDRrun _ _ => false
  | _ => true
  end.
Lemma obs'_plain T s a ac fr rest s' :
  s.(actors) !! a = Some ac -> ac.(stack) = fr :: rest -> plain_fr fr = true ->
  obs' T s a s' = if at_top s' a then [Ret ac.(opctr)] else [].
Proof. intros Ea Est Hp. unfold obs'. rewrite Ea, Est. by destruct fr. Qed.
