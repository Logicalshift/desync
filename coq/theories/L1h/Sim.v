(* L1h: every L1 step is a step of the abstract history machine performing exactly the observed events *)
From stdpp Require Import list numbers option.
From RecordUpdate Require Import RecordUpdate.
From L1 Require Import Model Own Shape Stuck.
From L1h Require Import WeakWF Hist Abs SimBase.

(* an immediate sync / try_sync is only chosen when no job is stored *)
Record imm_conditions (T : tables) : Prop := {
  c_imm_sync : forall st e st', T.(t_sync) st e = (st', SAImmediate) -> e = true;
  c_imm_try : forall st e st', T.(t_trysync) st e = (st', TAImmediate) -> e = true;
}.

(* the events of a step from a frame that is not plain do not depend on the new state: it is kept folded while they are computed *)
Ltac obs_compute Ea Est :=
  lazymatch goal with |- astep _ _ (obs' _ _ _ ?s1) _ =>
    let x := fresh in set (x := s1);
    unfold obs'; rewrite Ea; cbv beta iota zeta; rewrite Est; cbv beta iota zeta;
    repeat match goal with Eq : queues _ !! _ = Some _ |- _ => rewrite Eq; cbv beta iota zeta end;
    subst x end.
(* the call ends without having pushed (panic, busy): E is the table's answer, con the constructor of astep *)
Ltac ends_call Ea Est E con :=
  obs_compute Ea Est; rewrite E; cbn [snd]; con;
  [ apply acts_lookup, Ea | cbn; rewrite Est; reflexivity
  | lazymatch goal with |- veq (view (setstack ?X ?a ?st)) _ =>
      eapply (sim_phase _ a _ X st Ea); [ quiet_tac | intros q'; rewrite Est; cbn; repeat case_decide; try done ] end ].

(* a sync call appends its job j *)
Ltac sync_push Ea Est j :=
  obs_compute Ea Est;
  lazymatch type of Ea with _ = Some ?ac =>
  lazymatch goal with Hoj : oj _ _ = _, Eq : queues _ !! _ = Some _ |- astep (view ?s) ?a _ (view (setstack (updq _ ?q ?g) _ ?st)) =>
    eapply (A_pushs (view s) a _ (aact ac) q j);
    [ apply acts_lookup, Ea | cbn; rewrite Est; reflexivity | first [left; reflexivity | right; reflexivity]
    | eapply (sim_push s a ac q g st _ _ _ Ea Hoj); [rewrite oj_updq, decide_True by done; rewrite Eq; reflexivity | intros q'; rewrite Est; reflexivity ] ] end end.
(* push-and-take of an immediate call of kind k; E is the table's answer, Hempty says that it saw an empty queue *)
Ltac imm_step Ea Est E k Hempty :=
  obs_compute Ea Est; rewrite E; cbn [snd];
  lazymatch type of Ea with _ = Some ?ac =>
  lazymatch goal with Hoj : oj _ _ = _, Hfree : owner ?qq = None, Eq : queues _ !! _ = Some ?qq
                      |- astep (view ?s) ?a _ (view (setstack (updq ?X ?q ?g) _ ?st)) =>
    assert (Hemp : jobs qq = []) by (eapply bool_decide_eq_true; exact Hempty);
    eapply (A_imm (view s) a _ (aact ac) k q);
    [ apply acts_lookup, Ea | cbn; rewrite Est; reflexivity | done | cbn; unfold pend; rewrite Hoj, Hfree; exact Hemp
    | eapply (sim_imm s a ac X q g st _ Ea);
      [ quiet_tac
      | rewrite oj_updq, decide_True by done; repeat (rewrite queues_updq, decide_True by done); rewrite Eq; cbn; rewrite Hemp; reflexivity
      | cbn; by rewrite decide_True
      | intros q' Hne; rewrite Est; cbn; by rewrite decide_False ] ] end end.

Section Sim.
  Context (T : tables) (F : facts) (HT : own_conditions T) (HI : imm_conditions T).

  Lemma step_sim s a s' : Shape s -> Inv s -> WF' s -> step T F s a = Some s' -> astep (view s) a (obs' T s a s') (view s').
  Proof.
    intros HS HIv HW (ac & fr & rest & m & new & Ea & Est & He & ->)%step_eff.
    pose proof (shape_top s a ac fr rest HS Ea Est) as Hk.
    pose proof (fun q' => stack_cnt_self s a ac q' Ea) as Hcnt. rewrite Est in Hcnt.
    pose proof (WF'_self s a ac HW Ea) as Hwf. rewrite Est in Hwf. cbn [forallb] in Hwf. apply andb_true_iff in Hwf as [Hfrok _].
    destruct He; shape_inv Hk.
    all: cbn [frame_ok' frame_ok] in Hfrok; cbn [app]; unfold spawn.
    all: try destruct o; try (destruct act; try congruence).
    all: try (lazymatch goal with Eq : queues _ !! _ = Some _ |- _ => fail | _ => idtac end;
              apply bool_decide_eq_true in Hfrok; destruct (queue_exists s _ Hfrok) as [qq Eq]).
    (* steps that show nothing (same phase, same hands, same jobs); the call returns; a sync call sees its result *)
    all: try (rewrite (obs'_plain T s a ac _ _ _ Ea Est eq_refl);
              lazymatch goal with |- astep _ _ (if at_top (setstack ?X _ ?st) _ then _ else _) _ =>
                 assert (HX : quiet X s) by quiet_tac;
                 rewrite (at_top_setstack X s a ac st HX Ea);
                 first [ apply A_stutter; apply (sim_stutter s a ac X st Ea HX); [rewrite Est; reflexivity|]
                       | first [ eapply (A_ret _ _ _ (aact ac)) | eapply (A_done _ _ _ (aact ac)) ];
                         [ apply acts_lookup, Ea | cbn; rewrite Est; reflexivity | try (cbn; first [left; assumption | right; assumption]) ..
                         | apply (sim_phase s a ac X st Ea HX) ] ];
                 intros q'; rewrite Est; cbn; repeat case_decide; try done end; fail).
    (* facts about the queue the step touches *)
    all: try (match goal with Eq : queues _ !! ?q = Some ?qq |- _ => assert (Hoj : oj s q = Some (owner qq, jobs qq)) by (by apply oj_lookup) end).
    all: try (match goal with Eq : queues _ !! ?q = Some ?qq |- _ => assert (Hown : owner qq = Some a)
               by (eapply (runner_owns s a q qq 0); [exact HIv| |exact Eq]; rewrite Hcnt; cbn [cnt owns_b]; rewrite bool_decide_true by done; done) end).
    all: try (match goal with Eq : queues _ !! ?q = Some ?qq |- _ => assert (Hnone : owner qq = None)
               by (apply (acq_free s q qq HIv Eq);
                   match goal with
                   | E : t_sync _ _ _ = (_, SAImmediate) |- _ => exact (proj1 (c_sync T HT _ _ _ _ E))
                   | E : t_sync _ _ _ = (_, SADrain) |- _ => exact (proj1 (c_sync T HT _ _ _ _ E))
                   | E : t_trysync _ _ _ = (_, TAImmediate) |- _ => exact (proj1 (c_try T HT _ _ _ _ E))
                   | E : t_claim _ _ = Some _ |- _ => exact (proj1 (c_claim T HT _ _ E))
                   | E : t_next _ _ = Some _ |- _ => exact (proj1 (c_next T HT _ _ E))
                   end) end).
    (* a new operation starts *)
    all: lazymatch goal with Est : stack _ = [FTop _] |- _ =>
           obs_compute Ea Est; cbn [op_q op_kind];
           eapply (A_call (view s) a _ (aact ac)); [apply acts_lookup, Ea | cbn; rewrite Est; reflexivity | lazymatch goal with |- veq (view (setstack _ _ [?fr; FTop ?l'])) _ => apply (sim_call s a ac fr l' Ea); [intros; by rewrite Est|done] end ]
         | _ => idtac end.
    (* the job is appended to the queue *)
    all: lazymatch goal with
         | Est : stack _ = FD1 _ :: _, E : t_desync _ _ = (_, ?act), Hoj : oj _ _ = _, Eq : queues _ !! _ = Some _ |- _ =>
             obs_compute Ea Est; rewrite E; cbn [snd];
             lazymatch goal with |- astep _ _ _ (view (setstack (updq _ ?q ?g) _ ?st)) =>
               let d := lazymatch act with DASchedule => constr:(DGoOn) | DANone => constr:(DRet) | DAPanic => constr:(DPanic) end in
               eapply (A_pushd (view s) a _ (aact ac) q d);
               [ apply acts_lookup, Ea | cbn; rewrite Est; reflexivity
               | eapply (sim_push s a ac q g st _ _ _ Ea Hoj); [rewrite oj_updq, decide_True by done; rewrite Eq; reflexivity | intros q'; rewrite Est; reflexivity ] ] end
         | Est : stack _ = FSDpush _ :: _ |- _ => sync_push Ea Est (JSyncDrain (opctr ac) a)
         | Est : stack _ = FSBpush _ :: _ |- _ => sync_push Ea Est (JSyncBg (opctr ac) a)
         | _ => idtac end.
    (* the call panics or try_sync finds the queue busy *)
    all: lazymatch goal with
         | E : t_sync _ _ _ = (_, SAPanic) |- _ => ends_call Ea Est E ltac:(eapply (A_panic (view s) a _ (aact ac) KSync))
         | E : t_trysync _ _ _ = (_, TAPanic) |- _ => ends_call Ea Est E ltac:(eapply (A_panic (view s) a _ (aact ac) KTry))
         | E : t_trysync _ _ _ = (_, TABusy) |- _ => ends_call Ea Est E ltac:(eapply (A_busy (view s) a _ (aact ac)))
         | E : t_sync _ _ _ = (_, SABackground) |- _ =>
             obs_compute Ea Est; rewrite E; cbn [snd]; apply A_stutter;
             lazymatch goal with |- veq (view (setstack ?X _ ?st)) _ =>
               apply (sim_stutter s a ac X st Ea);
               [ quiet_tac | rewrite Est; reflexivity | intros q'; rewrite Est; cbn; repeat case_decide; try done ] end
         | _ => idtac end.
    (* acquiring or releasing the queue, taking the first job: the pending jobs stay the same *)
    all: lazymatch goal with
         | E : t_sync _ _ _ = (_, SAImmediate) |- _ => idtac
         | E : t_trysync _ _ _ = (_, TAImmediate) |- _ => idtac
         | Hoj : oj _ _ = _, Eq : queues _ !! _ = Some _ |- astep _ _ (obs' _ _ _ (setstack (updq ?X ?q ?g) _ ?st)) _ =>
             assert (HX : quiet X s) by quiet_tac;
             first [ rewrite (obs'_plain T s a ac _ _ _ Ea Est eq_refl);
                     rewrite (at_top_setstack X s a ac st HX Ea : at_top (setstack (updq X q g) a st) a = _); cbv beta iota
                   | obs_compute Ea Est; match goal with E : t_sync _ _ _ = _ |- _ => rewrite E end; cbn [snd] ];
             apply A_stutter; eapply (sim_q s a ac X q g st _ _ _ _ Ea HX);
             [ exact Hoj
             | rewrite oj_updq, decide_True by done; repeat (rewrite queues_updq, decide_True by done);
               lazymatch goal with |- context [queues ?Y !! _] => change (queues Y) with (queues s) end; rewrite Eq; cbn; reflexivity
             | rewrite Est; reflexivity
             | intros q' Hne; rewrite Est; cbn; repeat case_decide; try done; congruence
             | first [left; assumption | right; assumption]
             | first [left; reflexivity | right; reflexivity | right; assumption]
             | rewrite ?Hown, ?Hnone, ?Est; try (match goal with E : jobs _ = _ :: _ |- _ => rewrite E end); cbn; rewrite ?decide_True by done; done ]
         | _ => idtac end.
    (* push-and-take of an immediate sync / try_sync *)
    all: lazymatch goal with
         | E : t_sync _ _ _ = (_, SAImmediate) |- _ => imm_step Ea Est E KSync (c_imm_sync T HI _ _ _ E)
         | E : t_trysync _ _ _ = (_, TAImmediate) |- _ => imm_step Ea Est E KTry (c_imm_try T HI _ _ _ E)
         | _ => idtac end.
    (* a closure runs *)
    all: lazymatch goal with
         | Est : stack _ = FSIrun ?q :: _, Hoj : oj _ _ = Some (_, jobs ?qq) |- astep _ _ _ (view (setstack ?X _ ?st)) =>
             obs_compute Ea Est;
             destruct (sim_unhand s a ac X q st (JPlain (opctr ac)) (jobs qq) (acts s) Ea) as [Hp Hv];
             [ done | reflexivity | intros; reflexivity | rewrite Hoj, Hown; reflexivity
             | rewrite Est; cbn; rewrite decide_True by done; done | cbn; done
             | intros q' Hne; rewrite Est; cbn; repeat case_decide; try done; congruence | ];
             eapply (A_runimm (view s) a _ (aact ac) q (jobs qq)); [ apply acts_lookup, Ea | cbn; rewrite Est; reflexivity | exact Hp | exact Hv ]
         | Hoj : oj _ ?q = Some (_, jobs ?qq) |- astep _ _ _ (view (setstack (run_job _ _ ?j) _ ?st)) =>
             obs_compute Ea Est;
             destruct (sim_run F s a ac q st j (jobs qq) Ea) as [Hp Hv];
             [ rewrite Hoj, Hown; reflexivity
             | rewrite Est; cbn; rewrite decide_True by done; done | cbn; done
             | intros q' Hne; rewrite Est; cbn; repeat case_decide; try done; congruence | rewrite Est; reflexivity | ];
             eapply (A_run (view s) a _ q j (jobs qq)); [ exact Hp | exact Hv ]
         | _ => idtac end.
    (* a pool thread is spawned *)
    all: lazymatch goal with
         | |- astep _ _ _ (view (setstack (_ <| threads := ?TH |> <| actors := _ ++ [?new] |>) _ ?st)) =>
             rewrite (obs'_plain T s a ac _ _ _ Ea Est eq_refl);
             unfold at_top; rewrite actors_setstack_lookup, decide_True by done; cbn [actors set];
             rewrite lookup_app_l by (eapply lookup_lt_Some, Ea); rewrite Ea; cbv beta iota; cbn [fmap option_fmap option_map stack set];
             apply A_spawn; apply (sim_spawn s a ac st new TH Ea HIv); [ rewrite Est; reflexivity | intros q'; rewrite Est; reflexivity | done ]
         | _ => idtac end.
  Qed.
End Sim.
