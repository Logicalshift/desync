(* L1h: an abstract "history machine" that L1 refines.
   Of an actor it keeps the phase of its current API call, the id of that call and the result/ready flags;
   of a queue it keeps the pending jobs: the job in the hand of the queue's current owner followed by the stored jobs. *)
From stdpp Require Import list numbers option.
From RecordUpdate Require Import RecordUpdate.
From L1 Require Import Model Shape Stuck.
From L1h Require Import Hist.

Inductive phase :=
| PIdle                          (* a caller between two operations *)
| PPool                          (* a pool thread *)
| PPre (k : okind) (q : nat)     (* called, job not yet pushed *)
| PHand (q : nat)                (* immediate sync/try_sync: pushed-and-taken, the closure is about to run *)
| PWait (q : nat)                (* sync with a queued job: waits for (or drains towards) its own job *)
| PPost.                         (* nothing left to push or run; will return *)
#[export] Instance phase_eq_dec : EqDecision phase. Proof. solve_decision. Defined.

(* the phase is determined by the frame directly above the script frame *)
Definition api_phase (f : frame) : phase :=
  match f with
  | FD1 q => PPre KDesync q
  | FS1 q | FSDpush q | FSBreg q | FSBpush q => PPre KSync q
  | FTS1 q => PPre KTry q
  | FSIrun q => PHand q
  | FSDloop q | FSBcheck q | FSBwait q | FSBwoken q | FSBclaim q | FSBsteal q | FSBstealidle q => PWait q
  | FD2 _ | FSTlock | FSTscan _ | FSTspawn | FSIidle _ | FSDidle _ | FSBdone _ | FRQ1 _ | FRQ2 _ => PPost
  | _ => PPool
  end.
Definition aph (st : list frame) : phase :=
  match st with
  | [] => PPool
  | [x] => if is_top x then PIdle else PPool
  | [x; g] => if is_top g then api_phase x else PPool
  | [x; g; h] => if is_top h then api_phase g else PPool
  | _ => PPool
  end.

Record aactor := { ph : phase; aop : nat; ares : bool; ardy : bool }.
#[export] Instance eta_aactor : Settable _ := settable! Build_aactor <ph; aop; ares; ardy>.
Definition aact (ac : actor) : aactor := {| ph := aph ac.(stack); aop := ac.(opctr); ares := ac.(result); ardy := ac.(ready) |}.
Definition acts (s : state) : list aactor := aact <$> s.(actors).

(* the job a stack holds in its hand for queue q (o = the actor's current operation id) *)
Definition hand_fr (q o : nat) (fr : frame) : list job :=
  match fr with
  | FROrun q' j | FDRrun q' j => if decide (q' = q) then [j] else []
  | FSIrun q' => if decide (q' = q) then [JPlain o] else []
  | _ => []
  end.
Fixpoint handl (q o : nat) (st : list frame) : list job :=
  match st with [] => [] | f :: r => hand_fr q o f ++ handl q o r end.

(* the hand of actor b for queue q; owner and stored jobs of queue q *)
Definition hv (s : state) (b q : nat) : option (list job) := (fun ab => handl q ab.(opctr) ab.(stack)) <$> s.(actors) !! b.
Definition oj (s : state) (q : nat) : option (option nat * list job) := (fun qq => (qq.(owner), qq.(jobs))) <$> s.(queues) !! q.
(* pending jobs of q: what the owner has dequeued and not yet run, then the stored jobs *)
Definition pend (s : state) (q : nat) : list job :=
  match oj s q with
  | Some (Some b, js) => default [] (hv s b q) ++ js
  | Some (None, js) => js
  | None => []
  end.

Record aview := { v_acts : list aactor; v_pend : nat -> list job; v_ran : list nat; v_next : nat }.
Definition view (s : state) : aview := {| v_acts := acts s; v_pend := pend s; v_ran := s.(ran); v_next := s.(nextop) |}.
Definition veq (v w : aview) : Prop :=
  v_acts v = v_acts w /\ (forall q, v_pend v q = v_pend w q) /\ v_ran v = v_ran w /\ v_next v = v_next w.
Definition fupd {A} (q : nat) (x : A) (f : nat -> A) : nat -> A := fun q' => if decide (q' = q) then x else f q'.

(* running a job sets flags of the waiting caller *)
Definition arun_acts (j : job) (A : list aactor) : list aactor :=
  match j with
  | JPlain _ => A
  | JSyncDrain _ c => alter (fun x => x <| ares := true |>) c A
  | JSyncBg _ c => alter (fun x => x <| ares := true |> <| ardy := true |>) c A
  end.
Lemma arun_acts_fwd j (A : list aactor) b y : A !! b = Some y -> exists y', arun_acts j A !! b = Some y' /\ ph y' = ph y /\ aop y' = aop y.
Proof.
  intros Hb. destruct j as [o|o c|o c]; cbn; [eauto| |].
  all: destruct (decide (c = b)) as [->|]; [rewrite list_lookup_alter, Hb; cbn; eauto|rewrite list_lookup_alter_ne by done; eauto].
Qed.
Definition set_ph (p : phase) (x : aactor) : aactor := x <| ph := p |>.

(* how a desync call ends right after its push *)
Inductive dend := DGoOn | DRet | DPanic.
Definition dend_ev (d : dend) (i : nat) : list hevent := match d with DGoOn => [] | DRet => [Ret i] | DPanic => [RetPanic i] end.
Definition dend_ph (d : dend) : phase := match d with DGoOn => PPost | _ => PIdle end.

(* the abstract machine: [astep v a evs w] - actor a moves from v to w performing the events evs *)
Inductive astep (v : aview) (a : nat) : list hevent -> aview -> Prop :=
| A_stutter w : veq w v -> astep v a [] w
| A_spawn w :
    veq w {| v_acts := v_acts v ++ [ {| ph := PPool; aop := 0; ares := false; ardy := false |} ]; v_pend := v_pend v; v_ran := v_ran v; v_next := v_next v |} ->
    astep v a [] w
| A_call w x k q :
    v_acts v !! a = Some x -> ph x = PIdle ->
    veq w {| v_acts := <[a := {| ph := PPre k q; aop := v_next v; ares := false; ardy := false |}]> (v_acts v);
             v_pend := v_pend v; v_ran := v_ran v; v_next := S (v_next v) |} ->
    astep v a [Call (v_next v) q k] w
| A_pushd w x q d :
    v_acts v !! a = Some x -> ph x = PPre KDesync q ->
    veq w {| v_acts := alter (set_ph (dend_ph d)) a (v_acts v); v_pend := fupd q (v_pend v q ++ [JPlain (aop x)]) (v_pend v);
             v_ran := v_ran v; v_next := v_next v |} ->
    astep v a (Push (aop x) q :: dend_ev d (aop x)) w
| A_imm w x k q :
    v_acts v !! a = Some x -> ph x = PPre k q -> k <> KDesync -> v_pend v q = [] ->
    veq w {| v_acts := alter (set_ph (PHand q)) a (v_acts v); v_pend := fupd q [JPlain (aop x)] (v_pend v);
             v_ran := v_ran v; v_next := v_next v |} ->
    astep v a [Push (aop x) q] w
| A_pushs w x q j :
    v_acts v !! a = Some x -> ph x = PPre KSync q -> (j = JSyncDrain (aop x) a \/ j = JSyncBg (aop x) a) ->
    veq w {| v_acts := alter (set_ph (PWait q)) a (v_acts v); v_pend := fupd q (v_pend v q ++ [j]) (v_pend v);
             v_ran := v_ran v; v_next := v_next v |} ->
    astep v a [Push (aop x) q] w
| A_runimm w x q js :
    v_acts v !! a = Some x -> ph x = PHand q -> v_pend v q = JPlain (aop x) :: js ->
    veq w {| v_acts := alter (set_ph PPost) a (v_acts v); v_pend := fupd q js (v_pend v);
             v_ran := aop x :: v_ran v; v_next := v_next v |} ->
    astep v a [Run (aop x) q] w
| A_run w q j js :
    v_pend v q = j :: js ->
    veq w {| v_acts := arun_acts j (v_acts v); v_pend := fupd q js (v_pend v); v_ran := job_id j :: v_ran v; v_next := v_next v |} ->
    astep v a [Run (job_id j) q] w
| A_done w x q :
    v_acts v !! a = Some x -> ph x = PWait q -> (ares x = true \/ ardy x = true) ->
    veq w {| v_acts := alter (set_ph PPost) a (v_acts v); v_pend := v_pend v; v_ran := v_ran v; v_next := v_next v |} ->
    astep v a [] w
| A_ret w x :
    v_acts v !! a = Some x -> ph x = PPost ->
    veq w {| v_acts := alter (set_ph PIdle) a (v_acts v); v_pend := v_pend v; v_ran := v_ran v; v_next := v_next v |} ->
    astep v a [Ret (aop x)] w
| A_busy w x q :
    v_acts v !! a = Some x -> ph x = PPre KTry q ->
    veq w {| v_acts := alter (set_ph PIdle) a (v_acts v); v_pend := v_pend v; v_ran := v_ran v; v_next := v_next v |} ->
    astep v a [RetBusy (aop x)] w
| A_panic w x k q :
    v_acts v !! a = Some x -> ph x = PPre k q ->
    veq w {| v_acts := alter (set_ph PIdle) a (v_acts v); v_pend := v_pend v; v_ran := v_ran v; v_next := v_next v |} ->
    astep v a [RetPanic (aop x)] w.
