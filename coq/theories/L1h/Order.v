(* L1h: order and exactly-once properties of well-formed histories in which, per queue,
   the run sequence is a prefix of the push sequence *)
From stdpp Require Import list numbers option.
From L1h Require Import Hist HistFacts.

Lemma omap_split {A B} (f : A -> option B) l l1 y l2 :
  omap f l = l1 ++ y :: l2 -> exists h1 e h2, l = h1 ++ e :: h2 /\ f e = Some y /\ omap f h1 = l1 /\ omap f h2 = l2.
Proof.
  revert l1. induction l as [|x l IH]; intros l1 H; [by destruct l1|].
  cbn in H. destruct (f x) as [z|] eqn:E.
  - destruct l1 as [|z' l1]; cbn in H.
    + injection H as -> H. exists [], x, l. done.
    + injection H as -> H. destruct (IH l1 H) as (h1 & e & h2 & -> & He & H1 & H2). exists (x :: h1), e, h2. cbn. rewrite E, H1. done.
  - destruct (IH l1 H) as (h1 & e & h2 & -> & He & H1 & H2). exists (x :: h1), e, h2. cbn. rewrite E. done.
Qed.
Lemma nodup_split_unique {A} (L a1 a2 b1 b2 : list A) x :
  NoDup L -> L = a1 ++ x :: a2 -> L = b1 ++ x :: b2 -> a1 = b1 /\ a2 = b2.
Proof.
  intros Hnd -> H. revert b1 H Hnd. induction a1 as [|y a1 IH]; intros b1 H Hnd.
  - destruct b1 as [|z b1]; cbn in H; [by injection H|]. injection H as -> H. exfalso.
    apply list.NoDup_cons in Hnd as [Hn _]. apply Hn. rewrite H. apply elem_of_app. right. by left.
  - destruct b1 as [|z b1]; cbn in H.
    + injection H as -> H. exfalso. cbn in Hnd. apply list.NoDup_cons in Hnd as [Hn _]. apply Hn. apply elem_of_app. right. by left.
    + injection H as -> H. cbn in Hnd. apply list.NoDup_cons in Hnd as [_ Hnd]. destruct (IH b1 H Hnd) as [-> ->]. done.
Qed.

Lemma nodup_mid {A} (l1 l2 : list A) x : NoDup (l1 ++ x :: l2) -> x ∉ l1 ++ l2.
Proof.
  intros H. apply NoDup_app in H as (_ & H1 & H2). apply list.NoDup_cons in H2 as [H2 _].
  intros [Hin|Hin]%elem_of_app; [|done]. apply (H1 x Hin). by left.
Qed.

(* in a well-formed history no event occurs twice *)
Lemma hg_nodup h : HGood h -> NoDup h.
Proof.
  induction h as [|e h IH] using rev_ind; intros Hg; [constructor|].
  apply NoDup_app. split; [apply IH; by eapply HGood_prefix|]. split; [|apply NoDup_singleton].
  intros e' He' ->%elem_of_list_singleton. specialize (Hg h _ [] eq_refl).
  destruct e; cbn in Hg.
  - specialize (Hg _ He'). cbn in Hg. lia.
  - destruct Hg as (_ & Hn & _). apply Hn, elem_of_pushed_all. eauto.
  - destruct Hg as (_ & Hn). apply Hn, elem_of_runs. eauto.
  - destruct Hg as (_ & _ & Hn). apply Hn. by left.
  - destruct Hg as (_ & _ & Hn). apply Hn. right; by left.
  - apply Hg. right; by right.
Qed.
Lemma before_split (h : list hevent) e1 e2 a b : NoDup h -> before e1 e2 h -> h = a ++ e2 :: b -> e1 ∈ a.
Proof.
  intros Hnd (x & y & z & Hh) Ha.
  assert (Hh' : h = (x ++ e1 :: y) ++ e2 :: z) by (rewrite Hh, <- app_assoc; done).
  destruct (nodup_split_unique _ _ _ _ _ _ Hnd Ha Hh') as [-> _]. apply elem_of_app. right. by left.
Qed.

Lemma before_of_ranq h q l1 A l2 B l3 : ranq h q = l1 ++ A :: l2 ++ B :: l3 -> before (Run A q) (Run B q) h.
Proof.
  intros H. apply omap_split in H as (h1 & e & h2 & -> & He & _ & H2).
  apply omap_split in H2 as (h3 & e' & h4 & -> & He' & _ & _).
  assert (e = Run A q) as -> by (destruct e; try done; case_decide; [|done]; injection He as ->; by subst).
  assert (e' = Run B q) as -> by (destruct e'; try done; case_decide; [|done]; injection He' as ->; by subst).
  by exists h1, h3, h4.
Qed.

Section Order.
  Context (h : list hevent) (Hg : HGood h) (Hq : forall q, exists P, pushed h q = ranq h q ++ P).

  (* everything about an operation happens after its call *)
  Lemma call_first P i q k S e : h = P ++ Call i q k :: S -> e ∈ h -> ev_id e = i -> e = Call i q k \/ e ∈ S.
  Proof.
    intros Hh He Hid. pose proof (Hg P _ S Hh) as Hgood. cbn in Hgood. rewrite Hh in He.
    apply elem_of_app in He as [He|He]; [specialize (Hgood e He); lia|]. apply elem_of_cons in He as [->|He]; auto.
  Qed.
  Lemma run_pushed i q : Run i q ∈ h -> Push i q ∈ h.
  Proof.
    intros (h1 & h2 & ->)%elem_of_list_split. destruct (Hg h1 _ h2 eq_refl) as [H _]. apply elem_of_app. by left.
  Qed.
  Lemma push_called i q : Push i q ∈ h -> exists k, Call i q k ∈ h.
  Proof.
    intros (h1 & h2 & ->)%elem_of_list_split. destruct (Hg h1 _ h2 eq_refl) as [[k H] _]. exists k. apply elem_of_app. by left.
  Qed.
  Lemma run_q i q q' k : Call i q k ∈ h -> Run i q' ∈ h -> q' = q.
  Proof.
    intros Hc Hr. apply run_pushed, push_called in Hr as [k' Hc']. by destruct (hg_call_inj h Hg _ _ _ _ _ Hc Hc').
  Qed.
  Lemma ranq_prefix_in q i : i ∈ ranq h q -> i ∈ pushed h q.
  Proof. destruct (Hq q) as [P ->]. intros H. apply elem_of_app. by left. Qed.

  (* an operation that returned before another one was called was pushed first *)
  Lemma push_order A B q ka kb :
    Call A q ka ∈ h -> before (Ret A) (Call B q kb) h -> Push B q ∈ h -> exists l1 l2 l3, pushed h q = l1 ++ A :: l2 ++ B :: l3.
  Proof.
    intros HcA (h1 & h2 & h3 & Hh) HpB.
    (* A was pushed on q before its return *)
    assert (HpA : Push A q ∈ h1).
    { destruct (Hg h1 _ _ Hh) as (Hp & _). apply elem_of_pushed_all in Hp as [qa Hp].
      assert (HpA : Push A qa ∈ h) by (rewrite Hh; apply elem_of_app; by left).
      destruct (push_called _ _ HpA) as [k' Hc']. by destruct (hg_call_inj h Hg _ _ _ _ _ HcA Hc') as [-> _]. }
    (* B was pushed after its call *)
    assert (HpB' : Push B q ∈ h3).
    { assert (Hh' : h = (h1 ++ Ret A :: h2) ++ Call B q kb :: h3) by (rewrite Hh, <- app_assoc; done).
      destruct (call_first _ _ _ _ _ _ Hh' HpB eq_refl) as [?|?]; done. }
    apply elem_of_pushed, elem_of_list_split in HpA as (a1 & a2 & Ea). apply elem_of_pushed, elem_of_list_split in HpB' as (b1 & b2 & Eb).
    exists a1, (a2 ++ pushed (Ret A :: h2 ++ [Call B q kb]) q ++ b1), b2.
    rewrite Hh. replace (h1 ++ Ret A :: h2 ++ Call B q kb :: h3) with (h1 ++ (Ret A :: h2 ++ [Call B q kb]) ++ h3) by (cbn; by rewrite <- app_assoc).
    rewrite !pushed_app, Ea, Eb. by rewrite <- !app_assoc.
  Qed.

  (* C02: operations on one object run in the order in which they were called (call after return) *)
  Theorem order_C02 A B q ka kb :
    Call A q ka ∈ h -> before (Ret A) (Call B q kb) h ->
    forall qb, Run B qb ∈ h -> qb = q /\ before (Run A q) (Run B q) h.
  Proof.
    intros HcA Hbe qb HrB.
    assert (HcB : Call B q kb ∈ h) by (destruct Hbe as (h1 & h2 & h3 & ->); apply elem_of_app; right; right; apply elem_of_app; right; by left).
    assert (qb = q) as -> by (by eapply run_q). split; [done|].
    destruct (push_order A B q ka kb HcA Hbe (run_pushed _ _ HrB)) as (l1 & l2 & l3 & Hpush).
    (* the run sequence is a prefix of the push sequence and contains B *)
    destruct (Hq q) as [P HP]. pose proof (hg_pushed_nodup h q Hg) as Hnd.
    assert (HB : B ∈ ranq h q) by (by apply elem_of_ranq). apply elem_of_list_split in HB as (r1 & r2 & Er).
    assert (Hpush' : pushed h q = r1 ++ B :: (r2 ++ P)) by (rewrite HP, Er, <- app_assoc; done).
    rewrite app_comm_cons, app_assoc in Hpush.
    destruct (nodup_split_unique _ _ _ _ _ _ Hnd Hpush' Hpush) as [-> _].
    eapply before_of_ranq. rewrite Er. rewrite <- app_assoc. cbn. reflexivity.
  Qed.

  (* C03: every closure runs at most once, and only after it was pushed *)
  Theorem once_C03 : NoDup (runs h) /\ NoDup (pushed_all h) /\ (forall i q, Run i q ∈ h -> before (Push i q) (Run i q) h).
  Proof.
    split; [by apply hg_runs_nodup|]. split; [by apply hg_pushed_all_nodup|].
    intros i q (h1 & h2 & ->)%elem_of_list_split. destruct (Hg h1 _ h2 eq_refl) as [(a1 & a2 & ->)%elem_of_list_split _].
    exists a1, a2, h2. by rewrite <- app_assoc.
  Qed.


  (* everything about operation i lies after Call i *)
  Lemma before_call i q k e : Call i q k ∈ h -> e ∈ h -> ev_id e = i -> e <> Call i q k -> before (Call i q k) e h.
  Proof.
    intros (P & S & HP)%elem_of_list_split He Hid Hne.
    destruct (call_first _ _ _ _ _ _ HP He Hid) as [?|(s1 & s2 & ->)%elem_of_list_split]; [done|]. by exists P, s1, s2.
  Qed.

  (* C04: a sync (or a successful try_sync) returns after its own closure ran, once, between call and return *)
  Theorem sync_C04 i q k : k <> KDesync -> Call i q k ∈ h -> Ret i ∈ h ->
    exists h1 h2 h3 h4, h = h1 ++ Call i q k :: h2 ++ Run i q :: h3 ++ Ret i :: h4 /\ i ∉ runs (h1 ++ h2 ++ h3 ++ h4).
  Proof.
    intros Hk Hc Hr. pose proof (hg_nodup h Hg) as Hnd.
    pose proof Hr as (a & h4 & Ha)%elem_of_list_split.
    destruct (Hg a _ h4 Ha) as (_ & Hrun & _).
    assert (Hca : Call i q k ∈ a) by (eapply (before_split h _ _ a h4 Hnd); [by apply before_call|done]).
    specialize (Hrun q k Hca Hk). apply elem_of_runs in Hrun as [q' Hrun].
    assert (Hrh : Run i q' ∈ h) by (rewrite Ha; apply elem_of_app; by left).
    assert (q' = q) as -> by (by eapply (run_q i q q' k)).
    apply elem_of_list_split in Hrun as (b & h3 & Hb).
    assert (Hcb : Call i q k ∈ b).
    { eapply (before_split h _ _ b (h3 ++ Ret i :: h4) Hnd); [by apply before_call|]. rewrite Ha, Hb, <- app_assoc. done. }
    apply elem_of_list_split in Hcb as (h1 & h2 & Hcb).
    assert (Hh : h = h1 ++ Call i q k :: h2 ++ Run i q :: h3 ++ Ret i :: h4).
    { rewrite Ha, Hb, Hcb. rewrite <- ?app_assoc. cbn. rewrite <- ?app_assoc. done. }
    exists h1, h2, h3, h4. split; [done|].
    pose proof (hg_runs_nodup h Hg) as Hndr. rewrite Hh in Hndr.
    rewrite runs_app in Hndr. cbn in Hndr. rewrite runs_app in Hndr. cbn in Hndr. rewrite runs_app in Hndr. cbn in Hndr.
    rewrite app_assoc in Hndr. apply nodup_mid in Hndr. by rewrite !runs_app, app_assoc.
  Qed.

  (* a try_sync that found the queue busy never runs (and is never pushed) *)
  Theorem busy_C04 i : RetBusy i ∈ h -> i ∉ runs h /\ i ∉ pushed_all h.
  Proof.
    intros Hb. assert (Hnp : i ∉ pushed_all h).
    { intros [q Hp]%elem_of_pushed_all. destruct (two_occ h _ _ Hb Hp) as [?|[Hbe|Hbe]]; [done| |].
      - apply (before_good h _ _ Hg) in Hbe as (p & Hgood & Hin & _). cbn in Hgood. destruct Hgood as (_ & _ & Hnf). apply Hnf. right; by left.
      - apply (before_good h _ _ Hg) in Hbe as (p & Hgood & Hin & _). cbn in Hgood. destruct Hgood as (_ & Hn & _). apply Hn, elem_of_pushed_all. eauto. }
    split; [|done]. intros [q Hr]%elem_of_runs. apply Hnp, elem_of_pushed_all. exists q. by apply run_pushed.
  Qed.

  (* C05: a sync D on q issued after every other operation on q has returned (Desync::drop) runs last on q *)
  Theorem last_C05 D q h1 h2 :
    h = h1 ++ Call D q KSync :: h2 ->
    (forall B k, B <> D -> Call B q k ∈ h -> finished B h1) ->
    forall h3 h4, h = h3 ++ Run D q :: h4 ->
      (forall B, B <> D -> Push B q ∈ h -> Run B q ∈ h3) /\ (forall B, Run B q ∉ h4).
  Proof.
    intros Hh Hfin h3 h4 Hrun. pose proof (hg_nodup h Hg) as Hnd.
    (* every other push on q lies before the call of D *)
    assert (Hp1 : forall B, B <> D -> Push B q ∈ h -> Push B q ∈ h1).
    { intros B Hne Hp. destruct (push_called _ _ Hp) as [k Hc]. pose proof (Hfin B k Hne Hc) as HfB.
      rewrite Hh in Hp. apply elem_of_app in Hp as [Hp|Hp]; [done|]. exfalso.
      apply elem_of_cons in Hp as [?|Hp]; [done|]. apply elem_of_list_split in Hp as (s1 & s2 & ->).
      assert (Hh' : h = (h1 ++ Call D q KSync :: s1) ++ Push B q :: s2) by (rewrite Hh, <- app_assoc; done).
      destruct (Hg _ _ _ Hh') as (_ & _ & Hnf). apply Hnf. apply finished_app. by left. }
    (* so the push sequence of q is that of h1 followed by D *)
    assert (HpD : Push D q ∈ h2).
    { assert (Hr : Run D q ∈ h) by (rewrite Hrun; apply elem_of_app; right; by left). apply run_pushed in Hr.
      destruct (call_first _ _ _ _ _ _ Hh Hr eq_refl) as [?|?]; done. }
    assert (Hpush : pushed h q = pushed h1 q ++ [D]).
    { pose proof (hg_pushed_nodup h q Hg) as Hn. rewrite Hh, pushed_app in Hn.
      change (pushed (Call D q KSync :: h2) q) with (pushed h2 q) in Hn. apply NoDup_app in Hn as (_ & Hdis & Hn2).
      rewrite Hh, pushed_app. change (pushed (Call D q KSync :: h2) q) with (pushed h2 q). f_equal.
      assert (Hall : forall B, B ∈ pushed h2 q -> B = D).
      { intros B HB. destruct (decide (B = D)) as [|Hne]; [done|]. exfalso. apply (Hdis B); [|done].
        apply elem_of_pushed, Hp1; [done|]. rewrite Hh. apply elem_of_app. right. right. by apply elem_of_pushed. }
      apply elem_of_pushed in HpD. revert Hall HpD Hn2. generalize (pushed h2 q). intros l Hall HpD Hn2.
      destruct l as [|x [|y l]]; [by apply elem_of_nil in HpD| |].
      - f_equal. apply Hall. by left.
      - exfalso. assert (x = D) by (apply Hall; by left). assert (y = D) by (apply Hall; right; by left). subst.
        apply list.NoDup_cons in Hn2 as [Hn2 _]. apply Hn2. by left. }
    (* the run sequence of q is a prefix of it containing D: all of it *)
    destruct (Hq q) as [P HP]. pose proof (hg_pushed_nodup h q Hg) as Hn.
    assert (Hr34 : ranq h q = ranq h3 q ++ D :: ranq h4 q) by (rewrite Hrun, ranq_app; cbn; by rewrite decide_True).
    assert (E1 : pushed h q = ranq h3 q ++ D :: (ranq h4 q ++ P)) by (rewrite HP, Hr34, <- app_assoc; done).
    assert (E2 : pushed h q = pushed h1 q ++ D :: []) by done.
    destruct (nodup_split_unique _ _ _ _ _ _ Hn E1 E2) as [E3 E4].
    apply app_eq_nil in E4 as [E4 _].
    split.
    - intros B Hne Hp. apply elem_of_ranq. rewrite E3. apply elem_of_pushed. by apply Hp1.
    - intros B HB. apply elem_of_ranq in HB. rewrite E4 in HB. by apply elem_of_nil in HB.
  Qed.
End Order.
