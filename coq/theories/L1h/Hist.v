(* L1h: histories of the L1 model.  Definitions only.
   The L1 model (L1/Model.v) is not changed: the history of a run is computed by an observer that looks at the
   acting actor's top frame before each step (and, for "the call returned", at the actor's stack after it). *)
From stdpp Require Import list numbers option.
From RecordUpdate Require Import RecordUpdate.
From L1 Require Import Model Stuck.

Inductive okind := KDesync | KSync | KTry.
#[export] Instance okind_eq_dec : EqDecision okind. Proof. solve_decision. Defined.

(* what an observer of the API sees *)
Inductive hevent :=
| Call (id q : nat) (k : okind)     (* the API call starts: the operation gets its global id *)
| Push (id q : nat)                 (* the operation's job is appended to the queue of q (an immediate sync/try_sync: push-and-take) *)
| Run (id q : nat)                  (* the operation's closure runs (atomically) *)
| Ret (id : nat)                    (* the API call returns normally to its caller *)
| RetBusy (id : nat)                (* try_sync returns Err(Busy) *)
| RetPanic (id : nat).              (* the API call panics (queue in the Panicked state) *)
#[export] Instance hevent_eq_dec : EqDecision hevent. Proof. solve_decision. Defined.

Definition op_kind (o : op) : okind := match o with ODesync _ => KDesync | OSync _ => KSync | OTrySync _ => KTry end.
Definition job_id (j : job) : nat := match j with JPlain o | JSyncDrain o _ | JSyncBg o _ => o end.
#[export] Instance job_eq_dec : EqDecision job. Proof. solve_decision. Defined.

(* after the step, is actor [a] back at the top level of its script? *)
Definition at_top (s : state) (a : nat) : bool :=
  match s.(actors) !! a with
  | Some ac => match ac.(stack) with FTop _ :: _ => true | _ => false end
  | None => false
  end.

(* the events performed by the step [s --a--> s'] *)
Definition obs' (T : tables) (s : state) (a : nat) (s' : state) : list hevent :=
  match s.(actors) !! a with
  | None => []
  | Some ac =>
    let i := ac.(opctr) in
    let ret := if at_top s' a then [Ret i] else [] in
    match ac.(stack) with
    | [] => []
    | FTop [] :: _ => []
    | FTop (o :: _) :: _ => [Call s.(nextop) (op_q o) (op_kind o)]
    | FD1 q :: _ =>
        match s.(queues) !! q with
        | Some qq => Push i q :: match snd (T.(t_desync) qq.(qs)) with DASchedule => [] | DANone => [Ret i] | DAPanic => [RetPanic i] end
        | None => []
        end
    | FS1 q :: _ =>
        match s.(queues) !! q with
        | Some qq => match snd (T.(t_sync) qq.(qs) (bool_decide (qq.(jobs) = []))) with
                     | SAImmediate => [Push i q] | SAPanic => [RetPanic i] | _ => [] end
        | None => []
        end
    | FTS1 q :: _ =>
        match s.(queues) !! q with
        | Some qq => match snd (T.(t_trysync) qq.(qs) (bool_decide (qq.(jobs) = []))) with
                     | TAImmediate => [Push i q] | TABusy => [RetBusy i] | TAPanic => [RetPanic i] end
        | None => []
        end
    | FSDpush q :: _ | FSBpush q :: _ => [Push i q]
    | FSIrun q :: _ => [Run i q]
    | FROrun q j :: _ | FDRrun q j :: _ => [Run (job_id j) q]
    | _ => ret
    end
  end.

Definition obs (T : tables) (F : facts) (s : state) (a : nat) : list hevent :=
  match step T F s a with Some s' => obs' T s a s' | None => [] end.

(* the product of the model with its history; the first component is exactly [step] *)
Definition steph (T : tables) (F : facts) (sh : state * list hevent) (a : nat) : option (state * list hevent) :=
  s' ← step T F sh.1 a; Some (s', sh.2 ++ obs T F sh.1 a).
Definition runh (T : tables) (F : facts) (sh : state * list hevent) (tr : list nat) : option (state * list hevent) :=
  foldl (fun o a => x ← o; steph T F x a) (Some sh) tr.
(* the history of the run of [tr] from [s] (in chronological order) *)
Definition hist (T : tables) (F : facts) (s : state) (tr : list nat) : list hevent :=
  match runh T F (s, []) tr with Some (_, h) => h | None => [] end.

Definition ev_id (e : hevent) : nat := match e with Call i _ _ | Push i _ | Run i _ | Ret i | RetBusy i | RetPanic i => i end.
(* ids pushed on q, in push order *)
Definition pushed (h : list hevent) (q : nat) : list nat :=
  omap (fun e => match e with Push i q' => if decide (q' = q) then Some i else None | _ => None end) h.
Definition pushed_all (h : list hevent) : list nat := omap (fun e => match e with Push i _ => Some i | _ => None end) h.
(* ids run on q, in run order *)
Definition ranq (h : list hevent) (q : nat) : list nat :=
  omap (fun e => match e with Run i q' => if decide (q' = q) then Some i else None | _ => None end) h.
Definition runs (h : list hevent) : list nat := omap (fun e => match e with Run i _ => Some i | _ => None end) h.
Definition finished (i : nat) (h : list hevent) : Prop := Ret i ∈ h \/ RetBusy i ∈ h \/ RetPanic i ∈ h.
(* e1 occurs, and later e2 occurs *)
Definition before (e1 e2 : hevent) (h : list hevent) : Prop := exists h1 h2 h3, h = h1 ++ e1 :: h2 ++ e2 :: h3.

(* an executable scheduler, kept for experiments; nothing in the development calls it *)
Fixpoint first_enabled (T : tables) (F : facts) (s : state) (cands : list nat) : option (nat * state) :=
  match cands with
  | [] => None
  | a :: r => match step T F s a with Some s' => Some (a, s') | None => first_enabled T F s r end
  end.
(* at each step try the actors in the order given by the head of [prefs] (then everybody) *)
Fixpoint auto_trace (T : tables) (F : facts) (s : state) (prefs : list (list nat)) (fuel : nat) : list nat :=
  match fuel with
  | 0 => []
  | S n =>
    let '(p, ps) := match prefs with [] => ([], []) | p :: ps => (p, ps) end in
    match first_enabled T F s (p ++ seq 0 (length s.(actors))) with
    | Some (a, s') => a :: auto_trace T F s' ps n
    | None => []
    end
  end.
