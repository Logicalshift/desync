(* L1h: the invariant of the abstract history machine, and its preservation *)
From stdpp Require Import list numbers option.
From RecordUpdate Require Import RecordUpdate.
From L1 Require Import Model.
From L1h Require Import Hist Abs HistFacts.

Definition inop (x : aactor) : Prop := match ph x with PIdle | PPool => False | _ => True end.
(* what is known about an actor in a given phase *)
Definition act_ok (nx : nat) (rn : list nat) (h : list hevent) (x : aactor) : Prop :=
  match ph x with
  | PIdle | PPool => True
  | PPre k q => aop x < nx /\ ~ finished (aop x) h /\ Call (aop x) q k ∈ h /\ aop x ∉ pushed_all h /\ ares x = false /\ ardy x = false
  | PHand q => aop x < nx /\ ~ finished (aop x) h /\ aop x ∈ pushed_all h
  | PWait q => aop x < nx /\ ~ finished (aop x) h /\ aop x ∈ pushed_all h /\ (ares x = true \/ ardy x = true -> aop x ∈ rn)
  | PPost => aop x < nx /\ ~ finished (aop x) h /\ aop x ∈ pushed_all h /\ (forall q k, Call (aop x) q k ∈ h -> k <> KDesync -> aop x ∈ rn)
  end.
Definition is_sjob (j : job) (o c : nat) : Prop := j = JSyncDrain o c \/ j = JSyncBg o c.
Definition uniq (A : list aactor) : Prop :=
  forall a b x y, A !! a = Some x -> A !! b = Some y -> inop x -> inop y -> aop x = aop y -> a = b.
(* a queued sync job belongs to the current operation of a caller that is waiting for it *)
Definition jobs_ok (A : list aactor) (P : nat -> list job) : Prop :=
  forall q j o c, j ∈ P q -> is_sjob j o c -> exists x q', A !! c = Some x /\ aop x = o /\ ph x = PWait q'.

Record AInv (v : aview) (h : list hevent) : Prop := {
  ai_runs : runs h = rev (v_ran v);
  ai_q : forall q, pushed h q = ranq h q ++ (job_id <$> v_pend v q);
  ai_ids : forall e, e ∈ h -> ev_id e < v_next v;
  ai_acts : forall a x, v_acts v !! a = Some x -> act_ok (v_next v) (v_ran v) h x;
  ai_uniq : uniq (v_acts v);
  ai_job : jobs_ok (v_acts v) (v_pend v);
  ai_good : HGood h;
}.

Lemma AInv_veq w v h : veq w v -> AInv v h -> AInv w h.
Proof.
  intros (E1 & E2 & E3 & E4) [I1 I2 I3 I4 I5 I6 I7]. split; rewrite ?E1, ?E3, ?E4; try done.
  - intros q. by rewrite E2.
  - intros q j o c. rewrite E2. apply I6.
Qed.

(* the bookkeeping law of one step: what it runs and pushes is what it takes from and adds to the pending jobs *)
(* the queue q0 gets the pending list L: after a push of i, after a run of i *)
Lemma fupd_push q0 L (P : nat -> list job) i q :
  job_id <$> L = (job_id <$> P q0) ++ [i] -> job_id <$> fupd q0 L P q = (job_id <$> P q) ++ pushed [Push i q0] q.
Proof.
  intros H. unfold fupd, pushed. cbn. destruct (decide (q0 = q)) as [<-|]; [by rewrite decide_True|].
  rewrite decide_False by done. by rewrite app_nil_r.
Qed.
Lemma fupd_run q0 L (P : nat -> list job) i q :
  job_id <$> P q0 = i :: (job_id <$> L) -> ranq [Run i q0] q ++ (job_id <$> fupd q0 L P q) = (job_id <$> P q) ++ [].
Proof.
  intros H. unfold fupd, ranq. cbn. rewrite app_nil_r. destruct (decide (q0 = q)) as [<-|]; [by rewrite decide_True|].
  by rewrite decide_False.
Qed.

Lemma astep_law v a evs w : astep v a evs w ->
  v_ran w = rev (runs evs) ++ v_ran v /\ forall q, ranq evs q ++ (job_id <$> v_pend w q) = (job_id <$> v_pend v q) ++ pushed evs q.
Proof.
  intros [w' Hv|w' Hv|w' x k q0 Ha Hp Hv|w' x q0 d Ha Hp Hv|w' x k q0 Ha Hp Hk Hpe Hv|w' x q0 j Ha Hp Hj Hv|w' x q0 js Ha Hp Hpe Hv
         |w' q0 j js Hpe Hv|w' x q0 Ha Hp Hfl Hv|w' x Ha Hp Hv|w' x q0 Ha Hp Hv|w' x k q0 Ha Hp Hv];
    destruct Hv as (_ & Hpend & -> & _); cbn [v_pend v_ran] in *; (split; [by try destruct d|]); intros q; rewrite (Hpend q).
  (* the constructors that neither push nor run *)
  all: try (symmetry; apply app_nil_r).
  - (* A_pushd *) destruct d; apply (fupd_push q0); by rewrite fmap_app.
  - (* A_imm *) apply (fupd_push q0). by rewrite Hpe.
  - (* A_pushs *) apply (fupd_push q0). rewrite fmap_app. by destruct Hj as [-> | ->].
  - (* A_runimm *) apply (fupd_run q0). by rewrite Hpe.
  - (* A_run *) apply (fupd_run q0). by rewrite Hpe.
Qed.
Lemma ainv_law v h a evs w R : AInv v h -> astep v a evs w -> veq w R ->
  runs (h ++ evs) = rev (v_ran R) /\ forall q, pushed (h ++ evs) q = ranq (h ++ evs) q ++ (job_id <$> v_pend R q).
Proof.
  intros HI [Hr Hq]%astep_law (_ & EP & ER & _). rewrite <- ER, Hr. split.
  - by rewrite runs_app, (ai_runs v h HI), rev_app_distr, rev_involutive.
  - intros q. by rewrite <- EP, pushed_app, ranq_app, (ai_q v h HI), <- !app_assoc, Hq.
Qed.

Lemma act_ok_inop nx rn h x : inop x -> act_ok nx rn h x -> aop x < nx /\ ~ finished (aop x) h.
Proof. unfold inop, act_ok. destruct (ph x); try done; intros _ H; split; apply H. Qed.

Definition is_run (e : hevent) : Prop := exists i q, e = Run i q.
Definition fin_ev (e : hevent) : bool := match e with Ret _ | RetBusy _ | RetPanic _ => true | _ => false end.
Definition push_ev (e : hevent) : bool := match e with Push _ _ => true | _ => false end.
Definition call_ev (e : hevent) : bool := match e with Call _ _ _ => true | _ => false end.
Lemma not_finished_app i h evs : ~ finished i h -> (forall e, e ∈ evs -> ev_id e = i -> fin_ev e = false) -> ~ finished i (h ++ evs).
Proof.
  intros Hn Hev [H|H]%finished_app; [done|].
  destruct H as [H|[H|H]]; specialize (Hev _ H eq_refl); done.
Qed.
Lemma not_pushed_app i h evs : i ∉ pushed_all h -> (forall e, e ∈ evs -> ev_id e = i -> push_ev e = false) -> i ∉ pushed_all (h ++ evs).
Proof.
  intros Hn Hev. rewrite pushed_all_app, elem_of_app. intros [H|H]; [done|].
  apply elem_of_pushed_all in H as [q H]. specialize (Hev _ H eq_refl). done.
Qed.
Lemma call_app_inv i q k h evs : Call i q k ∈ h ++ evs -> (forall e, e ∈ evs -> ev_id e = i -> call_ev e = false) -> Call i q k ∈ h.
Proof. intros [H|H]%elem_of_app Hev; [done|]. specialize (Hev _ H eq_refl). done. Qed.
Lemma pushed_all_l i h evs : i ∈ pushed_all h -> i ∈ pushed_all (h ++ evs).
Proof. intros H. rewrite pushed_all_app. apply elem_of_app. by left. Qed.

(* runs, and events of other operations, do not touch what is known about an actor *)
Lemma act_ok_mono nx rn h x nx' rn' evs :
  act_ok nx rn h x -> nx <= nx' -> (forall i, i ∈ rn -> i ∈ rn') ->
  (inop x -> forall e, e ∈ evs -> ev_id e <> aop x \/ is_run e) ->
  act_ok nx' rn' (h ++ evs) x.
Proof.
  intros Hok Hnx Hrn Hev. unfold act_ok, inop in *. destruct (ph x); try done; specialize (Hev I).
  all: assert (Hev' : forall e, e ∈ evs -> ev_id e = aop x -> fin_ev e = false /\ push_ev e = false /\ call_ev e = false)
         by (intros e He Hid; destruct (Hev e He) as [?|(? & ? & ->)]; done).
  all: assert (Hnf : ~ finished (aop x) h -> ~ finished (aop x) (h ++ evs)) by (intros ?; apply not_finished_app; [done|]; intros; by apply Hev').
  - destruct Hok as (H1 & H2 & H3 & H4 & H5 & H6). repeat split; try done; [lia|by apply Hnf|by apply elem_of_app; left|].
    apply not_pushed_app; [done|]. intros; by apply Hev'.
  - destruct Hok as (H1 & H2 & H3). repeat split; [lia|by apply Hnf|by apply pushed_all_l].
  - destruct Hok as (H1 & H2 & H3 & H4). repeat split; [lia|by apply Hnf|by apply pushed_all_l|by intros H; apply Hrn, H4].
  - destruct Hok as (H1 & H2 & H3 & H4). repeat split; [lia|by apply Hnf|by apply pushed_all_l|].
    intros q k Hc Hk. apply Hrn, (H4 q k); [|done]. eapply call_app_inv; [done|]. intros; by apply Hev'.
Qed.

Section WithInv.
  Context (v : aview) (h : list hevent) (HI : AInv v h).

  Lemma ranq_pushed q i : i ∈ ranq h q -> i ∈ pushed h q.
  Proof. intros H. rewrite (ai_q v h HI q). apply elem_of_app. by left. Qed.
  Lemma pend_pushed q j : j ∈ v_pend v q -> Push (job_id j) q ∈ h.
  Proof. intros H. apply elem_of_pushed. rewrite (ai_q v h HI q). apply elem_of_app. right. by apply elem_of_list_fmap_1. Qed.
  (* a pending job has not run *)
  Lemma pend_not_ran q j : j ∈ v_pend v q -> job_id j ∉ v_ran v.
  Proof.
    intros Hj Hr. pose proof (ai_good v h HI) as Hg.
    assert (H1 : job_id j ∈ runs h) by (rewrite (ai_runs v h HI); by apply elem_of_rev).
    apply elem_of_runs in H1 as [q' H1].
    assert (H2 : Push (job_id j) q' ∈ h) by (apply elem_of_pushed, ranq_pushed; by apply elem_of_ranq).
    pose proof (pend_pushed q j Hj) as H3. assert (q' = q) by (by eapply hg_push_inj). subst q'.
    pose proof (hg_pushed_nodup h q Hg) as Hnd. rewrite (ai_q v h HI q) in Hnd. apply NoDup_app in Hnd as (_ & Hd & _).
    apply (Hd (job_id j)); [by apply elem_of_ranq|by apply elem_of_list_fmap_1].
  Qed.
  Lemma id_lt_next e : e ∈ h -> ev_id e < v_next v. Proof. apply (ai_ids v h HI). Qed.
  Lemma next_not_finished : ~ finished (v_next v) h.
  Proof. intros [H|[H|H]]; apply id_lt_next in H; cbn in H; lia. Qed.
  Lemma next_not_pushed : v_next v ∉ pushed_all h.
  Proof. intros [q H]%elem_of_pushed_all. apply id_lt_next in H; cbn in H; lia. Qed.

  (* the actors other than the stepping one *)
  Lemma others_ok a x b y evs nx' rn' :
    v_acts v !! a = Some x -> v_acts v !! b = Some y -> a <> b ->
    v_next v <= nx' -> (forall i, i ∈ v_ran v -> i ∈ rn') ->
    (forall e, e ∈ evs -> (inop x /\ ev_id e = aop x) \/ v_next v <= ev_id e \/ is_run e) ->
    act_ok nx' rn' (h ++ evs) y.
  Proof.
    intros Ha Hb Hne Hnx Hrn Hev. pose proof (ai_acts v h HI b y Hb) as Hy.
    eapply act_ok_mono; try done. intros Hiy e He.
    destruct (Hev e He) as [[Hx Hid]|[Hge|Hrun]]; [| |by right].
    - left. rewrite Hid. intros Heq. apply Hne. by eapply (ai_uniq v h HI a b x y).
    - left. destruct (act_ok_inop _ _ _ _ Hiy Hy) as [Hlt _]. lia.
  Qed.
End WithInv.

Lemma lookup_alter_Some {A} (l : list A) f (a b : nat) y' :
  alter f a l !! b = Some y' -> (b = a /\ exists y, l !! a = Some y /\ y' = f y) \/ (b <> a /\ l !! b = Some y').
Proof.
  destruct (decide (a = b)) as [->|Hne].
  - rewrite list_lookup_alter. destruct (l !! b) as [y|]; [|done]. cbn. intros [= <-]. left. eauto.
  - rewrite list_lookup_alter_ne by done. intros H. right. split; [congruence|done].
Qed.

Lemma uniq_alter A f a : uniq A -> (forall x, A !! a = Some x -> inop (f x) -> inop x /\ aop (f x) = aop x) -> uniq (alter f a A).
Proof.
  intros HU Hf b c x' y' Hb Hc Hx Hy Heq.
  apply lookup_alter_Some in Hb as [(-> & x & Ex & ->)|(Nb & Eb)]; apply lookup_alter_Some in Hc as [(-> & y & Ey & ->)|(Nc & Ec)]; try done.
  - destruct (Hf x Ex Hx) as [Hx' Hax]. eapply (HU a c x y'); try done. congruence.
  - destruct (Hf y Ey Hy) as [Hy' Hay]. eapply (HU b a x' y); try done. congruence.
  - by eapply (HU b c x' y').
Qed.

(* sync jobs stay attached when the stepping actor was not waiting, or keeps waiting; new jobs that are not sync jobs are harmless *)
Lemma jobs_alter_keep' A P P' f a :
  jobs_ok A P -> (forall q j, j ∈ P' q -> j ∈ P q \/ forall o c, ~ is_sjob j o c) ->
  (forall x q, A !! a = Some x -> ph x = PWait q -> ph (f x) = ph x /\ aop (f x) = aop x) ->
  jobs_ok (alter f a A) P'.
Proof.
  intros HJ Hsub Hf q j o c Hj Hs. destruct (Hsub _ _ Hj) as [Hj'|Hn]; [|by destruct (Hn o c)].
  destruct (HJ q j o c Hj' Hs) as (x & q' & Hx & Ho & Hp).
  destruct (decide (c = a)) as [->|Hne].
  - destruct (Hf x q' Hx Hp) as [E1 E2]. exists (f x), q'. rewrite list_lookup_alter, Hx. cbn. split; [done|]. split; congruence.
  - exists x, q'. by rewrite list_lookup_alter_ne.
Qed.
Lemma jobs_alter_keep A P P' f a :
  jobs_ok A P -> (forall q j, j ∈ P' q -> j ∈ P q) ->
  (forall x q, A !! a = Some x -> ph x = PWait q -> ph (f x) = ph x /\ aop (f x) = aop x) ->
  jobs_ok (alter f a A) P'.
Proof. intros HJ Hsub. apply (jobs_alter_keep' A P); [done|]. intros q j Hj. left. by apply Hsub. Qed.
Lemma jobs_alter_nocaller A P P' f a :
  jobs_ok A P -> (forall q j, j ∈ P' q -> j ∈ P q) -> (forall q j o, j ∈ P' q -> ~ is_sjob j o a) ->
  jobs_ok (alter f a A) P'.
Proof.
  intros HJ Hsub Hno q j o c Hj Hs. destruct (HJ q j o c (Hsub _ _ Hj) Hs) as (x & q' & Hx & Ho & Hp).
  destruct (decide (c = a)) as [->|Hne]; [by destruct (Hno q j o Hj)|].
  exists x, q'. by rewrite list_lookup_alter_ne.
Qed.
Lemma elem_of_fupd {A} q (x : list A) f q0 y : y ∈ fupd q x f q0 -> (q0 = q /\ y ∈ x) \/ (q0 <> q /\ y ∈ f q0).
Proof. unfold fupd. case_decide; [by left|by right]. Qed.
Lemma elem_of_snoc {A} (l : list A) x y : y ∈ l ++ [x] -> y ∈ l \/ y = x.
Proof. intros [H|H%elem_of_list_singleton]%elem_of_app; auto. Qed.

(* an actor inside an operation moves: all events carry its id, nothing runs *)
Lemma ainv_own_step v h a x p evs P' :
  AInv v h -> v_acts v !! a = Some x -> inop x -> (forall e, e ∈ evs -> ev_id e = aop x) ->
  runs (h ++ evs) = rev (v_ran v) -> (forall q, pushed (h ++ evs) q = ranq (h ++ evs) q ++ (job_id <$> P' q)) ->
  act_ok (v_next v) (v_ran v) (h ++ evs) (set_ph p x) -> jobs_ok (alter (set_ph p) a (v_acts v)) P' -> HGood (h ++ evs) ->
  AInv {| v_acts := alter (set_ph p) a (v_acts v); v_pend := P'; v_ran := v_ran v; v_next := v_next v |} (h ++ evs).
Proof.
  intros HI Ha Hix Hev L1 L2 Hnew Hjobs Hgood. split; cbn [v_acts v_pend v_ran v_next]; try done.
  - intros e [He|He]%elem_of_app; [by apply (ai_ids v h HI)|]. rewrite (Hev e He). by apply (act_ok_inop _ _ _ _ Hix (ai_acts v h HI a x Ha)).
  - intros b y' [(-> & y & Hy & ->)|(Hne & Hb)]%lookup_alter_Some; [by replace y with x by congruence|].
    eapply (others_ok v h HI a x b y'); try done. intros e He. left. auto.
  - apply uniq_alter; [by apply (ai_uniq v h HI)|]. intros y Hy _. by replace y with x by congruence.
Qed.

Lemma arun_acts_inv j (A : list aactor) b y' : arun_acts j A !! b = Some y' ->
  exists y, A !! b = Some y /\ ph y' = ph y /\ aop y' = aop y /\
            ((ares y' = ares y /\ ardy y' = ardy y) \/ exists o, is_sjob j o b).
Proof.
  destruct j as [o|o c|o c]; cbn.
  - intros H. exists y'. split; [done|]. repeat split; by left.
  - intros [(-> & y & Hy & ->)|(Hne & Hb)]%lookup_alter_Some.
    + exists y. split; [done|]. repeat split. right. exists o. by left.
    + exists y'. split; [done|]. repeat split; by left.
  - intros [(-> & y & Hy & ->)|(Hne & Hb)]%lookup_alter_Some.
    + exists y. split; [done|]. repeat split. right. exists o. by right.
    + exists y'. split; [done|]. repeat split; by left.
Qed.

Lemma run_preserved v h q j js :
  AInv v h -> v_pend v q = j :: js ->
  (forall b y', arun_acts j (v_acts v) !! b = Some y' -> act_ok (v_next v) (job_id j :: v_ran v) (h ++ [Run (job_id j) q]) y') /\
  uniq (arun_acts j (v_acts v)) /\ jobs_ok (arun_acts j (v_acts v)) (fupd q js (v_pend v)) /\
  HGood (h ++ [Run (job_id j) q]) /\ forall e, e ∈ h ++ [Run (job_id j) q] -> ev_id e < v_next v.
Proof.
  intros HI Hpe. pose proof HI as [I1 I2 I3 I4 I5 I6 I7].
  assert (Hin : j ∈ v_pend v q) by (rewrite Hpe; by left).
  pose proof (pend_pushed v h HI q j Hin) as Hpush.
  pose proof (pend_not_ran v h HI q j Hin) as Hnr.
  split; [|split; [|split; [|split]]].
  - intros b y' Hb. destruct (arun_acts_inv j _ b y' Hb) as (y & Hy & E1 & E2 & Hfl).
    pose proof (I4 b y Hy) as Hok.
    assert (Hm : act_ok (v_next v) (job_id j :: v_ran v) (h ++ [Run (job_id j) q]) y).
    { eapply act_ok_mono; [exact Hok|done|by intros; right|]. intros _ e ->%elem_of_list_singleton. right. by eexists _, _. }
    unfold act_ok in *. rewrite E1, E2. destruct (ph y) eqn:Ey; try done.
    + destruct Hfl as [[-> ->]|(o & Hs)]; [done|]. exfalso. destruct (I6 q j o b Hin Hs) as (z & q' & Hz & _ & Hpz). congruence.
    + destruct Hm as (M1 & M2 & M3 & M4). repeat split; try done. destruct Hfl as [[-> ->]|(o & Hs)]; [done|]. intros _.
      destruct (I6 q j o b Hin Hs) as (z & q' & Hz & Ho & _). rewrite Hy in Hz. injection Hz as <-. rewrite Ho. apply elem_of_cons. left.
      by destruct Hs as [-> | ->].
  - intros b c y' z' Hb Hc Hy Hz Heq.
    destruct (arun_acts_inv j _ b y' Hb) as (y & Hy0 & E1 & E2 & _). destruct (arun_acts_inv j _ c z' Hc) as (z & Hz0 & F1 & F2 & _).
    eapply (I5 b c y z); try done; [unfold inop in *; by rewrite <- E1|unfold inop in *; by rewrite <- F1|congruence].
  - intros q0 j' o c Hj' Hs.
    assert (Hj0 : j' ∈ v_pend v q0).
    { apply elem_of_fupd in Hj' as [[-> Hj']|[_ Hj']]; [|done]. rewrite Hpe. by right. }
    destruct (I6 q0 j' o c Hj0 Hs) as (z & q' & Hz & Ho & Hpz).
    destruct (arun_acts_fwd j _ c z Hz) as (z' & Hz' & G1 & G2). exists z', q'. split; [done|]. split; congruence.
  - apply HGood_snoc; [done|]. split; [done|]. by rewrite I1, elem_of_rev.
  - intros e [He| ->]%elem_of_snoc; [by apply I3|]. apply (I3 _ Hpush).
Qed.

Lemma dend_events d i q e : e ∈ Push i q :: dend_ev d i -> ev_id e = i.
Proof.
  destruct d; cbn; intros H; repeat (apply elem_of_cons in H as [->|H]; [done|]); by apply elem_of_nil in H.
Qed.
Ltac ev1 := let e := fresh "e" in intros e ->%elem_of_list_singleton.

Theorem astep_inv v a evs w h : AInv v h -> astep v a evs w -> AInv w (h ++ evs).
Proof.
  intros HI Hst. pose proof HI as [I1 I2 I3 I4 I5 I6 I7]. pose proof Hst as Hst0.
  destruct Hst as [w Hv|w Hv|w x k q Ha Hp Hv|w x q d Ha Hp Hv|w x k q Ha Hp Hk Hpe Hv|w x q j Ha Hp Hj Hv|w x q js Ha Hp Hpe Hv
                  |w q j js Hpe Hv|w x q Ha Hp Hfl Hv|w x Ha Hp Hv|w x q Ha Hp Hv|w x k q Ha Hp Hv];
    destruct (ainv_law v h a _ w _ HI Hst0 Hv) as [L1 L2]; cbn [v_pend v_ran] in L1, L2; (eapply AInv_veq; [exact Hv|]); clear Hv Hst0 w.
  all: try (pose proof (I4 a x Ha) as Hx; unfold act_ok in Hx; rewrite Hp in Hx; assert (Hix : inop x) by (unfold inop; by rewrite Hp)).
  - (* A_stutter *) by rewrite app_nil_r.
  - (* A_spawn *)
    rewrite app_nil_r. split; cbn [v_acts v_pend v_ran v_next]; try done.
    + intros b y [Hb|[_ Hb]]%lookup_app_Some; [by eapply I4|]. destruct (b - _); [|done]. by injection Hb as <-.
    + intros b c y z Hb Hc Hy Hz Heq.
      apply lookup_app_Some in Hb as [Hb|[_ Hb]]; [|destruct (b - _); [|done]; by injection Hb as <-].
      apply lookup_app_Some in Hc as [Hc|[_ Hc]]; [|destruct (c - _); [|done]; by injection Hc as <-].
      by eapply (I5 b c y z).
    + intros q j o c Hj Hs. destruct (I6 q j o c Hj Hs) as (x & q' & Hx & Hr). exists x, q'. split; [by apply lookup_app_l_Some|done].
  - (* A_call *)
    assert (Hlt : a < length (v_acts v)) by (by eapply lookup_lt_Some).
    split; cbn [v_acts v_pend v_ran v_next]; [done|done|..].
    + intros e [He| ->]%elem_of_snoc; [specialize (I3 e He); lia|cbn; lia].
    + intros b y' Hb. destruct (decide (a = b)) as [<-|Hne].
      * rewrite list_lookup_insert in Hb by done. injection Hb as <-. unfold act_ok; cbn. repeat split; try done; [lia| | |].
        -- apply not_finished_app; [by eapply next_not_finished|]. by ev1.
        -- apply elem_of_app. right. by left.
        -- apply not_pushed_app; [by eapply next_not_pushed|]. by ev1.
      * rewrite list_lookup_insert_ne in Hb by done. eapply (others_ok v h HI a x b y'); try done; [lia|]. ev1. right; left. cbn. lia.
    + intros b c y z Hb Hc Hy Hz Heq. destruct (decide (b = c)) as [|Hne]; [done|]. exfalso.
      destruct (decide (a = b)) as [<-|Hab]; [|destruct (decide (a = c)) as [<-|Hac]].
      * rewrite list_lookup_insert in Hb by done. injection Hb as <-. rewrite list_lookup_insert_ne in Hc by done.
        destruct (act_ok_inop _ _ _ _ Hz (I4 c z Hc)) as [Hl _]. cbn in Heq. lia.
      * rewrite list_lookup_insert in Hc by done. injection Hc as <-. rewrite list_lookup_insert_ne in Hb by done.
        destruct (act_ok_inop _ _ _ _ Hy (I4 b y Hb)) as [Hl _]. cbn in Heq. lia.
      * rewrite list_lookup_insert_ne in Hb, Hc by done. apply Hne. by eapply (I5 b c y z).
    + intros q0 j o c Hj Hs. destruct (I6 q0 j o c Hj Hs) as (y & q' & Hy & Ho & Hph). exists y, q'. split; [|done].
      rewrite list_lookup_insert_ne; [done|]. intros ->. rewrite Ha in Hy. injection Hy as ->. congruence.
    + apply HGood_snoc; [done|]. exact I3.
  - (* A_pushd *)
    destruct Hx as (X1 & X2 & X3 & X4 & X5 & X6).
    assert (Hcall : forall q' k', Call (aop x) q' k' ∈ h ++ [Push (aop x) q] -> k' = KDesync).
    { intros q' k' Hc. apply call_app_inv in Hc; [|by ev1]. by destruct (hg_call_inj h I7 _ _ _ _ _ X3 Hc). }
    assert (Hpa : aop x ∈ pushed_all (h ++ [Push (aop x) q])) by (apply elem_of_pushed_all; exists q; apply elem_of_app; right; by left).
    assert (Hg1 : HGood (h ++ [Push (aop x) q])) by (apply HGood_snoc; [done|]; split; [by exists KDesync|done]).
    apply (ainv_own_step v h a x); try done.
    + intros e He. by eapply dend_events.
    + unfold act_ok. destruct d; cbn [set_ph dend_ph ph aop set]; try done.
      repeat split; try done; [by apply not_finished_app; [|ev1]|]. intros q' k' Hc Hk. by destruct (Hk (Hcall _ _ Hc)).
    + eapply jobs_alter_keep'; [exact I6| |].
      * intros q0 j [[-> Hj]|[_ Hj]]%elem_of_fupd; [|by left]. apply elem_of_snoc in Hj as [Hj| ->]; [by left|].
        right. intros o c [?|?]; done.
      * intros y q' Hy Hq'. rewrite Ha in Hy. injection Hy as <-. congruence.
    + destruct d; cbn [dend_ev]; [done|..]; rewrite cons_middle, app_assoc; (apply HGood_snoc; [done|]).
      * split; [done|]. split; [|by apply not_finished_app; [|ev1]]. intros q' k' Hc Hk. by destruct (Hk (Hcall _ _ Hc)).
      * by apply not_finished_app; [|ev1].
  - (* A_imm *)
    destruct Hx as (X1 & X2 & X3 & X4 & X5 & X6). apply (ainv_own_step v h a x); try done.
    + by ev1.
    + unfold act_ok. cbn. repeat split; try done; [by apply not_finished_app; [|ev1]|].
      apply elem_of_pushed_all. exists q. apply elem_of_app. right. by left.
    + eapply jobs_alter_keep'; [exact I6| |].
      * intros q0 j [[-> Hj]|[_ Hj]]%elem_of_fupd; [|by left]. apply elem_of_list_singleton in Hj as ->. right. intros o c [?|?]; done.
      * intros y q' Hy Hq'. rewrite Ha in Hy. injection Hy as <-. congruence.
    + apply HGood_snoc; [done|]. split; [by exists k|done].
  - (* A_pushs *)
    destruct Hx as (X1 & X2 & X3 & X4 & X5 & X6). apply (ainv_own_step v h a x); try done.
    + by ev1.
    + unfold act_ok. cbn. repeat split; try done; [by apply not_finished_app; [|ev1]| |].
      * apply elem_of_pushed_all. exists q. apply elem_of_app. right. by left.
      * rewrite X5, X6. by intros [?|?].
    + (* the jobs that were queued belong to other callers; the new one is a's *)
      assert (Hold : forall q0 j' o c, j' ∈ v_pend v q0 -> is_sjob j' o c ->
                exists y q', alter (set_ph (PWait q)) a (v_acts v) !! c = Some y /\ aop y = o /\ ph y = PWait q').
      { intros q0 j' o c Hj' Hs. destruct (I6 _ j' o c Hj' Hs) as (y & q' & Hy & Ho & Hph). exists y, q'. split; [|done].
        rewrite list_lookup_alter_ne; [done|]. intros ->. rewrite Ha in Hy. injection Hy as ->. congruence. }
      intros q0 j' o c [[-> [Hj'| ->]%elem_of_snoc]|[_ Hj']]%elem_of_fupd Hs; [by eapply Hold| |by eapply Hold].
      assert (c = a /\ o = aop x) as [-> ->] by (destruct Hj as [-> | ->], Hs as [Hs|Hs]; try discriminate; injection Hs as H1 H2; by subst).
      exists (set_ph (PWait q) x), q. by rewrite list_lookup_alter, Ha.
    + apply HGood_snoc; [done|]. split; [by exists KSync|done].
  - (* A_runimm *)
    destruct (run_preserved v h q (JPlain (aop x)) js HI Hpe) as (R1 & R2 & R3 & R4 & R5). cbn [arun_acts job_id] in *.
    destruct Hx as (X1 & X2 & X3).
    split; cbn [v_acts v_pend v_ran v_next]; try done.
    + intros b y' [(-> & y & Hy & ->)|(Hne & Hb)]%lookup_alter_Some; [|by apply (R1 b)].
      rewrite Ha in Hy. injection Hy as <-. unfold act_ok. cbn. repeat split; try done.
      * by apply not_finished_app; [|ev1].
      * by apply pushed_all_l.
      * intros. by left.
    + apply uniq_alter; [done|]. intros y Hy _. by replace y with x by congruence.
    + eapply jobs_alter_keep'; [exact R3|by left|]. intros y q' Hy Hq'. rewrite Ha in Hy. injection Hy as <-. congruence.
  - (* A_run *)
    destruct (run_preserved v h q j js HI Hpe) as (R1 & R2 & R3 & R4 & R5). by split.
  - (* A_done *)
    destruct Hx as (X1 & X2 & X3 & X4). apply (ainv_own_step v h a x); rewrite ?app_nil_r; try done.
    + by intros e ?%elem_of_nil.
    + unfold act_ok. cbn. repeat split; try done. intros _ _ _ _. by apply X4.
    + eapply jobs_alter_nocaller; [exact I6|done|]. intros q0 j o Hj Hs.
      destruct (I6 q0 j o a Hj Hs) as (y & q' & Hy & Ho & _). rewrite Ha in Hy. injection Hy as <-.
      apply (pend_not_ran v h HI q0 j Hj). assert (job_id j = o) as -> by (by destruct Hs as [-> | ->]). rewrite <- Ho. by apply X4.
  - (* A_ret *)
    destruct Hx as (X1 & X2 & X3 & X4). apply (ainv_own_step v h a x); try done; [by ev1| |].
    + eapply jobs_alter_keep'; [exact I6|by left|]. intros y q' Hy Hq'. rewrite Ha in Hy. injection Hy as <-. congruence.
    + apply HGood_snoc; [done|]. split; [done|]. split; [|done]. intros q k Hc Hk. rewrite I1, elem_of_rev. by eapply X4.
  - (* A_busy *)
    destruct Hx as (X1 & X2 & X3 & X4 & X5 & X6). apply (ainv_own_step v h a x); try done; [by ev1| |].
    + eapply jobs_alter_keep'; [exact I6|by left|]. intros y q' Hy Hq'. rewrite Ha in Hy. injection Hy as <-. congruence.
    + apply HGood_snoc; [done|]. split; [by exists q|done].
  - (* A_panic *)
    destruct Hx as (X1 & X2 & X3 & X4 & X5 & X6). apply (ainv_own_step v h a x); try done; [by ev1| |].
    + eapply jobs_alter_keep'; [exact I6|by left|]. intros y q' Hy Hq'. rewrite Ha in Hy. injection Hy as <-. congruence.
    + apply HGood_snoc; [done|]. done.
Qed.
