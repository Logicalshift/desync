(* PoolChg: what holds in every reachable state however the maximum changes: the pool and every stale maximum stay
   within max_ever *)
From stdpp Require Import list numbers option.
From RecordUpdate Require Import RecordUpdate.
From L0 Require Import Types.
From PoolChg Require Import Model.

Lemma run_none F tr : foldl (fun os a => o ← os; step F o a) None tr = None.
Proof. induction tr as [|a tr IH]; cbn; [done|exact IH]. Qed.
Lemma run_nil F s : run F s [] = Some s. Proof. done. Qed.
Lemma run_cons F s a tr : run F s (a :: tr) = s1 ← step F s a; run F s1 tr.
Proof. unfold run; cbn. destruct (step F s a); cbn; [done|apply run_none]. Qed.
Lemma run_app F s tr1 tr2 : run F s (tr1 ++ tr2) = s1 ← run F s tr1; run F s1 tr2.
Proof. unfold run. rewrite foldl_app. destruct (foldl _ (Some s) tr1); cbn; [done|apply run_none]. Qed.
Lemma run_snoc F s tr a : run F s (tr ++ [a]) = s1 ← run F s tr; step F s1 a.
Proof. rewrite run_app. destruct (run F s tr) as [s1|]; [|done]. unfold run; cbn. by destruct (step F s1 a). Qed.

Lemma run_inv F (P : state -> Prop) :
  (forall s a s', P s -> step F s a = Some s' -> P s') ->
  forall tr s s', P s -> run F s tr = Some s' -> P s'.
Proof.
  intros HP tr. induction tr as [|a tr IH]; intros s s' Hs Hr.
  - rewrite run_nil in Hr. by simplify_eq.
  - rewrite run_cons in Hr. destruct (step F s a) as [s1|] eqn:E; cbn in Hr; [|done]. eauto.
Qed.

Lemma pop_loop_split c m ths r hs : pop_loop c m ths = (r, hs) -> ths = hs ++ r.
Proof.
  revert r hs; induction ths as [|t ths IH]; intros r hs H; cbn in H.
  - by simplify_eq.
  - destruct (cmp_b c _ m).
    + destruct (pop_loop c m ths) as [r' hs'] eqn:E. simplify_eq. cbn. f_equal. by apply IH.
    + by simplify_eq.
Qed.
Lemma pop_loop_length c m ths r hs : pop_loop c m ths = (r, hs) -> length r <= length ths.
Proof. intros H%pop_loop_split. subst. rewrite app_length. lia. Qed.
Lemma pop_loop_gt m ths r hs : pop_loop CGt m ths = (r, hs) -> length r <= m.
Proof.
  revert r hs; induction ths as [|t ths IH]; intros r hs H; cbn -[length] in H.
  - simplify_eq. cbn. lia.
  - case_bool_decide.
    + destruct (pop_loop CGt m ths) as [r' hs'] eqn:E. simplify_eq. by eapply IH.
    + simplify_eq. lia.
Qed.
Lemma pop_loop_gt_id m ths : length ths <= m -> pop_loop CGt m ths = (ths, []).
Proof. destruct ths as [|t ths]; [done|]. intros H. cbn -[length]. case_bool_decide; [lia|done]. Qed.

Definition pushed (s : state) : state := s <| threads := s.(next) :: s.(threads) |> <| next := S s.(next) |>.
Lemma try_push_cases F s m : F.(f_spawn_cmp) = CLt ->
  (try_push F s m = s /\ m <= length s.(threads)) \/ (try_push F s m = pushed s /\ length s.(threads) < m).
Proof. intros E. unfold try_push. rewrite E; cbn. case_bool_decide; [right|left]; split; try done; lia. Qed.

Lemma lookup_setspw (l : list spc) i pc j x : <[i:=pc]> l !! j = Some x -> (j = i /\ x = pc) \/ (j <> i /\ l !! j = Some x).
Proof. intros H%list_lookup_insert_Some. naive_solver. Qed.

Inductive step_spec (F : facts) (s : state) : actor -> state -> Prop :=
| st_read i k : s.(spw) !! i = Some (SIdle (S k)) -> F.(f_max_read_under_threads_lock) = false ->
    step_spec F s (ASpawn i) (setspw s i (SRead s.(maxt) k))
| st_atomic i k : s.(spw) !! i = Some (SIdle (S k)) -> F.(f_max_read_under_threads_lock) = true ->
    step_spec F s (ASpawn i) (setspw (try_push F s s.(maxt)) i (SIdle k))
| st_push i m k : s.(spw) !! i = Some (SRead m k) ->
    step_spec F s (ASpawn i) (setspw (try_push F s m) i (SIdle k))
| st_set n r : s.(chg) = CIdle -> s.(cscript) = CSet n :: r ->
    step_spec F s AChg (s <| maxt := n |> <| max_ever := Nat.max s.(max_ever) n |>
                          <| dirty := s.(dirty) || bool_decide (n < s.(maxt)) |> <| cscript := r |>)
| st_dread r : s.(chg) = CIdle -> s.(cscript) = CDespawn :: r ->
    step_spec F s AChg (s <| chg := CRead s.(maxt) |> <| cscript := r |>)
| st_pop m r hs : s.(chg) = CRead m -> pop_loop F.(f_despawn_cmp) m s.(threads) = (r, hs) ->
    step_spec F s AChg (s <| threads := r |> <| dying := s.(dying) ++ hs |> <| chg := CPopped hs |> <| pops := S s.(pops) |> <| dirty := false |>)
| st_join hs : s.(chg) = CPopped hs -> Forall (fun h => h ∉ s.(dying)) hs ->
    step_spec F s AChg (s <| chg := CIdle |>)
| st_end t : t ∈ s.(dying) ->
    step_spec F s (AEnd t) (s <| dying := filter (fun x => x <> t) s.(dying) |>).

Lemma step_inv F s a s' : step F s a = Some s' -> step_spec F s a s'.
Proof.
  intros H. destruct a as [i| |t]; cbn in H.
  - destruct (spw s !! i) as [pc|] eqn:Ei; cbn in H; [|done].
    destruct pc as [[|k]|m k]; [done| |].
    + destruct (f_max_read_under_threads_lock F) eqn:EF; simplify_eq; by econstructor.
    + simplify_eq. by econstructor.
  - destruct (chg s) as [|m|hs] eqn:Ec.
    + destruct (cscript s) as [|[n|] r] eqn:Es; simplify_eq; by econstructor.
    + destruct (pop_loop _ m (threads s)) as [r hs] eqn:Ep. simplify_eq. by econstructor.
    + case_bool_decide; simplify_eq. by econstructor.
  - case_bool_decide; simplify_eq. by econstructor.
Qed.

Record inv0 (s : state) : Prop := {
  i_chg : forall m, s.(chg) = CRead m -> m = s.(maxt);                      (* only the changer writes the maximum *)
  i_dy : match s.(chg) with CPopped hs => s.(dying) ⊆ hs | _ => s.(dying) = [] end;
  i_max : s.(maxt) <= s.(max_ever);
  i_len : length s.(threads) <= s.(max_ever);
  i_stale : forall i m k, s.(spw) !! i = Some (SRead m k) -> m <= s.(max_ever);
  i_zero : s.(max_ever) = 0 -> s.(next) = 0 }.

Lemma inv0_init mx calls cs : inv0 (init mx calls cs).
Proof.
  split; cbn; try done; try lia.
  intros i m k H. rewrite list_lookup_fmap in H. destruct (calls !! i); simplify_eq.
Qed.

Lemma inv0_step F s a s' : F.(f_spawn_cmp) = CLt -> inv0 s -> step F s a = Some s' -> inv0 s'.
Proof.
  intros HS [Hc Hd Hm Hl Hst Hz] H%step_inv. destruct H; unfold setspw, pushed.
  - split; cbn; try done.
    intros j m' k' [(-> & E)|(_ & E)]%lookup_setspw; [by simplify_eq|eauto].
  - destruct (try_push_cases F s (maxt s) HS) as [(-> & _)|(-> & Hlt)].
    + split; cbn; try done. intros j m' k' [(-> & E)|(_ & E)]%lookup_setspw; [done|eauto].
    + split; cbn; try done; try (intros; lia).
      intros j m' k' [(-> & E)|(_ & E)]%lookup_setspw; [done|eauto].
  - pose proof (Hst _ _ _ H) as Hm0.
    destruct (try_push_cases F s m HS) as [(-> & _)|(-> & Hlt)].
    + split; cbn; try done. intros j m' k' [(-> & E)|(_ & E)]%lookup_setspw; [done|eauto].
    + split; cbn; try done; try (intros; lia).
      intros j m' k' [(-> & E)|(_ & E)]%lookup_setspw; [done|eauto].
  - split; cbn; try done; try lia.
    + intros m E. congruence.
    + intros i m k E. specialize (Hst _ _ _ E). lia.
  - split; cbn; try done.
    + intros m E. by simplify_eq.
    + by rewrite H in Hd.
  - rewrite H in Hd. split; cbn; try done.
    + rewrite Hd. done.
    + apply pop_loop_length in H0. lia.
  - rewrite H in Hd. split; cbn; try done.
    destruct (dying s) as [|t l] eqn:E; [done|]. exfalso.
    assert (Ht : t ∈ hs) by (apply Hd; left).
    rewrite list.Forall_forall in H0. apply (H0 t Ht). left.
  - split; cbn; try done.
    destruct (chg s) as [| |hs]; [by rewrite Hd|by rewrite Hd|].
    intros x [_ Hx]%elem_of_list_filter. by apply Hd.
Qed.

Definition reach (F : facts) (s : state) : Prop := exists mx calls cs tr, run F (init mx calls cs) tr = Some s.

Lemma reach_inv0 F s : F.(f_spawn_cmp) = CLt -> reach F s -> inv0 s.
Proof.
  intros HS (mx & calls & cs & tr & Hr).
  eapply (run_inv F inv0); [intros; by eapply inv0_step| apply inv0_init | exact Hr].
Qed.
Lemma reach_step F s a s' : reach F s -> step F s a = Some s' -> reach F s'.
Proof. intros (mx & calls & cs & tr & Hr) Hs. exists mx, calls, cs, (tr ++ [a]). rewrite run_snoc, Hr. done. Qed.
Lemma reach_run F s tr s' : reach F s -> run F s tr = Some s' -> reach F s'.
Proof. intros (mx & calls & cs & tr0 & Hr) Hs. exists mx, calls, cs, (tr0 ++ tr). rewrite run_app, Hr. done. Qed.
