(* PoolChg: the join of despawn terminates; thread ids are fresh; the alive pool threads *)
From stdpp Require Import list numbers option.
From RecordUpdate Require Import RecordUpdate.
From L0 Require Import Types.
From PoolChg Require Import Model Base Bound.

Lemma terminal_done F s : terminal F s ->
  s.(chg) = CIdle /\ s.(cscript) = [] /\ s.(dying) = [] /\ (forall i pc, s.(spw) !! i = Some pc -> pc = SIdle 0).
Proof.
  intros HT.
  assert (Hd : dying s = []).
  { destruct (dying s) as [|t l] eqn:E; [done|]. specialize (HT (AEnd t)). cbn in HT. rewrite E in HT.
    rewrite bool_decide_eq_true_2 in HT by left. done. }
  assert (Hc : chg s = CIdle).
  { specialize (HT AChg). cbn in HT. destruct (chg s) as [|m|hs]; [done| |].
    - destruct (pop_loop _ m (threads s)); done.
    - rewrite Hd in HT. rewrite bool_decide_eq_true_2 in HT; [done|].
      apply list.Forall_forall. intros x _. apply not_elem_of_nil. }
  repeat split; try done.
  - specialize (HT AChg). cbn in HT. rewrite Hc in HT. destruct (cscript s) as [|[n|] r]; done.
  - intros i pc E. specialize (HT (ASpawn i)). cbn in HT. rewrite E in HT. cbn in HT.
    destruct pc as [[|k]|m k]; [done| |done]. by destruct (f_max_read_under_threads_lock F).
Qed.

(* the join can always be completed: let the popped threads end, then join *)
Definition is_end (a : actor) : Prop := match a with AEnd _ => True | _ => False end.

Lemma join_completes F s hs : s.(chg) = CPopped hs ->
  exists tr s', Forall is_end tr /\ run F s (tr ++ [AChg]) = Some s' /\ s'.(chg) = CIdle /\ s'.(dying) = [] /\
                s'.(threads) = s.(threads) /\ s'.(maxt) = s.(maxt).
Proof.
  remember (length (dying s)) as n eqn:En. revert s En.
  induction n as [n IH] using lt_wf_ind. intros s En Hc.
  destruct (dying s) as [|t l] eqn:E.
  - exists [], (s <| chg := CIdle |>). split; [constructor|]. split; [|done].
    rewrite app_nil_l, run_cons. cbn. rewrite Hc, E. rewrite bool_decide_eq_true_2; [done|].
    apply list.Forall_forall. intros x _. apply not_elem_of_nil.
  - set (s1 := s <| dying := filter (fun x => x <> t) (dying s) |>).
    assert (Hs : step F s (AEnd t) = Some s1).
    { cbn. rewrite E. rewrite bool_decide_eq_true_2 by left. by rewrite <- E. }
    assert (Hl : length (dying s1) < n).
    { subst s1 n; cbn. rewrite E. rewrite filter_cons_False by naive_solver. cbn.
      pose proof (filter_length (fun x => x <> t) l). lia. }
    destruct (IH _ Hl s1 eq_refl Hc) as (tr & s' & Htr & Hr & H1 & H2 & H3 & H4).
    exists (AEnd t :: tr), s'. split; [by constructor|]. split; [|done].
    rewrite <- app_comm_cons, run_cons, Hs. exact Hr.
Qed.

(* thread ids are fresh: the alive threads are pairwise different *)
Definition fresh (s : state) : Prop := NoDup (alive s) /\ Forall (fun t => t < s.(next)) (alive s).

Lemma fresh_init mx calls cs : fresh (init mx calls cs).
Proof. split; cbn; constructor. Qed.

Lemma fresh_try_push F s m : fresh s -> fresh (try_push F s m).
Proof.
  intros [Hn Hf]. unfold try_push. destruct (cmp_b _ _ _); [|done]. unfold fresh, alive in *; cbn. split.
  - constructor; [|done]. intros Hin. rewrite list.Forall_forall in Hf. specialize (Hf _ Hin). lia.
  - constructor; [lia|]. eapply list.Forall_impl; [exact Hf|]. cbn. intros; lia.
Qed.

Lemma fresh_step F s a s' : fresh s -> step F s a = Some s' -> fresh s'.
Proof.
  intros Hf H%step_inv. destruct H; unfold setspw.
  - exact Hf.
  - apply (fresh_try_push F s (maxt s)) in Hf. exact Hf.
  - apply (fresh_try_push F s m) in Hf. exact Hf.
  - exact Hf.
  - exact Hf.
  - destruct Hf as [Hn Hl]. apply pop_loop_split in H0. unfold fresh, alive in *; cbn. rewrite H0 in Hn, Hl.
    assert (HP : r ++ dying s ++ hs ≡ₚ (hs ++ r) ++ dying s).
    { rewrite (Permutation_app_comm hs r). rewrite <- (assoc_L (++)). f_equiv. apply Permutation_app_comm. }
    split; [by rewrite HP|by rewrite HP].
  - exact Hf.
  - destruct Hf as [Hn Hl]. unfold fresh, alive in *; cbn.
    apply NoDup_app in Hn as (N1 & N2 & N3). apply Forall_app in Hl as [L1 L2]. split.
    + apply NoDup_app. split; [done|]. split; [|by apply list.NoDup_filter].
      intros x Hx [_ Hx']%elem_of_list_filter. by eapply N2.
    + apply Forall_app. split; [done|]. rewrite list.Forall_forall in L2 |- *.
      intros x [_ Hx]%elem_of_list_filter. by apply L2.
Qed.

Lemma reach_fresh F s : reach F s -> fresh s.
Proof.
  intros (mx & calls & cs & tr & Hr).
  eapply (run_inv F fresh); [intros; by eapply fresh_step|apply fresh_init|exact Hr].
Qed.

Lemma alive_count F s : F.(f_spawn_cmp) = CLt -> reach F s -> length (alive s) <= s.(max_ever) + length s.(dying).
Proof. intros HS Hr. destruct (reach_inv0 F s HS Hr). unfold alive. rewrite app_length. lia. Qed.

Lemma zero_never_creates F s : F.(f_spawn_cmp) = CLt -> reach F s -> s.(max_ever) = 0 -> s.(next) = 0 /\ alive s = [].
Proof.
  intros HS Hr Hz. destruct (reach_inv0 F s HS Hr) as [_ _ _ _ _ H0]. specialize (H0 Hz). split; [done|].
  destruct (reach_fresh F s Hr) as [_ Hf]. destruct (alive s) as [|t l]; [done|].
  apply list.Forall_cons in Hf as [Ht _]. lia.
Qed.

Lemma alive_after_join F s n rest tr s' :
  F.(f_spawn_cmp) = CLt -> F.(f_despawn_cmp) = CGt -> reach F s ->
  s.(chg) = CIdle -> s.(cscript) = CSet n :: rest -> nolower n rest -> spawners_idle s ->
  run F s (AChg :: tr) = Some s' -> s.(pops) < s'.(pops) -> (forall hs, s'.(chg) <> CPopped hs) ->
  length (alive s') <= s'.(maxt).
Proof.
  intros HS HD Hr Ec Es Hn Hi Hrun Hp Hnp.
  pose proof (phase_change F HS HD s n rest tr s' Ec Es Hn Hi Hrun Hp) as Hb.
  destruct (reach_inv0 F s' HS (reach_run F s _ s' Hr Hrun)) as [_ Hd _ _ _ _].
  unfold alive. destruct (chg s') as [| |hs]; [| |by destruct (Hnp hs)]; rewrite Hd, app_nil_r; exact Hb.
Qed.
