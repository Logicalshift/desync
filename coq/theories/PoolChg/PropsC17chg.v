(* C17 with maximum changes (layer PoolChg: the pool, racing scheduling calls, one thread that changes the maximum and despawns).

   F : the facts of the model (Model.v); the theorems need the spawn test to be `<` and the despawn loop to be `>`.
   reach F s : s is reachable from an initial state (any maximum, any number of spawners and calls, any changer script).
   bounded s : length threads <= maxt.   alive s : owned threads ++ popped threads that have not ended yet.

   (1) C17chg_fixed_max                  no changer: the pool never exceeds the (fixed) maximum   [C17chg_never_lowered: raising is harmless]
   (2) C17chg_never_above_max_ever       the pool never exceeds the largest maximum there ever was; if that is 0 no thread is ever created
   (3) C17chg_phase_change               a lowering issued while every scheduling call has returned: from its pop section on the pool
                                         is within the maximum, whatever calls race with the despawn, as long as the rest of the
                                         script does not lower again;   C17chg_join_terminates / C17chg_join_completes: the join returns
   (4) C17chg_racy_lowering_refuted      the code as it is: a call that read the old maximum pushes after lower + despawn + join have
                                         returned - the pool owns max + 1 threads in a state where everything has returned
   (5) C17chg_holds_with_read_under_lock the maximum read inside the threads lock: the bound holds in every reachable state in which no
                                         lowering is waiting for its despawn, for all interleavings including racing changes
   (6) C17chg_alive_count / C17chg_alive_after_join   alive <= max_ever + popped-not-ended; after the join of a phase change alive <= max *)
From stdpp Require Import list numbers option.
From L0 Require Import Types.
From PoolChg Require Import Model Base Bound Live Refute.

Theorem C17chg_fixed_max : forall F, F.(f_spawn_cmp) = CLt -> F.(f_despawn_cmp) = CGt ->
  forall mx calls tr s, run F (init mx calls []) tr = Some s -> length s.(threads) <= s.(maxt) /\ s.(maxt) = mx.
Proof. exact fixed_max. Qed.

Theorem C17chg_never_lowered : forall F, F.(f_spawn_cmp) = CLt -> F.(f_despawn_cmp) = CGt ->
  forall mx calls cs tr s, nolower mx cs -> run F (init mx calls cs) tr = Some s -> length s.(threads) <= s.(maxt).
Proof. exact bounded_nolower. Qed.

Theorem C17chg_never_above_max_ever : forall F, F.(f_spawn_cmp) = CLt ->
  forall s, reach F s ->
    length s.(threads) <= s.(max_ever) /\ s.(maxt) <= s.(max_ever) /\
    (s.(max_ever) = 0 -> s.(next) = 0 /\ alive s = []).
Proof.
  exact (fun F HS s Hr => conj (i_len s (reach_inv0 F s HS Hr)) (conj (i_max s (reach_inv0 F s HS Hr)) (zero_never_creates F s HS Hr))).
Qed.

Theorem C17chg_phase_change : forall F, F.(f_spawn_cmp) = CLt -> F.(f_despawn_cmp) = CGt ->
  forall s n rest tr s',
    s.(chg) = CIdle -> s.(cscript) = CSet n :: rest -> nolower n rest -> spawners_idle s ->
    run F s (AChg :: tr) = Some s' -> s.(pops) < s'.(pops) -> length s'.(threads) <= s'.(maxt).
Proof. exact phase_change. Qed.

Theorem C17chg_join_terminates : forall F s, terminal F s ->
  s.(chg) = CIdle /\ s.(cscript) = [] /\ s.(dying) = [] /\ (forall i pc, s.(spw) !! i = Some pc -> pc = SIdle 0).
Proof. exact terminal_done. Qed.

Theorem C17chg_join_completes : forall F s hs, s.(chg) = CPopped hs ->
  exists tr s', Forall is_end tr /\ run F s (tr ++ [AChg]) = Some s' /\ s'.(chg) = CIdle /\ s'.(dying) = [] /\
                s'.(threads) = s.(threads) /\ s'.(maxt) = s.(maxt).
Proof. exact join_completes. Qed.

Theorem C17chg_racy_lowering_refuted :
  exists mx calls cs tr s,
    run F_now (init mx calls cs) tr = Some s /\ terminal F_now s /\ s.(dirty) = false /\ s.(pops) = 1 /\
    length s.(threads) = S s.(maxt) /\ length (alive s) = S s.(maxt).
Proof. exact (ex_intro _ 1 (ex_intro _ [1; 1] (ex_intro _ [CSet 0; CDespawn] (ex_intro _ racy_trace (ex_intro _ racy_end
         (conj racy_run (conj racy_end_terminal (conj eq_refl (conj eq_refl (conj eq_refl eq_refl)))))))))). Qed.

Theorem C17chg_holds_with_read_under_lock : forall F, F.(f_spawn_cmp) = CLt -> F.(f_despawn_cmp) = CGt ->
  F.(f_max_read_under_threads_lock) = true ->
  forall mx calls cs tr s, run F (init mx calls cs) tr = Some s -> s.(dirty) = false -> length s.(threads) <= s.(maxt).
Proof. exact (fun F HS HD HU mx calls cs tr s => under_lock_bounded F HS HD mx calls cs tr s HU). Qed.

Theorem C17chg_alive_count : forall F, F.(f_spawn_cmp) = CLt ->
  forall s, reach F s -> length (alive s) <= s.(max_ever) + length s.(dying) /\ NoDup (alive s).
Proof. exact (fun F HS s Hr => conj (alive_count F s HS Hr) (proj1 (reach_fresh F s Hr))). Qed.

Theorem C17chg_alive_after_join : forall F s n rest tr s',
  F.(f_spawn_cmp) = CLt -> F.(f_despawn_cmp) = CGt -> reach F s ->
  s.(chg) = CIdle -> s.(cscript) = CSet n :: rest -> nolower n rest -> spawners_idle s ->
  run F s (AChg :: tr) = Some s' -> s.(pops) < s'.(pops) -> (forall hs, s'.(chg) <> CPopped hs) ->
  length (alive s') <= s'.(maxt).
Proof. exact alive_after_join. Qed.

(* non-vacuity: runs that meet the hypotheses, numbered as the clauses above *)
(* (1) racing calls reach the fixed maximum *)
Example C17chg_ex_fixed : exists s, run F_now (init 1 [1; 1] []) [ASpawn 0; ASpawn 1; ASpawn 0; ASpawn 1] = Some s /\
  length s.(threads) = 1 /\ s.(maxt) = 1 /\ s.(next) = 1.
Proof. exact fixed_run. Qed.
(* (2) maximum zero: calls and a despawn run to the end *)
Example C17chg_ex_zero : exists s, run F_now (init 0 [2; 1] [CDespawn]) [ASpawn 0; ASpawn 1; ASpawn 0; AChg; AChg; AChg; ASpawn 1; ASpawn 0; ASpawn 0] = Some s /\
  s.(max_ever) = 0 /\ s.(next) = 0 /\ alive s = [] /\ s.(spw) = [SIdle 0; SIdle 0] /\ s.(chg) = CIdle.
Proof. exact zero_run. Qed.
(* (3), (6) a reachable state between phases with a full pool; the lowering pops a thread while calls of the next phase race with it *)
Example C17chg_ex_phase :
  reach F_now phase_mid /\ phase_mid.(chg) = CIdle /\ phase_mid.(cscript) = [CSet 1; CDespawn] /\ nolower 1 [CDespawn] /\
  spawners_idle phase_mid /\ length phase_mid.(threads) = 2 /\
  exists s, run F_now phase_mid [AChg; ASpawn 0; AChg; AChg; ASpawn 0; AEnd 1; ASpawn 1; AChg; ASpawn 1] = Some s /\
    phase_mid.(pops) < s.(pops) /\ s.(threads) = [0] /\ s.(maxt) = 1 /\ s.(chg) = CIdle /\ alive s = [0] /\ terminal F_now s.
Proof.
  exact (conj (ex_intro _ 2 (ex_intro _ [2; 2] (ex_intro _ [CSet 1; CDespawn] (ex_intro _ _ phase_run1))))
        (conj eq_refl (conj eq_refl (conj I (conj phase_mid_idle (conj eq_refl phase_run2)))))).
Qed.
(* (6) while the join waits the popped thread is alive: alive = max + 1 = max_ever, and the changer cannot return yet *)
Example C17chg_ex_popped : exists s, run F_now phase_mid [AChg; AChg; AChg] = Some s /\
  s.(chg) = CPopped [1] /\ s.(threads) = [0] /\ s.(dying) = [1] /\ length (alive s) = 2 /\ s.(maxt) = 1 /\ step F_now s AChg = None.
Proof. exact phase_run_popped. Qed.
(* (5) the racing program of (4) on the repaired variant *)
Example C17chg_ex_fix : exists s, run F_fix racy_init [ASpawn 0; AChg; ASpawn 1; AChg; AChg; AEnd 0; AChg] = Some s /\
  s.(dirty) = false /\ s.(threads) = [] /\ s.(maxt) = 0 /\ s.(pops) = 1 /\ s.(next) = 1 /\ terminal F_fix s.
Proof. exact fix_run. Qed.

Print Assumptions C17chg_fixed_max.
Print Assumptions C17chg_never_lowered.
Print Assumptions C17chg_never_above_max_ever.
Print Assumptions C17chg_phase_change.
Print Assumptions C17chg_join_terminates.
Print Assumptions C17chg_join_completes.
Print Assumptions C17chg_racy_lowering_refuted.
Print Assumptions C17chg_holds_with_read_under_lock.
Print Assumptions C17chg_alive_count.
Print Assumptions C17chg_alive_after_join.
