(* PoolChg: when the pool is within its maximum.
   - stale maxima: a spawner that has read the maximum m still pushes while len < m; harmless as long as m <= the current maximum,
     i.e. as long as the maximum is not lowered while a scheduling call is between its read and its push
   - a pop section (despawn) establishes len <= max; afterwards the bound is kept if the rest of the script does not lower
   - with the read inside the threads lock there are no stale maxima: the bound holds whenever no lowering is outstanding *)
From stdpp Require Import list numbers option.
From RecordUpdate Require Import RecordUpdate.
From L0 Require Import Types.
From PoolChg Require Import Model Base.

Section Bound.
  Context (F : facts) (HS : F.(f_spawn_cmp) = CLt) (HD : F.(f_despawn_cmp) = CGt).

  Definition staleok (s : state) : Prop := forall i m k, s.(spw) !! i = Some (SRead m k) -> m <= s.(maxt).

  Record inv1 (s : state) : Prop := {
    j_stale : staleok s;
    j_script : nolower s.(maxt) s.(cscript);
    j_chg : forall m, s.(chg) = CRead m -> m = s.(maxt) }.

  (* p0 = the number of pop sections at the start of the phase: once a pop section has run, the pool is bounded *)
  Definition invp (p0 : nat) (s : state) : Prop := inv1 s /\ (p0 < s.(pops) -> bounded s).

  Lemma try_push_bounded s m : m <= s.(maxt) -> length s.(threads) <= s.(maxt) -> length (try_push F s m).(threads) <= s.(maxt).
  Proof.
    intros Hm Hb. destruct (try_push_cases F s m HS) as [(-> & _)|(-> & Hlt)]; [done|]. cbn. lia.
  Qed.
  Lemma try_push_fields s m :
    (try_push F s m).(maxt) = s.(maxt) /\ (try_push F s m).(cscript) = s.(cscript) /\ (try_push F s m).(chg) = s.(chg) /\
    (try_push F s m).(spw) = s.(spw) /\ (try_push F s m).(pops) = s.(pops) /\ (try_push F s m).(dirty) = s.(dirty) /\
    (try_push F s m).(dying) = s.(dying) /\ (try_push F s m).(max_ever) = s.(max_ever).
  Proof. unfold try_push. destruct (cmp_b _ _ _); done. Qed.
  Lemma try_push_maxt s m : (try_push F s m).(maxt) = s.(maxt). Proof. apply try_push_fields. Qed.
  Lemma try_push_cscript s m : (try_push F s m).(cscript) = s.(cscript). Proof. apply try_push_fields. Qed.
  Lemma try_push_chg s m : (try_push F s m).(chg) = s.(chg). Proof. apply try_push_fields. Qed.
  Lemma try_push_spw s m : (try_push F s m).(spw) = s.(spw). Proof. apply try_push_fields. Qed.
  Lemma try_push_pops s m : (try_push F s m).(pops) = s.(pops). Proof. apply try_push_fields. Qed.
  Lemma try_push_dirty s m : (try_push F s m).(dirty) = s.(dirty). Proof. apply try_push_fields. Qed.

  Lemma inv1_step s a s' : inv1 s -> step F s a = Some s' -> inv1 s'.
  Proof.
    intros [Hst Hsc Hc] H%step_inv. destruct H; unfold setspw, staleok in *.
    - split; cbn; try done. intros j m' k' [(-> & E)|(_ & E)]%lookup_setspw; [by simplify_eq|eauto].
    - (* st_atomic *) split; cbn; rewrite ?try_push_maxt, ?try_push_cscript, ?try_push_chg, ?try_push_spw; try done.
      intros j m' k' [(-> & E)|(_ & E)]%lookup_setspw; [done|]. cbn; rewrite ?try_push_maxt. eauto.
    - (* st_push *) split; cbn; rewrite ?try_push_maxt, ?try_push_cscript, ?try_push_chg, ?try_push_spw; try done.
      intros j m' k' [(-> & E)|(_ & E)]%lookup_setspw; [done|]. cbn; rewrite ?try_push_maxt. eauto.
    - rewrite H0 in Hsc. destruct Hsc as [Hle Hsc]. split; cbn; try done.
      + intros i m k E. cbn in *. specialize (Hst _ _ _ E). lia.
      + intros m E. congruence.
    - rewrite H0 in Hsc. split; cbn; try done. intros m E. by simplify_eq.
    - split; cbn; try done.
    - split; cbn; try done.
    - split; cbn; try done.
  Qed.

  (* under [inv1] a step keeps the bound, and a pop section establishes it *)
  Lemma bounded_step s a s' : inv1 s -> step F s a = Some s' -> bounded s \/ s.(pops) < s'.(pops) -> bounded s'.
  Proof.
    intros [Hst Hsc Hc] Hs%step_inv Hb. destruct Hs; unfold setspw, bounded in *; cbn in *; try (destruct Hb; [done|lia]).
    - (* st_atomic *) rewrite try_push_maxt, try_push_pops in *.
      apply (try_push_bounded s (maxt s)); [done|]. destruct Hb; [done|lia].
    - (* st_push *) rewrite try_push_maxt, try_push_pops in *.
      apply (try_push_bounded s m); [by eapply Hst|]. destruct Hb; [done|lia].
    - (* st_set *) rewrite H0 in Hsc. destruct Hsc as [Hle _]. destruct Hb; lia.
    - (* st_pop *) rewrite HD in H0. rewrite <- (Hc _ H). by eapply pop_loop_gt.
  Qed.

  Lemma invp_step p0 s a s' : invp p0 s -> step F s a = Some s' -> invp p0 s'.
  Proof.
    intros (H1 & Hb) Hs. split; [by eapply inv1_step|]. intros Hp. eapply bounded_step; [done..|].
    destruct (decide (p0 < pops s)); [left; auto|right; lia].
  Qed.

  (* a maximum that is never lowered, any number of racing spawners, raising allowed (C17chg_never_lowered, C17chg_fixed_max) *)
  Lemma bounded_nolower mx calls cs tr s :
    nolower mx cs -> run F (init mx calls cs) tr = Some s -> bounded s.
  Proof.
    intros Hn Hr.
    assert (H : inv1 s /\ bounded s).
    { eapply (run_inv F (fun s => inv1 s /\ bounded s)); [| |exact Hr].
      - intros s0 a s1 [H1 Hb] Hs. split; [by eapply inv1_step|eapply bounded_step; eauto].
      - split; [split; cbn; try done|unfold bounded; cbn; lia].
        intros i m k E. cbn in E. rewrite list_lookup_fmap in E. destruct (calls !! i); simplify_eq. }
    apply H.
  Qed.

  Lemma fixed_max mx calls tr s : run F (init mx calls []) tr = Some s -> bounded s /\ s.(maxt) = mx.
  Proof.
    intros Hr. split; [by eapply (bounded_nolower mx calls [])|].
    eapply (run_inv F (fun s => s.(maxt) = mx /\ s.(cscript) = [] /\ s.(chg) = CIdle)); [| |exact Hr]; [|done].
    intros s0 a s1 (E1 & E2 & E3) Hs%step_inv.
    destruct Hs; unfold setspw; cbn; try congruence; try done.
    - destruct (try_push_fields s0 (maxt s0)) as (-> & -> & -> & _). done.
    - destruct (try_push_fields s0 m) as (-> & -> & -> & _). done.
  Qed.

  (* a lowering between phases (C17chg_phase_change) *)
  Lemma phase_change s n rest tr s' :
    s.(chg) = CIdle -> s.(cscript) = CSet n :: rest -> nolower n rest -> spawners_idle s ->
    run F s (AChg :: tr) = Some s' -> s.(pops) < s'.(pops) -> bounded s'.
  Proof.
    intros Ec Es Hn Hi Hr Hp. rewrite run_cons in Hr. cbn in Hr. rewrite Ec, Es in Hr. cbn in Hr.
    match type of Hr with run F ?x tr = _ => set (s1 := x) in * end.
    assert (H1 : invp (pops s) s1).
    { split; [split; cbn; try done|cbn; lia].
      - intros i m k E. destruct (Hi _ _ E) as (k' & ?). done.
      - intros m E. congruence. }
    assert (H2 : invp (pops s) s') by (eapply (run_inv F (invp (pops s))); [intros; by eapply invp_step|exact H1|exact Hr]).
    by apply H2.
  Qed.

  (* the repaired variant, the maximum read inside the threads lock (C17chg_holds_with_read_under_lock) *)
  Record invu (s : state) : Prop := {
    u_idle : spawners_idle s;
    u_chg : forall m, s.(chg) = CRead m -> m = s.(maxt);
    u_bound : s.(dirty) = false -> bounded s }.

  Lemma invu_step s a s' : F.(f_max_read_under_threads_lock) = true -> invu s -> step F s a = Some s' -> invu s'.
  Proof.
    intros HU [Hi Hc Hb] H%step_inv. destruct H; unfold setspw, bounded in *.
    - congruence.
    - destruct (try_push_fields s (maxt s)) as (E1 & _ & E3 & E4 & _ & E6 & _).
      split; cbn; rewrite ?E1, ?E3, ?E4, ?E6; try done.
      + intros j pc [(-> & ->)|(_ & E)]%lookup_setspw; eauto.
      + intros Hd. unfold bounded; cbn. rewrite E1. apply (try_push_bounded s (maxt s)); [done|by apply Hb].
    - destruct (Hi _ _ H) as (k' & ?). done.
    - split; cbn; try done.
      + intros m E. congruence.
      + intros [Hd Hlow]%orb_false_elim. apply bool_decide_eq_false in Hlow. specialize (Hb Hd). unfold bounded; cbn. lia.
    - split; cbn; try done. intros m E. by simplify_eq.
    - split; cbn; try done. intros _. unfold bounded; cbn. rewrite HD in H0. rewrite <- (Hc _ H). by eapply pop_loop_gt.
    - split; cbn; try done.
    - split; cbn; try done.
  Qed.

  Lemma under_lock_bounded mx calls cs tr s :
    F.(f_max_read_under_threads_lock) = true -> run F (init mx calls cs) tr = Some s -> s.(dirty) = false -> bounded s.
  Proof.
    intros HU Hr. apply (u_bound s).
    eapply (run_inv F invu); [intros; by eapply invu_step| |exact Hr].
    split; cbn; try done.
    - intros i pc E. cbn in E. rewrite list_lookup_fmap in E. destruct (calls !! i); cbn in E; simplify_eq; eauto.
    - intros _. unfold bounded; cbn; lia.
  Qed.
End Bound.
