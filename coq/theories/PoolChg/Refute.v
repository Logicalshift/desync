(* PoolChg: executable scenarios - the racy lowering (the code as it is), and non-vacuity of the theorems' hypotheses *)
From stdpp Require Import list numbers option.
From RecordUpdate Require Import RecordUpdate.
From L0 Require Import Types.
From PoolChg Require Import Model Base.

Definition is_none {A} (o : option A) : bool := match o with None => true | Some _ => false end.
Definition terminalb (F : facts) (s : state) : bool :=
  forallb (fun i => is_none (step F s (ASpawn i))) (seq 0 (length s.(spw))) && is_none (step F s AChg) &&
  is_none (head s.(dying)).
Lemma terminalb_ok F s : terminalb F s = true -> terminal F s.
Proof.
  unfold terminalb. rewrite !andb_true_iff, forallb_forall. intros [[H1 H2] H3] [i| |t].
  - destruct (decide (i < length (spw s))) as [Hi|Hi].
    + specialize (H1 i). rewrite in_seq in H1. destruct (step F s (ASpawn i)); [|done]. discriminate H1. lia.
    + cbn. by rewrite lookup_ge_None_2 by lia.
  - by destruct (step F s AChg).
  - cbn. destruct (dying s); [|done]. rewrite bool_decide_eq_false_2; [done|apply not_elem_of_nil].
Qed.

Definition F_now : facts := {| f_max_read_under_threads_lock := false; f_spawn_cmp := CLt; f_despawn_cmp := CGt |}.
Definition F_fix : facts := {| f_max_read_under_threads_lock := true; f_spawn_cmp := CLt; f_despawn_cmp := CGt |}.

(* the racy lowering: maximum 1, two scheduling calls, the changer lowers to 0 and despawns:
   call 0 reads 1 and pushes thread 0; call 1 reads 1; the changer sets 0, reads 0, pops thread 0, thread 0 ends, the join
   returns; call 1 still holds the old maximum 1, finds 0 < 1 and pushes thread 1: the pool owns 1 thread, the maximum is 0 *)
Definition racy_init : state := init 1 [1; 1] [CSet 0; CDespawn].
Definition racy_trace : list actor := [ASpawn 0; ASpawn 0; ASpawn 1; AChg; AChg; AChg; AEnd 0; AChg; ASpawn 1].
Definition racy_end : state :=
  {| maxt := 0; threads := [1]; dying := []; spw := [SIdle 0; SIdle 0]; chg := CIdle; cscript := [];
     max_ever := 1; next := 2; pops := 1; dirty := false |}.
Lemma racy_run : run F_now racy_init racy_trace = Some racy_end.
Proof. vm_compute. reflexivity. Qed.

Lemma racy_end_terminal : terminal F_now racy_end.
Proof. by apply terminalb_ok. Qed.

(* the same program on the repaired variant, racing in the same way: the late call sees the new maximum *)
Lemma fix_run : exists s, run F_fix racy_init [ASpawn 0; AChg; ASpawn 1; AChg; AChg; AEnd 0; AChg] = Some s /\
  s.(dirty) = false /\ s.(threads) = [] /\ s.(maxt) = 0 /\ s.(pops) = 1 /\ s.(next) = 1 /\ terminal F_fix s.
Proof.
  eexists. split; [vm_compute; reflexivity|]. repeat split. by apply terminalb_ok.
Qed.

(* a fixed maximum is reached, and not exceeded, by racing calls *)
Lemma fixed_run : exists s, run F_now (init 1 [1; 1] []) [ASpawn 0; ASpawn 1; ASpawn 0; ASpawn 1] = Some s /\
  length s.(threads) = 1 /\ s.(maxt) = 1 /\ s.(next) = 1.
Proof. eexists. split; [vm_compute; reflexivity|done]. Qed.

(* a maximum of zero: scheduling calls run, nothing is created *)
Lemma zero_run : exists s, run F_now (init 0 [2; 1] [CDespawn]) [ASpawn 0; ASpawn 1; ASpawn 0; AChg; AChg; AChg; ASpawn 1; ASpawn 0; ASpawn 0] = Some s /\
  s.(max_ever) = 0 /\ s.(next) = 0 /\ alive s = [] /\ s.(spw) = [SIdle 0; SIdle 0] /\ s.(chg) = CIdle.
Proof. eexists. split; [vm_compute; reflexivity|done]. Qed.

(* a lowering between phases: maximum 2, phase 1 fills the pool, the changer lowers to 1 while every call has returned,
   phase 2 calls race with the despawn *)
Definition phase_init : state := init 2 [2; 2] [CSet 1; CDespawn].
Definition phase_mid : state :=
  {| maxt := 2; threads := [1; 0]; dying := []; spw := [SIdle 1; SIdle 1]; chg := CIdle; cscript := [CSet 1; CDespawn];
     max_ever := 2; next := 2; pops := 0; dirty := false |}.
Lemma phase_run1 : run F_now phase_init [ASpawn 0; ASpawn 1; ASpawn 0; ASpawn 1] = Some phase_mid.
Proof. vm_compute. reflexivity. Qed.
Lemma phase_mid_idle : spawners_idle phase_mid.
Proof. intros i pc. destruct i as [|[|i]]; cbn; intros; simplify_eq; eauto. Qed.
Lemma phase_run2 : exists s, run F_now phase_mid [AChg; ASpawn 0; AChg; AChg; ASpawn 0; AEnd 1; ASpawn 1; AChg; ASpawn 1] = Some s /\
  phase_mid.(pops) < s.(pops) /\ s.(threads) = [0] /\ s.(maxt) = 1 /\ s.(chg) = CIdle /\ alive s = [0] /\ terminal F_now s.
Proof.
  eexists. split; [vm_compute; reflexivity|]. repeat split; [cbn; lia|by apply terminalb_ok].
Qed.

(* while the join waits, the popped thread is still alive: alive = owned + popped-and-not-ended *)
Lemma phase_run_popped : exists s, run F_now phase_mid [AChg; AChg; AChg] = Some s /\
  s.(chg) = CPopped [1] /\ s.(threads) = [0] /\ s.(dying) = [1] /\ length (alive s) = 2 /\ s.(maxt) = 1 /\ step F_now s AChg = None.
Proof. eexists. split; [vm_compute; reflexivity|]. repeat split. Qed.
