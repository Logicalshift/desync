(* PoolChg on the code as it is now: the facts are re-read from /repo/src on every run (gen/Tables.v) *)
From stdpp Require Import list numbers option.
From L0 Require Import Types.
From Gen Require Import Tables.
From PoolChg Require Import Model Base Bound Live Refute PropsC17chg.

Definition gen_pool_facts : facts :=
  {| f_max_read_under_threads_lock := negb fact_spawn_reads_max_before_threads_lock;
     f_spawn_cmp := fact_spawn_cmp; f_despawn_cmp := fact_despawn_cmp |}.

Lemma cl_spawn_cmp : fact_spawn_cmp = CLt. Proof. reflexivity. Qed.
Lemma cl_despawn_cmp : fact_despawn_cmp = CGt. Proof. reflexivity. Qed.
(* spawn_thread_if_less_than_maximum reads max_threads (own lock, released) before it takes the threads lock *)
Lemma cl_max_read_outside_lock : fact_spawn_reads_max_before_threads_lock = true. Proof. reflexivity. Qed.
(* the model's steps: test and push are one section under the threads lock; despawn joins the popped threads *)
Lemma cl_spawn_test_and_push_one_section : fact_spawn_test_and_push_one_section = true. Proof. reflexivity. Qed.
Lemma cl_despawn_joins : fact_despawn_joins = true. Proof. reflexivity. Qed.

(* the facts of the current source are those of the racy scenario *)
Lemma cl_facts_now : gen_pool_facts = F_now. Proof. reflexivity. Qed.

(* Changer step 'set': set_max_threads is the store of the maximum followed by the wake-up loop over schedule_thread (whose spawning goes
   through the spawn decision modelled by the ASpawn actors) - it neither spawns by itself nor clamps the value *)
Lemma cl_set_max_threads_stores_then_schedules : fact_set_max_threads_stores_then_schedules = true. Proof. reflexivity. Qed.

Theorem C17chg_fixed_max_now : forall mx calls tr s,
  run gen_pool_facts (init mx calls []) tr = Some s -> length s.(threads) <= s.(maxt) /\ s.(maxt) = mx.
Proof. exact (C17chg_fixed_max gen_pool_facts cl_spawn_cmp cl_despawn_cmp). Qed.

Theorem C17chg_never_above_max_ever_now : forall s, reach gen_pool_facts s ->
  length s.(threads) <= s.(max_ever) /\ s.(maxt) <= s.(max_ever) /\ (s.(max_ever) = 0 -> s.(next) = 0 /\ alive s = []).
Proof. exact (C17chg_never_above_max_ever gen_pool_facts cl_spawn_cmp). Qed.

Theorem C17chg_phase_change_now : forall s n rest tr s',
  s.(chg) = CIdle -> s.(cscript) = CSet n :: rest -> nolower n rest -> spawners_idle s ->
  run gen_pool_facts s (AChg :: tr) = Some s' -> s.(pops) < s'.(pops) -> length s'.(threads) <= s'.(maxt).
Proof. exact (C17chg_phase_change gen_pool_facts cl_spawn_cmp cl_despawn_cmp). Qed.

Theorem C17chg_alive_after_join_now : forall s n rest tr s', reach gen_pool_facts s ->
  s.(chg) = CIdle -> s.(cscript) = CSet n :: rest -> nolower n rest -> spawners_idle s ->
  run gen_pool_facts s (AChg :: tr) = Some s' -> s.(pops) < s'.(pops) -> (forall hs, s'.(chg) <> CPopped hs) ->
  length (alive s') <= s'.(maxt).
Proof. exact (fun s n rest tr s' => C17chg_alive_after_join gen_pool_facts s n rest tr s' cl_spawn_cmp cl_despawn_cmp). Qed.

(* the racy lowering is a run of the model with the CURRENT facts *)
Theorem C17chg_racy_lowering_now : exists mx calls cs tr s,
  run gen_pool_facts (init mx calls cs) tr = Some s /\ terminal gen_pool_facts s /\ s.(dirty) = false /\ s.(pops) = 1 /\
  length s.(threads) = S s.(maxt) /\ length (alive s) = S s.(maxt).
Proof. exact C17chg_racy_lowering_refuted. Qed.

Print Assumptions C17chg_fixed_max_now.
Print Assumptions C17chg_never_above_max_ever_now.
Print Assumptions C17chg_phase_change_now.
Print Assumptions C17chg_alive_after_join_now.
Print Assumptions C17chg_racy_lowering_now.
