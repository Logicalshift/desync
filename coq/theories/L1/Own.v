(* Exclusive ownership (C01): a queue is Running exactly while one actor has a runner frame for it on its stack, and that
   actor is the recorded owner.  The invariant Inv, the conditions on the tables it needs, and its preservation. *)
From stdpp Require Import list numbers option.
From RecordUpdate Require Import RecordUpdate.
From L1 Require Import Model.
From L1 Require Export Step.

Definition owns_b (q : nat) (fr : frame) : bool :=
  match fr with
  | FSIrun q' | FSIidle q' | FSDpush q' | FSDloop q' | FSDidle q' | FSBsteal q' | FSBstealidle q'
  | FTrelsome _ q' | FDRdeq q' | FDRrun q' _ | FDRfin q' => bool_decide (q' = q)
  | _ => false
  end.
Fixpoint cnt (q : nat) (st : list frame) : nat :=
  match st with [] => 0 | fr :: r => (if owns_b q fr then 1 else 0) + cnt q r end.
Definition stack_cnt (s : state) (b q : nat) : option nat := (fun ac => cnt q ac.(stack)) <$> (s.(actors) !! b).

Record own_conditions (T : tables) : Prop := {
  c_sync : forall st e st' act, T.(t_sync) st e = (st', act) ->
     match act with SAImmediate | SADrain => st <> Running /\ st' = Running | _ => st' = st end;
  c_try : forall st e st' act, T.(t_trysync) st e = (st', act) ->
     match act with TAImmediate => st <> Running /\ st' = Running | _ => st' = st end;
  c_desync : forall st st' act, T.(t_desync) st = (st', act) -> (st' = Running <-> st = Running);
  c_resched : forall st ne st' p, T.(t_resched) st ne = (st', p) -> (st' = Running <-> st = Running);
  c_next : forall st st', T.(t_next) st = Some st' -> st <> Running /\ st' = Running;
  c_claim : forall st st', T.(t_claim) st = Some st' -> st <> Running /\ st' = Running;
  c_fin : forall e st' d, T.(t_drain_fin) Running e = (st', d) -> if d then st' <> Running else st' = Running;
}.

Lemma fixed_tables_ok : own_conditions (fixed_trysync orig_tables).
Proof.
  split; cbn.
  - intros st e st' act H. destruct st, e; inversion H; subst; cbn; auto; split; congruence.
  - intros st e st' act H. destruct st, e; inversion H; subst; cbn; auto; split; congruence.
  - intros st st' act H. destruct st; inversion H; subst; split; congruence.
  - intros st ne st' p H. destruct st, ne; inversion H; subst; split; congruence.
  - intros st st' H. destruct st; inversion H; subst; split; congruence.
  - intros st st' H. destruct st; inversion H; subst; split; congruence.
  - intros e st' d H. destruct e; inversion H; subst; cbn; congruence.
Qed.

Lemma orig_tables_not_ok : ~ own_conditions orig_tables.
Proof. intros [_ Htry _ _ _ _ _]. specialize (Htry Idle false Running TABusy eq_refl). cbn in Htry. congruence. Qed.

Record Inv (s : state) : Prop := {
  inv_cnt : forall b q qq n, stack_cnt s b q = Some n -> s.(queues) !! q = Some qq ->
            n = if decide (qq.(owner) = Some b) then 1 else 0;
  inv_state : forall q qq, s.(queues) !! q = Some qq -> (is_Some qq.(owner) <-> qq.(qs) = Running);
  inv_valid : forall q qq b, s.(queues) !! q = Some qq -> qq.(owner) = Some b -> b < length s.(actors);
}.

Lemma queues_updq s q f q' : (updq s q f).(queues) !! q' = if decide (q = q') then f <$> (s.(queues) !! q') else s.(queues) !! q'.
Proof. unfold updq; cbn. destruct (decide (q = q')) as [->|]; [by rewrite list_lookup_alter|by rewrite list_lookup_alter_ne]. Qed.
Lemma actors_updq s q f : (updq s q f).(actors) = s.(actors). Proof. done. Qed.
Lemma queues_upda s a f : (upda s a f).(queues) = s.(queues). Proof. done. Qed.
Lemma queues_updt s t f : (updt s t f).(queues) = s.(queues). Proof. done. Qed.
Lemma actors_updt s t f : (updt s t f).(actors) = s.(actors). Proof. done. Qed.
Lemma queues_setstack s a st : (setstack s a st).(queues) = s.(queues). Proof. done. Qed.

Lemma stack_cnt_updq s q f b q' : stack_cnt (updq s q f) b q' = stack_cnt s b q'. Proof. done. Qed.
Lemma stack_cnt_updt s t f b q' : stack_cnt (updt s t f) b q' = stack_cnt s b q'. Proof. done. Qed.
Lemma stack_cnt_upda s a f b q' : (forall x, (f x).(stack) = x.(stack)) -> stack_cnt (upda s a f) b q' = stack_cnt s b q'.
Proof.
  intros Hf. unfold stack_cnt, upda; cbn. destruct (decide (a = b)) as [->|].
  - rewrite list_lookup_alter. destruct (actors s !! b); cbn; [by rewrite Hf|done].
  - by rewrite list_lookup_alter_ne.
Qed.
Lemma stack_cnt_setstack s a st b q' :
  stack_cnt (setstack s a st) b q' = if decide (a = b) then (fun _ => cnt q' st) <$> (s.(actors) !! b) else stack_cnt s b q'.
Proof.
  unfold stack_cnt, setstack, upda; cbn. destruct (decide (a = b)) as [->|].
  - rewrite list_lookup_alter. by destruct (actors s !! b).
  - by rewrite list_lookup_alter_ne.
Qed.

(* Inv only looks at three observations of the state *)
Definition obs_eq (s1 s : state) : Prop :=
  s1.(queues) = s.(queues) /\ (forall b q, stack_cnt s1 b q = stack_cnt s b q) /\ length s1.(actors) = length s.(actors).
Lemma Inv_obs s1 s : obs_eq s1 s -> Inv s -> Inv s1.
Proof.
  intros (Hq & Hc & Hl) [I1 I2 I3]. split.
  - intros b q qq n. rewrite Hc, Hq. apply I1.
  - intros q qq. rewrite Hq. apply I2.
  - intros q qq b. rewrite Hq, Hl. apply I3.
Qed.

(* wake-ups only move a waiter between two frames that own nothing *)
Lemma woken_obs m s : woken m s -> obs_eq m s.
Proof.
  intros Hw. split; [apply Hw|]. split; [|by apply woken_length].
  intros b q. unfold stack_cnt. destruct (actors m !! b) as [x'|] eqn:Hb.
  - destruct (woken_lookup_r _ _ _ _ Hw Hb) as (x & -> & Hx). cbn. by destruct (aw_stack _ _ Hx) as [->|(q0 & r & -> & ->)].
  - apply lookup_ge_None in Hb. rewrite (woken_length _ _ Hw) in Hb. apply lookup_ge_None in Hb. by rewrite Hb.
Qed.
Lemma Inv_woken m s : woken m s -> Inv s -> Inv m.
Proof. intros Hw. by apply Inv_obs, woken_obs. Qed.
Lemma foldl_notify_obs F ws s :
  (foldl (notify F) s ws).(queues) = s.(queues) /\ (forall b q, stack_cnt (foldl (notify F) s ws) b q = stack_cnt s b q)
  /\ length (foldl (notify F) s ws).(actors) = length s.(actors).
Proof. apply woken_obs, woken_foldl_notify. Qed.

Lemma Inv_grow s1 s :
  s1.(queues) = s.(queues) ->
  (forall b x1, s1.(actors) !! b = Some x1 ->
     (exists x, s.(actors) !! b = Some x /\ forall q, cnt q x1.(stack) = cnt q x.(stack)) \/
     (length s.(actors) <= b /\ forall q, cnt q x1.(stack) = 0)) ->
  length s.(actors) <= length s1.(actors) -> Inv s -> Inv s1.
Proof.
  intros Hq Hact Hl [I1 I2 I3]. split.
  - intros b q qq n Hn Hqq. rewrite Hq in Hqq. unfold stack_cnt in Hn.
    destruct (actors s1 !! b) as [x1|] eqn:Hb; [|done]. injection Hn as <-.
    destruct (Hact b x1 Hb) as [(x & Hx & ->)|[Hge ->]].
    + apply (I1 b q qq); [|done]. unfold stack_cnt. by rewrite Hx.
    + case_decide as Ho; [|done]. specialize (I3 q qq b Hqq Ho). lia.
  - intros q qq. rewrite Hq. apply I2.
  - intros q qq b Hqq Ho. rewrite Hq in Hqq. specialize (I3 q qq b Hqq Ho). lia.
Qed.

Lemma inv_update s s' a oldc q g newst :
  Inv s ->
  (forall q', stack_cnt s a q' = Some (oldc q')) ->
  (forall q', s'.(queues) !! q' = if decide (q = q') then g <$> (s.(queues) !! q') else s.(queues) !! q') ->
  (forall b q', stack_cnt s' b q' = if decide (a = b) then Some (cnt q' newst) else stack_cnt s b q') ->
  length s.(actors) <= length s'.(actors) ->
  (forall q', q' <> q -> cnt q' newst = oldc q') ->
  (forall qq, s.(queues) !! q = Some qq ->
      (owner (g qq) = owner qq /\ (qs (g qq) = Running <-> qs qq = Running) /\ cnt q newst = oldc q)
      \/ (qs qq <> Running /\ owner (g qq) = Some a /\ qs (g qq) = Running /\ cnt q newst = S (oldc q))
      \/ (oldc q = S (cnt q newst) /\ owner (g qq) = None /\ qs (g qq) <> Running)) ->
  Inv s'.
Proof.
  intros [I1 I2 I3] Hold Hq Hc Hl Hother Hthis.
  assert (Ha : a < length s.(actors)).
  { specialize (Hold 0). unfold stack_cnt in Hold. destruct (actors s !! a) eqn:E; [|done]. by eapply lookup_lt_Some. }
  split.
  - intros b q' qq' n Hn Hqq. rewrite Hc in Hn. rewrite Hq in Hqq.
    destruct (decide (q = q')) as [<-|Hne].
    + destruct (queues s !! q) as [qq|] eqn:Eq; [|done]. cbn in Hqq. injection Hqq as <-.
      pose proof (fun b => I1 b q qq) as I1'. specialize (I2 q qq Eq).
      destruct (Hthis qq eq_refl) as [(Ho & Hs & Hn') | [(Hs & Ho & Hs' & Hn') | (Hn' & Ho & Hs')]].
      * rewrite Ho. destruct (decide (a = b)) as [<-|]; [|by apply (I1' b)].
        injection Hn as <-. rewrite Hn'. apply (I1' a); [apply Hold|done].
      * assert (Hnone : owner qq = None).
        { destruct (owner qq) eqn:E; [|done]. exfalso. apply Hs, I2. by eexists. }
        rewrite Ho. destruct (decide (a = b)) as [<-|Hab].
        -- injection Hn as <-. rewrite Hn'. rewrite (I1' a (oldc q) (Hold q) Eq). rewrite Hnone.
           repeat case_decide; congruence.
        -- rewrite (I1' b n Hn Eq). rewrite Hnone. repeat case_decide; congruence.
      * rewrite Ho. pose proof (I1' a (oldc q) (Hold q) Eq) as Hown.
        destruct (decide (owner qq = Some a)) as [Hoa|]; [|lia].
        destruct (decide (a = b)) as [<-|Hab].
        -- injection Hn as <-. repeat case_decide; try congruence; lia.
        -- rewrite (I1' b n Hn Eq). repeat case_decide; congruence.
    + destruct (decide (a = b)) as [<-|]; [|by eapply (I1 b q')].
      injection Hn as <-. rewrite (Hother q') by congruence. exact (I1 a q' qq' (oldc q') (Hold q') Hqq).
  - intros q' qq' Hqq. rewrite Hq in Hqq. destruct (decide (q = q')) as [<-|]; [|exact (I2 q' qq' Hqq)].
    destruct (queues s !! q) as [qq|] eqn:Eq; [|done]. cbn in Hqq. injection Hqq as <-.
    specialize (I2 q qq Eq).
    destruct (Hthis qq eq_refl) as [(Ho & Hs & Hn') | [(Hs & Ho & Hs' & Hn') | (Hn' & Ho & Hs')]].
    + rewrite Ho, Hs. done.
    + rewrite Ho, Hs'. split; [done|by eexists].
    + rewrite Ho. split; [by intros [? ?]|done].
  - intros q' qq' b Hqq Ho. rewrite Hq in Hqq. destruct (decide (q = q')) as [<-|].
    + destruct (queues s !! q) as [qq|] eqn:Eq; [|done]. cbn in Hqq. injection Hqq as <-.
      destruct (Hthis qq eq_refl) as [(Ho' & _) | [(_ & Ho' & _) | (_ & Ho' & _)]].
      * rewrite Ho' in Ho. specialize (I3 q qq b Eq Ho). lia.
      * rewrite Ho' in Ho. injection Ho as <-. lia.
      * congruence.
    + specialize (I3 q' qq' b Hqq Ho). lia.
Qed.

Lemma inv_update_noq s s' a oldc newst :
  Inv s ->
  (forall q', stack_cnt s a q' = Some (oldc q')) ->
  s'.(queues) = s.(queues) ->
  (forall b q', stack_cnt s' b q' = if decide (a = b) then Some (cnt q' newst) else stack_cnt s b q') ->
  length s.(actors) <= length s'.(actors) ->
  (forall q', cnt q' newst = oldc q') ->
  Inv s'.
Proof.
  intros HI Hold Hq Hc Hl Hsame.
  apply (inv_update s s' a oldc 0 id newst HI Hold); [ | exact Hc | exact Hl | intros; apply Hsame | ].
  - intros q'. rewrite Hq. case_decide; [|done]. by destruct (queues s !! q').
  - intros qq _. left. split; [done|]. split; [done|]. apply Hsame.
Qed.

Lemma stack_cnt_self s a ac q' : s.(actors) !! a = Some ac -> stack_cnt s a q' = Some (cnt q' ac.(stack)).
Proof. unfold stack_cnt. by intros ->. Qed.

Lemma stack_cnt_setstack' s a st b q' : is_Some (s.(actors) !! a) ->
  stack_cnt (setstack s a st) b q' = if decide (a = b) then Some (cnt q' st) else stack_cnt s b q'.
Proof. intros [x Hx]. rewrite stack_cnt_setstack. case_decide; [subst; by rewrite Hx|done]. Qed.

Ltac obs_q2 := intros; rewrite ?queues_setstack, ?queues_upda, ?queues_updt; rewrite ?queues_updq; cbn [queues];
                repeat case_decide; subst; try done;
                match goal with |- context [queues ?s !! ?q] => destruct (queues s !! q); done end.
Ltac cnt_other := intros; cbn [cnt owns_b]; repeat case_bool_decide; subst; try done; try lia.
Lemma cnt_app q st1 st2 : cnt q (st1 ++ st2) = cnt q st1 + cnt q st2.
Proof. induction st1 as [|f r IH]; cbn; [done|]. rewrite IH. lia. Qed.

Lemma runner_owns s a q qq n : Inv s -> stack_cnt s a q = Some (S n) -> s.(queues) !! q = Some qq ->
  qq.(owner) = Some a /\ qq.(qs) = Running.
Proof.
  intros [I1 I2 _] Hc Hq. pose proof (I1 a q qq _ Hc Hq) as H. case_decide as Ho; [|lia].
  split; [done|]. apply (I2 q qq Hq). by eexists.
Qed.


Lemma owner_cnt s q qq b : Inv s -> s.(queues) !! q = Some qq -> qq.(owner) = Some b ->
  exists ab, s.(actors) !! b = Some ab /\ cnt q ab.(stack) = 1.
Proof.
  intros [I1 _ I3] Hq Hb. destruct (lookup_lt_is_Some_2 _ _ (I3 q qq b Hq Hb)) as [ab Eb]. exists ab. split; [done|].
  rewrite (I1 b q qq _ (stack_cnt_self s b ab q Eb) Hq). by rewrite decide_True.
Qed.
Lemma running_owner s q qq : Inv s -> s.(queues) !! q = Some qq -> qq.(qs) = Running ->
  exists b ab, qq.(owner) = Some b /\ s.(actors) !! b = Some ab /\ cnt q ab.(stack) = 1.
Proof.
  intros HI Hq Hr. destruct (proj2 (inv_state s HI q qq Hq) Hr) as [b Hb].
  destruct (owner_cnt s q qq b HI Hq Hb) as (ab & Eb & Hc). by exists b, ab.
Qed.
Lemma cnt_owner s a ac q qq : Inv s -> s.(actors) !! a = Some ac -> 1 <= cnt q ac.(stack) -> s.(queues) !! q = Some qq ->
  qq.(owner) = Some a /\ qq.(qs) = Running.
Proof.
  intros HI Ea Hc Hq. destruct (cnt q (stack ac)) as [|n] eqn:E; [lia|].
  apply (runner_owns s a q qq n HI); [|done]. by rewrite (stack_cnt_self s a ac q Ea), E.
Qed.

Lemma init_inv nq mx scripts : Inv (init nq mx scripts).
Proof.
  split; unfold init; cbn.
  - intros b q qq n Hn [-> _]%lookup_replicate. cbn.
    unfold stack_cnt in Hn; cbn in Hn. rewrite list_lookup_fmap in Hn. destruct (scripts !! b); cbn in Hn; [|done]. by injection Hn as <-.
  - intros q qq [-> _]%lookup_replicate. cbn. split; [by intros [? ?]|done].
  - by intros q qq b [-> _]%lookup_replicate.
Qed.

Section Preservation.
  Context (T : tables) (F : facts) (HT : own_conditions T).

  (* a step in the terms of [inv_update]: the one queue it touches, and how the table's answer goes with
     the change in the stepping actor's runner frames *)
  Lemma eff_own s a ac fr rest m new :
    Inv s -> s.(actors) !! a = Some ac -> ac.(stack) = fr :: rest -> eff T F s a ac fr m new ->
    exists q g,
      m.(queues) = alter g q s.(queues) /\
      (forall q', q' <> q -> cnt q' new = cnt q' [fr]) /\
      (forall qq, s.(queues) !! q = Some qq ->
         (owner (g qq) = owner qq /\ (qs (g qq) = Running <-> qs qq = Running) /\ cnt q new = cnt q [fr])
         \/ (qs qq <> Running /\ owner (g qq) = Some a /\ qs (g qq) = Running /\ cnt q new = S (cnt q [fr]))
         \/ (cnt q [fr] = S (cnt q new) /\ owner (g qq) = None /\ qs (g qq) <> Running)).
  Proof.
    intros HI Ea Est He.
    assert (Hrun : forall q qq, owns_b q fr = true -> s.(queues) !! q = Some qq -> qs qq = Running).
    { intros q qq Hfr Hq. eapply (runner_owns s a q qq); [done| |done]. rewrite (stack_cnt_self _ _ _ _ Ea), Est. cbn. by rewrite Hfr. }
    destruct HT as [Hsync Htry Hdesync Hresched Hnext Hclaim Hfin].
    destruct He.
    all: lazymatch goal with
         | |- context [queues (updq (updq _ ?q ?g1) _ ?g2)] => exists q, (fun x => g2 (g1 x))
         | |- context [queues (updq _ ?q ?g)] => exists q, g
         | |- context [queues (upda (updq _ ?q ?g) _ _)] => exists q, g
         | |- _ => exists 0, id
         end.
    all: (split; [lazymatch goal with
                  | |- _ = alter id _ _ => rewrite list_alter_id by done; first [done | apply wk_queues, woken_run_job]
                  | |- _ => first [done | cbn; by rewrite <- list_alter_compose | cbn; by rewrite (wk_queues _ _ (woken_foldl_notify F _ s))]
                  end|]).
    all: (split; [try destruct o; cnt_other|]).
    all: intros qq0 Hqq0; try (rewrite Eq in Hqq0; injection Hqq0 as <-); cbn [cnt owns_b]; rewrite ?bool_decide_true by done; cbn.
    all: lazymatch goal with
         | Etab : t_desync _ _ = _ |- _ => left; split; [done|]; split; [by eapply Hdesync|done]
         | Etab : t_sync _ _ _ = (_, SAImmediate) |- _ => right; left; by destruct (Hsync _ _ _ _ Etab) as [? ->]
         | Etab : t_sync _ _ _ = (_, SADrain) |- _ => right; left; by destruct (Hsync _ _ _ _ Etab) as [? ->]
         | Etab : t_sync _ _ _ = _ |- _ => left; by rewrite (Hsync _ _ _ _ Etab)
         | Etab : t_trysync _ _ _ = (_, TAImmediate) |- _ => right; left; by destruct (Htry _ _ _ _ Etab) as [? ->]
         | Etab : t_trysync _ _ _ = (_, ?act) |- _ => left; pose proof (Htry _ _ _ _ Etab) as Ht; destruct act; try done; by rewrite Ht
         | Etab : t_claim _ _ = Some _ |- _ => right; left; by destruct (Hclaim _ _ Etab) as [? ->]
         | Etab : t_next _ _ = Some _ |- _ => right; left; by destruct (Hnext _ _ Etab) as [? ->]
         | Etab : t_resched _ _ _ = _ |- _ => left; split; [done|]; split; [by eapply Hresched|done]
         | Etab : t_drain_fin _ _ _ = (_, ?d) |- _ =>
             pose proof (Hrun q qq (bool_decide_eq_true_2 _ eq_refl) Eq) as Hr; rewrite Hr in Etab; specialize (Hfin _ _ _ Etab); cbn in Hfin;
             first [ right; right; done | left; by rewrite Hfin, Hr ]
         | |- context [None = None] => right; right; done
         | |- _ => left; by try destruct o
         end.
  Qed.

  Lemma step_inv s a s' : Inv s -> step T F s a = Some s' -> Inv s'.
  Proof.
    intros HI (ac & fr & rest & m & new & Ea & Est & He & ->)%step_eff.
    destruct (eff_own s a ac fr rest m new HI Ea Est He) as (q & g & Hq & Hoth & Hthis).
    destruct (eff_actors _ _ _ _ _ _ _ _ He) as (w & sp & Hw & Hst & Hsp).
    destruct (eff_self _ _ _ _ _ _ _ _ _ He Ea Est) as (ac' & Ea' & Est').
    (* the wake-ups and a new pool actor first, then the stepping actor's own change *)
    assert (HI1 : Inv (m <| queues := queues s |>)).
    { apply (Inv_grow _ s); [done| |cbn|done].
      - intros b x1 Hb. cbn in Hb. assert (H : (stack <$> actors m) !! b = Some (stack x1)) by (by rewrite list_lookup_fmap, Hb).
        rewrite Hst in H. apply lookup_app_Some in H as [H|[Hge H]].
        + left. rewrite list_lookup_fmap in H. destruct (actors w !! b) as [x'|] eqn:Hb'; [|done]. injection H as H.
          destruct (woken_lookup_r _ _ _ _ Hw Hb') as (x & Hx & Hxx). exists x. split; [done|]. intros q0. rewrite <- H.
          by destruct (aw_stack _ _ Hxx) as [->|(? & ? & -> & ->)].
        + right. rewrite fmap_length, (woken_length _ _ Hw) in Hge. split; [done|].
          destruct Hsp as [[-> _]|(-> & _)]; [done|]. destruct (b - _); [|done]. by injection H as <-.
      - apply (f_equal length) in Hst. rewrite app_length, !fmap_length, (woken_length _ _ Hw) in Hst. lia. }
    eapply (inv_update _ _ a (fun q' => cnt q' (fr :: rest)) q g (new ++ rest) HI1).
    - intros q'. by rewrite (stack_cnt_self _ _ ac') by done; rewrite Est'.
    - intros q'. cbn. rewrite Hq. destruct (decide (q = q')) as [<-|]; [by rewrite list_lookup_alter|by rewrite list_lookup_alter_ne].
    - intros b q'. change (stack_cnt (m <| queues := queues s |>) b q') with (stack_cnt m b q'). apply stack_cnt_setstack'. by rewrite Ea'.
    - by rewrite length_actors_setstack.
    - intros q' Hne. rewrite cnt_app, (Hoth q' Hne). cbn [cnt]. lia.
    - intros qq Hqq. rewrite cnt_app. specialize (Hthis qq Hqq). cbn [cnt] in *. destruct (owns_b q fr). all: destruct Hthis as [(?&?&?)|[(?&?&?&?)|(?&?&?)]]; [left|right; left|right; right]; split_and?; try done; lia.
  Qed.

  Theorem reachable_inv cfg_nq cfg_max scripts tr s :
    foldl (fun os a => o ← os; step T F o a) (Some (init cfg_nq cfg_max scripts)) tr = Some s -> Inv s.
  Proof. apply (run_invariant T F Inv step_inv), init_inv. Qed.

  (* mutual exclusion: two different actors are never both inside a runner frame of the same queue *)
  Corollary exclusive cfg_nq cfg_max scripts tr s a b q na nb qq :
    foldl (fun os a => o ← os; step T F o a) (Some (init cfg_nq cfg_max scripts)) tr = Some s ->
    s.(queues) !! q = Some qq ->
    stack_cnt s a q = Some (S na) -> stack_cnt s b q = Some (S nb) -> a = b.
  Proof.
    intros Hr Hq Ha Hb. apply reachable_inv in Hr.
    destruct (runner_owns s a q qq na Hr Ha Hq) as [Hoa _]. destruct (runner_owns s b q qq nb Hr Hb Hq) as [Hob _]. congruence.
  Qed.
End Preservation.

Print Assumptions exclusive.

