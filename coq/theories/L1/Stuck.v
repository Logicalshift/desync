(* Well-formed queue ids (WF), and where an actor can be when it cannot move: script finished, inside the
   condition-variable wait of sync_background, or a dormant pool thread - also when some actors are held back on purpose. *)
From stdpp Require Import list numbers option.
From RecordUpdate Require Import RecordUpdate.
From L1 Require Import Model Shape.

(* every queue id mentioned by a frame or a script exists *)
Definition op_q (o : op) : nat := match o with ODesync q | OSync q | OTrySync q => q end.
Definition frame_ok (n : nat) (fr : frame) : bool :=
  match fr with
  | FTop os => forallb (fun o => bool_decide (op_q o < n)) os
  | FD1 q | FD2 q | FS1 q | FSIrun q | FSIidle q | FSDpush q | FSDloop q | FSDidle q
  | FSBreg q | FSBpush q | FSBcheck q | FSBwait q | FSBwoken q | FSBclaim q | FSBsteal q | FSBstealidle q | FSBdone q
  | FROdeq q | FROrun q _ | FTS1 q | FRQ1 q | FRQ2 q | FTrelsome _ q | FDRdeq q | FDRrun q _ | FDRfin q => bool_decide (q < n)
  | _ => true
  end.
Definition WF (s : state) : Prop :=
  forall a st, stacks s !! a = Some st -> forallb (frame_ok (length s.(queues))) st = true.

Lemma WF_view s1 s : stacks s1 = stacks s -> length s1.(queues) = length s.(queues) -> WF s -> WF s1.
Proof. intros Hst Hl H a st. rewrite Hst, Hl. apply H. Qed.

Lemma WF_update s s' a newst :
  WF s -> stacks s' = <[a := newst]> (stacks s) -> length s'.(queues) = length s.(queues) ->
  forallb (frame_ok (length s.(queues))) newst = true -> WF s'.
Proof.
  intros H Hst Hl Hnew b st. rewrite Hst, Hl. intros [(-> & <- & _)|(_ & Hb)]%list_lookup_insert_Some; [done|by apply (H b)].
Qed.

Lemma WF_wake s w ac q rest : WF s -> s.(actors) !! w = Some ac -> ac.(stack) = FSBwait q :: rest -> WF (setstack s w (FSBwoken q :: rest)).
Proof.
  intros H Ew Est. eapply WF_update; [done|apply stacks_setstack|done|].
  specialize (H w (FSBwait q :: rest)). rewrite stacks_lookup, Ew in H. cbn in H. rewrite Est in H. by apply H.
Qed.
Lemma WF_kick s w (f : actor -> actor) : (forall x, (f x).(stack) = x.(stack)) -> WF s -> WF (upda s w f).
Proof. intros Hf. apply WF_view; [by apply stacks_upda_same|done]. Qed.
Lemma WF_woken m s : woken m s -> WF s -> WF m.
Proof.
  intros Hw H b st. rewrite stacks_lookup, (wk_queues _ _ Hw).
  destruct (actors m !! b) as [x'|] eqn:Hb; [|done]. intros [= <-].
  destruct (woken_lookup_r _ _ _ _ Hw Hb) as (x & Hx & Hxx).
  specialize (H b (stack x)). rewrite stacks_lookup, Hx in H. specialize (H eq_refl).
  destruct (aw_stack _ _ Hxx) as [->|(q & r & E1 & ->)]; [done|]. by rewrite E1 in H.
Qed.

Lemma eff_frame_ok T F s a ac fr m new : eff T F s a ac fr m new ->
  frame_ok (length s.(queues)) fr = true -> forallb (frame_ok (length s.(queues))) new = true.
Proof.
  destruct 1; cbn; try first [done | by intros ->].
  - (* E_op *) intros [Ho ->]%andb_true_iff. by destruct o; cbn in *; rewrite Ho.
  - (* E_exam_take *) intros _. apply lookup_lt_Some in Eq. by rewrite bool_decide_true.
Qed.

Lemma WF_self s a ac : WF s -> s.(actors) !! a = Some ac -> forallb (frame_ok (length s.(queues))) ac.(stack) = true.
Proof. intros H Ea. apply (H a). by rewrite stacks_lookup, Ea. Qed.

Ltac wf_new Hfr Hrest Hos :=
  cbn; rewrite ?Hrest, ?Hfr, ?Hos, ?andb_true_r; cbn; try done;
  repeat (apply andb_true_iff; split); try done; try (apply bool_decide_eq_true; done).

Section WFStep.
  Context (T : tables) (F : facts).

  Lemma step_wf s a s' : WF s -> step T F s a = Some s' -> WF s'.
  Proof.
    intros HW (ac & fr & rest & m & new & Ea & Est & He & ->)%step_eff.
    pose proof (WF_self s a ac HW Ea) as Hold. rewrite Est in Hold. cbn in Hold. apply andb_true_iff in Hold as [Hfr Hrest].
    destruct (eff_stacks _ _ _ _ _ _ _ _ He) as (w & sp & Hw & Hst & Hsp).
    pose proof (eff_queues_length _ _ _ _ _ _ _ _ He) as Hl.
    eapply (WF_update m); [|apply stacks_setstack|done|].
    - intros b st. rewrite Hst, Hl. intros [Hb|[_ Hb]]%lookup_app_Some.
      + rewrite <- (wk_queues _ _ Hw). by apply (WF_woken w s Hw HW b).
      + destruct Hsp as [[-> _]|(-> & _)]; [done|]. destruct (b - _); [|done]. by injection Hb as <-.
    - rewrite Hl, forallb_app, Hrest, andb_true_r. by eapply eff_frame_ok.
  Qed.

  Definition wf_scripts (nq : nat) (scripts : list (list op)) : Prop :=
    Forall (fun sc => forallb (fun o => bool_decide (op_q o < nq)) sc = true) scripts.

  Lemma init_wf nq mx scripts : wf_scripts nq scripts -> WF (init nq mx scripts).
  Proof.
    intros Hs a st Ha. unfold init, stacks in *; cbn in *. rewrite replicate_length.
    rewrite <- list_fmap_compose in Ha. rewrite list_lookup_fmap in Ha. destruct (scripts !! a) as [sc|] eqn:E; [|done].
    injection Ha as <-. cbn. rewrite andb_true_r. eapply Forall_lookup_1 in Hs; [|done]. done.
  Qed.
End WFStep.


Definition stuck_ok (s : state) (st : list frame) : Prop :=
  match st with
  | [FTop []] => True
  | FSBwait _ :: _ => True
  | [FTrecv t] => exists th, s.(threads) !! t = Some th /\ th.(chan) = 0
  | _ => False
  end.

Lemma stuck_caller s a ac : Shape s -> s.(actors) !! a = Some ac -> a < ncallers s -> stuck_ok s ac.(stack) ->
  ac.(stack) = [FTop []] \/ exists q rest, ac.(stack) = FSBwait q :: rest.
Proof.
  intros HS Ea Hlt Hsk. pose proof (sh_caller s HS a ac Ea Hlt) as Ca.
  destruct (stack ac) as [|fr rest]; [done|]. destruct fr; try done; cbn in Hsk.
  - left. destruct script; [|done]. by destruct rest.
  - right. eauto.
  - by destruct rest.
Qed.

Lemma queue_exists s q : q < length s.(queues) -> exists qq, s.(queues) !! q = Some qq.
Proof. intros H. by apply lookup_lt_is_Some_2. Qed.

Definition held_at (P : frame -> Prop) (s : state) (B : list nat) : Prop :=
  forall a, a ∈ B -> exists ac fr rest, s.(actors) !! a = Some ac /\ ac.(stack) = fr :: rest /\ P fr.
Lemma held_at_top P s B a ac fr rest : held_at P s B -> a ∈ B -> s.(actors) !! a = Some ac -> ac.(stack) = fr :: rest -> P fr.
Proof. intros HB Hin Ea Est. destruct (HB a Hin) as (ac' & fr' & rest' & E1 & E2 & E3). rewrite Ea in E1. injection E1 as <-. rewrite Est in E2. by injection E2 as <- _. Qed.

(* frames at which an actor holds the threads lock, the schedule lock or the busy lock of its pool thread *)
Definition holds_lock (fr : frame) : bool :=
  match fr with FSTscan _ | FTnext _ | FTexam _ | FTrelnone _ | FTrelsome _ _ => true | _ => false end.

(* If the actors that are held back hold no lock, everybody else is stuck in one of the three places:
   "cannot move" is known only outside B. *)
Section StuckAt.
  Context (T : tables) (F : facts) (B : list nat) (P : frame -> Prop) (HPl : forall fr, P fr -> holds_lock fr = false).

  Lemma lock_outside s a ac fr rest : held_at P s B -> s.(actors) !! a = Some ac -> ac.(stack) = fr :: rest -> holds_lock fr = true -> a ∉ B.
  Proof. intros HB Ea Est Hl Hin. rewrite (HPl fr) in Hl; [done|]. by eapply held_at_top. Qed.

  Lemma texc_sched_free s : Shape s -> held_at P s B -> (forall a, a ∉ B -> step T F s a = None) -> s.(sched_held) = None.
  Proof.
    intros [L Ta Ca Po He Sh Th] HB Hterm. destruct (sched_held s) as [h|] eqn:E; [|done]. exfalso.
    destruct (proj1 (Sh h) eq_refl) as (ac & t & Ea & Est).
    specialize (Hterm h (lock_outside s h ac _ _ HB Ea Est eq_refl)). unfold step in Hterm. rewrite Ea in Hterm. cbn in Hterm.
    rewrite Est in Hterm. cbn in Hterm. rewrite E in Hterm. cbn in Hterm. rewrite bool_decide_true in Hterm by done. cbn in Hterm.
    destruct (sched s) as [|q sc]; [done|]. destruct (queues s !! q) as [qq|]; [|done]. by destruct (t_next T (qs qq)).
  Qed.

  Lemma texc_threads_free s : Shape s -> held_at P s B -> (forall a, a ∉ B -> step T F s a = None) -> s.(threads_held) = None.
  Proof.
    intros HS HB Hterm. pose proof (texc_sched_free s HS HB Hterm) as Hsf. pose proof HS as [L Ta Ca Po He Sh Th].
    destruct (threads_held s) as [h|] eqn:E; [|done]. exfalso.
    destruct (proj1 (Th h) eq_refl) as (ac & i & rest & Ea & Est).
    pose proof (Hterm h (lock_outside s h ac _ _ HB Ea Est eq_refl)) as Hstep. unfold step in Hstep. rewrite Ea in Hstep. cbn in Hstep.
    rewrite Est in Hstep. cbn in Hstep. rewrite E in Hstep. cbn in Hstep. rewrite bool_decide_true in Hstep by done. cbn in Hstep.
    destruct (threads s !! i) as [th|] eqn:Et; [|done].
    destruct (held th) eqn:Eh; [|by destruct (busy th)].
    (* thread i holds its busy lock: its actor is in the hand-over frames and can move *)
    assert (Hi : ncallers s + i < length (actors s)) by (apply lookup_lt_Some in Et; unfold ncallers; lia).
    destruct (lookup_lt_is_Some_2 _ _ Hi) as [ap Eap].
    specialize (He i th ap Et Eap). rewrite Eh in He.
    destruct (stack ap) as [|fr [|]] eqn:Esp; try done; destruct fr; try done.
    all: specialize (Hterm _ (lock_outside s _ ap _ _ HB Eap Esp eq_refl)); unfold step in Hterm; rewrite Eap in Hterm; cbn in Hterm; rewrite Esp in Hterm; cbn in Hterm.
    - (* FTnext *) rewrite Hsf in Hterm. done.
    - (* FTexam *) assert (sched_held s = Some (ncallers s + i)) by (apply Sh; eauto). congruence.
    - (* FTrelnone *) done.
    - (* FTrelsome *) done.
  Qed.

  Theorem stuck_frames_at s : Shape s -> WF s -> held_at P s B -> (forall a, a ∉ B -> step T F s a = None) ->
    forall a ac, s.(actors) !! a = Some ac -> a ∉ B -> stuck_ok s ac.(stack).
  Proof.
    intros HS HW HB Hterm a ac Ea HaB.
    pose proof (texc_sched_free s HS HB Hterm) as Hsf. pose proof (texc_threads_free s HS HB Hterm) as Htf.
    pose proof (WF_self s a ac HW Ea) as Hwf.
    specialize (Hterm a HaB). unfold step in Hterm. rewrite Ea in Hterm. cbn in Hterm.
    destruct (stack ac) as [|fr rest] eqn:Est.
    { destruct (kind_of s a ac HS Ea) as [[_ H]|(t & _ & H)]; by rewrite Est in H. }
    pose proof (shape_top s a ac fr rest HS Ea Est) as Hsh.
    cbn in Hwf. apply andb_true_iff in Hwf as [Hfr _].
    destruct fr; shape_inv Hsh; cbn in Hfr; try (apply bool_decide_eq_true in Hfr; destruct (queue_exists s _ Hfr) as [qq Eq]);
      cbn in Hterm; rewrite ?Eq, ?Hsf, ?Htf in Hterm; cbn in Hterm.
    all: try done.
    all: lazymatch type of Est with
      | _ = FTop ?sc :: _ => destruct sc as [|[] ?]; done
      | _ = FSTscan _ :: _ => assert (threads_held s = Some a) by (apply (sh_threads_held s HS); eauto); congruence
      | _ = FTexam _ :: _ => assert (sched_held s = Some a) by (apply (sh_sched_held s HS); eauto); congruence
      | _ = FTrecv ?t :: _ =>
          destruct (threads s !! t) as [th|] eqn:Et; cbn in Hterm;
          [ destruct (chan th) eqn:Ec; [cbn; eauto|done]
          | apply lookup_ge_None in Et; apply lookup_lt_Some in Ea; pose proof (sh_len s HS); unfold ncallers in *; lia ]
      | _ => exfalso; repeat (match type of Hterm with context [match ?x with _ => _ end] => destruct x end; try done)
      end.
  Qed.
End StuckAt.


Section Stuck.
  Context (T : tables) (F : facts).
  Definition terminal (s : state) : Prop := forall a, step T F s a = None.

  Theorem stuck_frames s : Shape s -> WF s -> terminal s ->
    forall a ac, s.(actors) !! a = Some ac -> stuck_ok s ac.(stack).
  Proof.
    intros HS HW Hterm a ac Ea.
    apply (stuck_frames_at T F [] (fun _ => False)) with (a := a); [done|done|done|by intros b Hb%elem_of_nil|by intros b _|done|apply not_elem_of_nil].
  Qed.
End Stuck.

Section Reach.
  Context (T : tables) (F : facts).
  Definition run (s : state) (tr : list nat) : option state := foldl (fun os a => o ← os; step T F o a) (Some s) tr.
  Lemma run_cons s a tr : run s (a :: tr) = s1 ← step T F s a; run s1 tr.
  Proof. unfold run. cbn. destruct (step T F s a); cbn; [done|by rewrite run_none]. Qed.
  Lemma run_snoc s tr a : run s (tr ++ [a]) = s1 ← run s tr; step T F s1 a.
  Proof. unfold run. by rewrite foldl_app. Qed.

  Theorem reachable_wf nq mx scripts tr s : wf_scripts nq scripts -> run (init nq mx scripts) tr = Some s -> WF s.
  Proof. intros Hs. apply (run_invariant T F WF (step_wf T F)). by apply init_wf. Qed.

  (* In every reachable state in which no thread can move, each thread is in one of three places:
     its script is finished, it is inside the condition-variable wait of sync_background,
     or it is an idle pool thread with nothing in its channel. Holds for any tables and facts. *)
  Theorem only_three_ways_to_be_stuck nq mx scripts tr s :
    wf_scripts nq scripts -> run (init nq mx scripts) tr = Some s -> terminal T F s ->
    forall a ac, s.(actors) !! a = Some ac -> stuck_ok s ac.(stack).
  Proof.
    intros Hs Hr. apply stuck_frames.
    - by eapply reachable_shape.
    - by eapply reachable_wf.
  Qed.
End Reach.

Print Assumptions only_three_ways_to_be_stuck.
