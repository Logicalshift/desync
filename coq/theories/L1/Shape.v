(* What stacks look like: callers (a script frame at the bottom, at most one call in flight) and pool actors, which
   actor holds which lock, and how a pool thread's record goes with its actor's stack.  The invariant Shape; [shape_top]
   reads off the frames below the top one.  Every later file of L1 starts from here. *)
From stdpp Require Import list numbers option.
From RecordUpdate Require Import RecordUpdate.
From L1 Require Import Model.
From L1 Require Export Step.

Definition simple_frame (f : frame) : bool :=
  match f with
  | FD1 _ | FD2 _ | FSTlock | FSTscan _ | FSTspawn | FS1 _ | FSIrun _ | FSIidle _ | FSDpush _ | FSDloop _ | FSDidle _
  | FSBreg _ | FSBpush _ | FSBcheck _ | FSBwait _ | FSBwoken _ | FSBclaim _ | FSBsteal _ | FSBstealidle _ | FSBdone _
  | FTS1 _ | FRQ1 _ | FRQ2 _ => true
  | _ => false
  end.
Definition pair_ok (f g : frame) : bool :=
  match f, g with
  | FROdeq q, FSDloop q' | FROdeq q, FSBsteal q' | FROrun q _, FSDloop q' | FROrun q _, FSBsteal q' => bool_decide (q = q')
  | FRQ1 _, FSBcheck _ | FRQ2 _, FSBcheck _ | FSTlock, FSBcheck _ | FSTscan _, FSBcheck _ | FSTspawn, FSBcheck _ => true
  | _, _ => false
  end.
Definition is_top (f : frame) : bool := match f with FTop _ => true | _ => false end.
Definition caller_ok (st : list frame) : bool :=
  match st with
  | [f] => is_top f
  | [f; g] => is_top g && simple_frame f
  | [f; g; h] => is_top h && pair_ok f g
  | _ => false
  end.
Definition pool_ok (t : nat) (st : list frame) : bool :=
  match st with
  | [FTrecv t'] | [FTlock t'] | [FTnext t'] | [FTexam t'] | [FTrelnone t'] | [FTrelsome t' _]
  | [FDRdeq _; FTlock t'] | [FDRrun _ _; FTlock t'] | [FDRfin _; FTlock t'] => bool_decide (t' = t)
  | _ => false
  end.
(* the frames during which the pool thread holds its own busy lock *)
Definition holds_busy (st : list frame) : bool :=
  match st with [FTnext _] | [FTexam _] | [FTrelnone _] | [FTrelsome _ _] => true | _ => false end.

Definition ncallers (s : state) : nat := length s.(actors) - length s.(threads).

Record Shape (s : state) : Prop := {
  sh_len : length s.(threads) <= length s.(actors);
  sh_tactor : forall t th, s.(threads) !! t = Some th -> th.(tactor) = ncallers s + t;
  sh_caller : forall a ac, s.(actors) !! a = Some ac -> a < ncallers s -> caller_ok ac.(stack) = true;
  sh_pool : forall t ac, s.(actors) !! (ncallers s + t) = Some ac -> pool_ok t ac.(stack) = true;
  sh_held : forall t th ac, s.(threads) !! t = Some th -> s.(actors) !! (ncallers s + t) = Some ac ->
            th.(held) = holds_busy ac.(stack);
  sh_sched_held : forall h, s.(sched_held) = Some h <-> exists ac t, s.(actors) !! h = Some ac /\ ac.(stack) = [FTexam t];
  sh_threads_held : forall h, s.(threads_held) = Some h <-> exists ac i rest, s.(actors) !! h = Some ac /\ ac.(stack) = FSTscan i :: rest;
}.

Lemma actors_upda_lookup s a f b :
  (upda s a f).(actors) !! b = if decide (a = b) then f <$> (s.(actors) !! b) else s.(actors) !! b.
Proof. unfold upda; cbn. case_decide; subst; [by rewrite list_lookup_alter|by rewrite list_lookup_alter_ne]. Qed.
Lemma actors_setstack_lookup s a st b :
  (setstack s a st).(actors) !! b = if decide (a = b) then (fun x => x <| stack := st |>) <$> (s.(actors) !! b) else s.(actors) !! b.
Proof. apply actors_upda_lookup. Qed.
Lemma threads_updt_lookup s t f u :
  (updt s t f).(threads) !! u = if decide (t = u) then f <$> (s.(threads) !! u) else s.(threads) !! u.
Proof. unfold updt; cbn. case_decide; subst; [by rewrite list_lookup_alter|by rewrite list_lookup_alter_ne]. Qed.
Lemma length_threads_updt s t f : length (updt s t f).(threads) = length s.(threads).
Proof. unfold updt; cbn. by rewrite alter_length. Qed.

(* a "stack view": everything Shape needs to know about a state *)
Definition stacks (s : state) : list (list frame) := stack <$> s.(actors).
Definition tinfo (s : state) : list (bool * nat) := (fun th => (th.(held), th.(tactor))) <$> s.(threads).

Lemma Shape_view s1 s :
  stacks s1 = stacks s -> tinfo s1 = tinfo s -> s1.(sched_held) = s.(sched_held) -> s1.(threads_held) = s.(threads_held) ->
  Shape s -> Shape s1.
Proof.
  intros Hst Hti Hsh Hth [L Ta Ca Po He Sh Th].
  assert (Hla : length s1.(actors) = length s.(actors)) by (apply (f_equal length) in Hst; unfold stacks in Hst; by rewrite !fmap_length in Hst).
  assert (Hlt : length s1.(threads) = length s.(threads)) by (apply (f_equal length) in Hti; unfold tinfo in Hti; by rewrite !fmap_length in Hti).
  assert (Hn : ncallers s1 = ncallers s) by (unfold ncallers; lia).
  assert (Hstk : forall a ac1, s1.(actors) !! a = Some ac1 -> exists ac, s.(actors) !! a = Some ac /\ ac.(stack) = ac1.(stack)).
  { intros a ac1 H. assert (H' : stacks s1 !! a = Some ac1.(stack)) by (unfold stacks; by rewrite list_lookup_fmap, H).
    rewrite Hst in H'. unfold stacks in H'. rewrite list_lookup_fmap in H'. destruct (actors s !! a) as [ac|]; [|done]. injection H' as H'. eauto. }
  assert (Hthr : forall t th1, s1.(threads) !! t = Some th1 -> exists th, s.(threads) !! t = Some th /\ th.(held) = th1.(held) /\ th.(tactor) = th1.(tactor)).
  { intros t th1 H. assert (H' : tinfo s1 !! t = Some (th1.(held), th1.(tactor))) by (unfold tinfo; by rewrite list_lookup_fmap, H).
    rewrite Hti in H'. unfold tinfo in H'. rewrite list_lookup_fmap in H'. destruct (threads s !! t) as [th|]; [|done]. injection H' as H1 H2. eauto. }
  split.
  - lia.
  - intros t th1 H. destruct (Hthr _ _ H) as (th & H1 & _ & H3). rewrite Hn, <- H3. by apply Ta.
  - intros a ac1 H Hlt'. destruct (Hstk _ _ H) as (ac & H1 & H2). rewrite <- H2. apply (Ca a); [done|lia].
  - intros t ac1 H. rewrite Hn in H. destruct (Hstk _ _ H) as (ac & H1 & H2). rewrite <- H2. by apply Po.
  - intros t th1 ac1 H1 H2. rewrite Hn in H2. destruct (Hthr _ _ H1) as (th & G1 & G2 & _). destruct (Hstk _ _ H2) as (ac & G3 & G4).
    rewrite <- G2, <- G4. by eapply He.
  - intros h. rewrite Hsh, Sh. split; intros (ac & t & H1 & H2).
    + assert (H' : stacks s1 !! h = Some [FTexam t]) by (rewrite Hst; unfold stacks; by rewrite list_lookup_fmap, H1; cbn; rewrite H2).
      unfold stacks in H'. rewrite list_lookup_fmap in H'. destruct (actors s1 !! h) as [ac1|]; [|done]. injection H' as H'. eauto.
    + destruct (Hstk _ _ H1) as (ac0 & G1 & G2). exists ac0, t. split; [done|congruence].
  - intros h. rewrite Hth, Th. split; intros (ac & i & rest & H1 & H2).
    + assert (H' : stacks s1 !! h = Some (FSTscan i :: rest)) by (rewrite Hst; unfold stacks; by rewrite list_lookup_fmap, H1; cbn; rewrite H2).
      unfold stacks in H'. rewrite list_lookup_fmap in H'. destruct (actors s1 !! h) as [ac1|]; [|done]. injection H' as H'. eauto.
    + destruct (Hstk _ _ H1) as (ac0 & G1 & G2). exists ac0, i, rest. split; [done|congruence].
Qed.

Definition is_exam (st : list frame) : bool := match st with [FTexam _] => true | _ => false end.
Definition is_scan (st : list frame) : bool := match st with FSTscan _ :: _ => true | _ => false end.

Lemma is_exam_true st : is_exam st = true <-> exists t, st = [FTexam t].
Proof. split; [destruct st as [|[] [|]]; try done; eauto|by intros [t ->]]. Qed.
Lemma is_scan_true st : is_scan st = true <-> exists i rest, st = FSTscan i :: rest.
Proof. split; [destruct st as [|[] ?]; try done; eauto|by intros (i & r & ->)]. Qed.

Lemma stacks_lookup s a : stacks s !! a = stack <$> (s.(actors) !! a).
Proof. unfold stacks. by rewrite list_lookup_fmap. Qed.

Lemma Shape_update s s' a ac newst :
  Shape s -> s.(actors) !! a = Some ac ->
  stacks s' = <[a := newst]> (stacks s) ->
  length s'.(threads) = length s.(threads) ->
  (forall t th', s'.(threads) !! t = Some th' -> exists th, s.(threads) !! t = Some th /\ th'.(tactor) = th.(tactor) /\
        th'.(held) = if decide (a = ncallers s + t) then holds_busy newst else th.(held)) ->
  (a < ncallers s -> caller_ok newst = true) ->
  (forall t, a = ncallers s + t -> pool_ok t newst = true) ->
  s'.(sched_held) = (if is_exam newst then Some a else if is_exam ac.(stack) then None else s.(sched_held)) ->
  (is_exam newst = true -> is_exam ac.(stack) = false -> s.(sched_held) = None) ->
  s'.(threads_held) = (if is_scan newst then Some a else if is_scan ac.(stack) then None else s.(threads_held)) ->
  (is_scan newst = true -> is_scan ac.(stack) = false -> s.(threads_held) = None) ->
  Shape s'.
Proof.
  intros [L Ta Ca Po He Sh Th] Ea Hst Hlt Hthr Hcal Hpool Hsh Hsh0 Hth Hth0.
  assert (Hla : length s'.(actors) = length s.(actors)).
  { apply (f_equal length) in Hst. unfold stacks in Hst. by rewrite insert_length, !fmap_length in Hst. }
  assert (Hn : ncallers s' = ncallers s) by (unfold ncallers; lia).
  assert (Hstk : forall b ac', s'.(actors) !! b = Some ac' ->
            if decide (a = b) then ac'.(stack) = newst else exists ac0, s.(actors) !! b = Some ac0 /\ ac0.(stack) = ac'.(stack)).
  { intros b ac' H. assert (H' : stacks s' !! b = Some ac'.(stack)) by (by rewrite stacks_lookup, H).
    rewrite Hst in H'. case_decide; subst.
    - rewrite list_lookup_insert in H' by (unfold stacks; rewrite fmap_length; by eapply lookup_lt_Some). by injection H'.
    - rewrite list_lookup_insert_ne in H' by done. rewrite stacks_lookup in H'. destruct (actors s !! b) as [ac0|]; [|done]. injection H' as H'. eauto. }
  assert (Hinv : forall b ac0, s.(actors) !! b = Some ac0 -> exists ac', s'.(actors) !! b = Some ac' /\
            ac'.(stack) = if decide (a = b) then newst else ac0.(stack)).
  { intros b ac0 H. assert (Hb : b < length s'.(actors)) by (rewrite Hla; by eapply lookup_lt_Some).
    destruct (lookup_lt_is_Some_2 _ _ Hb) as [ac' H']. exists ac'. split; [done|].
    specialize (Hstk b ac' H'). case_decide; [done|]. destruct Hstk as (ac1 & G1 & G2). congruence. }
  (* the two lock clauses are one: the holder is the actor whose stack passes a test *)
  assert (Hlock : forall (test : list frame -> bool) (held held' : option nat),
            (forall h, held = Some h <-> exists ac0, s.(actors) !! h = Some ac0 /\ test ac0.(stack) = true) ->
            held' = (if test newst then Some a else if test ac.(stack) then None else held) ->
            (test newst = true -> test ac.(stack) = false -> held = None) ->
            forall h, held' = Some h <-> exists ac', s'.(actors) !! h = Some ac' /\ test ac'.(stack) = true).
  { intros test held held' Hold -> H0 h. split.
    - intros H. destruct (test newst) eqn:En.
      + injection H as <-. destruct (Hinv a ac Ea) as (ac' & G1 & G2). rewrite decide_True in G2 by done. exists ac'. by rewrite G2.
      + destruct (test (stack ac)) eqn:Eo; [done|]. apply Hold in H as (ac0 & G1 & G2).
        destruct (Hinv h ac0 G1) as (ac' & G3 & G4). case_decide; subst; [rewrite Ea in G1; injection G1 as <-; congruence|].
        exists ac'. by rewrite G4.
    - intros (ac' & H1 & H2). specialize (Hstk h ac' H1). case_decide as Hah; [subst h; by rewrite <- Hstk, H2|].
      destruct Hstk as (ac0 & G1 & G2).
      assert (Hh : held = Some h) by (apply Hold; exists ac0; by rewrite G2).
      assert (Hown : test (stack ac) = true -> held = Some a) by (intros; apply Hold; eauto).
      destruct (test newst) eqn:En, (test (stack ac)) eqn:Eo; try done; [rewrite Hown in Hh by done|rewrite H0 in Hh by done|rewrite Hown in Hh by done]; congruence. }
  assert (Hexam : forall s0 h, (exists ac0 t, s0.(actors) !! h = Some ac0 /\ ac0.(stack) = [FTexam t]) <->
                               (exists ac0, s0.(actors) !! h = Some ac0 /\ is_exam ac0.(stack) = true))
    by (intros s0 h; split; [intros (x & t & ? & ?); exists x; split; [done|]; apply is_exam_true; eauto|intros (x & ? & (t & ?)%is_exam_true); eauto]).
  assert (Hscan : forall s0 h, (exists ac0 i r, s0.(actors) !! h = Some ac0 /\ ac0.(stack) = FSTscan i :: r) <->
                               (exists ac0, s0.(actors) !! h = Some ac0 /\ is_scan ac0.(stack) = true))
    by (intros s0 h; split; [intros (x & i & r & ? & ?); exists x; split; [done|]; apply is_scan_true; eauto|intros (x & ? & (i & r & ?)%is_scan_true); eauto 6]).
  split.
  - lia.
  - intros t th' H. destruct (Hthr _ _ H) as (th & G1 & G2 & _). rewrite Hn, G2. by apply Ta.
  - intros b ac' H Hb. rewrite Hn in Hb. specialize (Hstk b ac' H). case_decide as Hab; [subst b|].
    + rewrite Hstk. by apply Hcal.
    + destruct Hstk as (ac0 & G1 & G2). rewrite <- G2. by apply (Ca b).
  - intros t ac' H. rewrite Hn in H. specialize (Hstk _ ac' H). case_decide.
    + rewrite Hstk. by apply Hpool.
    + destruct Hstk as (ac0 & G1 & G2). rewrite <- G2. by apply Po.
  - intros t th' ac' H1 H2. rewrite Hn in H2. destruct (Hthr _ _ H1) as (th & G1 & _ & G3). rewrite G3.
    specialize (Hstk _ ac' H2). case_decide.
    + by rewrite Hstk.
    + destruct Hstk as (ac0 & G4 & G5). rewrite <- G5. by eapply He.
  - intros h. etrans; [apply (Hlock is_exam _ _ (fun h0 => iff_trans (Sh h0) (Hexam s h0)) Hsh Hsh0)|symmetry; apply Hexam].
  - intros h. etrans; [apply (Hlock is_scan _ _ (fun h0 => iff_trans (Th h0) (Hscan s h0)) Hth Hth0)|symmetry; apply Hscan].
Qed.

Lemma stacks_upda_same s a f : (forall x, (f x).(stack) = x.(stack)) -> stacks (upda s a f) = stacks s.
Proof. apply (fmap_alter_same stack). Qed.
Lemma stacks_setstack s a st : stacks (setstack s a st) = <[a := st]> (stacks s).
Proof. by apply (fmap_alter_const stack). Qed.

Lemma awoken_shape x' x : awoken x' x ->
  caller_ok x'.(stack) = caller_ok x.(stack) /\ (forall t, pool_ok t x'.(stack) = pool_ok t x.(stack)) /\
  holds_busy x'.(stack) = holds_busy x.(stack) /\ is_exam x'.(stack) = is_exam x.(stack) /\ is_scan x'.(stack) = is_scan x.(stack).
Proof.
  by intros [[->|(q & r & -> & ->)] _ _ _ _ _].
Qed.

Lemma woken_ncallers m s : woken m s -> ncallers m = ncallers s.
Proof. intros Hw. unfold ncallers. by rewrite (woken_length _ _ Hw), (wk_threads _ _ Hw). Qed.
Lemma Shape_woken m s : woken m s -> Shape s -> Shape m.
Proof.
  intros Hw [L Ta Ca Po He Sh Th].
  pose proof (woken_ncallers m s Hw) as Hn.
  (* each lock clause speaks of some actor whose stack passes a test that wake-ups respect *)
  assert (Hheld : forall (test : list frame -> bool), (forall x' x, awoken x' x -> test x'.(stack) = test x.(stack)) -> forall h,
            (exists x', m.(actors) !! h = Some x' /\ test x'.(stack) = true) <-> (exists x, s.(actors) !! h = Some x /\ test x.(stack) = true)).
  { intros test Htest h. split.
    - intros (x' & Hx' & Ht). destruct (woken_lookup_r _ _ _ _ Hw Hx') as (x & Hx & Hxx). exists x. by rewrite <- (Htest _ _ Hxx).
    - intros (x & Hx & Ht). destruct (woken_lookup _ _ _ _ Hw Hx) as (x' & Hx' & Hxx). exists x'. by rewrite (Htest _ _ Hxx). }
  split.
  - by rewrite (woken_length _ _ Hw), (wk_threads _ _ Hw).
  - intros t th. rewrite Hn, (wk_threads _ _ Hw). apply Ta.
  - intros b x' Hb. rewrite Hn. destruct (woken_lookup_r _ _ _ _ Hw Hb) as (x & Hx & Hxx).
    rewrite (proj1 (awoken_shape _ _ Hxx)). by apply Ca.
  - intros t x' Hb. rewrite Hn in Hb. destruct (woken_lookup_r _ _ _ _ Hw Hb) as (x & Hx & Hxx).
    destruct (awoken_shape _ _ Hxx) as (_ & -> & _). by apply Po.
  - intros t th x' Ht Hb. rewrite (wk_threads _ _ Hw) in Ht. rewrite Hn in Hb. destruct (woken_lookup_r _ _ _ _ Hw Hb) as (x & Hx & Hxx).
    destruct (awoken_shape _ _ Hxx) as (_ & _ & -> & _). by eapply He.
  - intros h. rewrite (wk_sched_held _ _ Hw), Sh.
    pose proof (Hheld is_exam (fun x' x H => proj1 (proj2 (proj2 (proj2 (awoken_shape x' x H))))) h) as Hh.
    setoid_rewrite is_exam_true in Hh. split; intros (x & t & H1 & H2).
    + destruct (proj2 Hh) as (x' & ? & t' & ?); eauto.
    + destruct (proj1 Hh) as (x' & ? & t' & ?); eauto.
  - intros h. rewrite (wk_threads_held _ _ Hw), Th.
    pose proof (Hheld is_scan (fun x' x H => proj2 (proj2 (proj2 (proj2 (awoken_shape x' x H))))) h) as Hh.
    setoid_rewrite is_scan_true in Hh. split; intros (x & i & r & H1 & H2).
    + destruct (proj2 Hh) as (x' & ? & i' & r' & ?); eauto 6.
    + destruct (proj1 Hh) as (x' & ? & i' & r' & ?); eauto 6.
Qed.

Lemma Shape_wake s w ac q rest :
  Shape s -> s.(actors) !! w = Some ac -> ac.(stack) = FSBwait q :: rest -> Shape (setstack s w (FSBwoken q :: rest)).
Proof. intros HS Ew Est. pose proof (woken_wake s w) as Hw. unfold wake in Hw. rewrite Ew, Est in Hw. by eapply Shape_woken. Qed.
Lemma Shape_kick s w (f : actor -> actor) : (forall x, (f x).(stack) = x.(stack)) -> Shape s -> Shape (upda s w f).
Proof. intros Hf. apply Shape_view; try done. by apply stacks_upda_same. Qed.

Lemma pool_actor s t th : Shape s -> s.(threads) !! t = Some th -> exists ap, s.(actors) !! (ncallers s + t) = Some ap.
Proof.
  intros [L _ _ _ _ _ _] Ht. apply lookup_lt_is_Some_2. apply lookup_lt_Some in Ht. unfold ncallers. lia.
Qed.
Lemma kind_of s a ac : Shape s -> s.(actors) !! a = Some ac ->
  (a < ncallers s /\ caller_ok ac.(stack) = true) \/ (exists t, a = ncallers s + t /\ pool_ok t ac.(stack) = true).
Proof.
  intros [L Ta Ca Po He Sh Th] Ea. destruct (decide (a < ncallers s)) as [Hlt|Hge].
  - left. split; [done|by eapply Ca].
  - right. exists (a - ncallers s). split; [lia|]. apply Po. by replace (ncallers s + (a - ncallers s)) with a by lia.
Qed.

Lemma Shape_spawn s a ac rest :
  Shape s -> s.(actors) !! a = Some ac -> ac.(stack) = FSTspawn :: rest -> s.(threads_held) = None ->
  Shape (setstack (s <| threads := s.(threads) ++ [ {| busy := false; held := false; chan := 0; tactor := length s.(actors) |} ] |>
                     <| actors := s.(actors) ++ [ {| stack := [FTrecv (length s.(threads))]; ready := false; result := false; opctr := 0; kicked := false |} ] |>)
                  a (FSTlock :: rest)).
Proof.
  intros HS Ea Est Hfree. pose proof HS as [L Ta Ca Po He Sh Th].
  set (s1 := s <| threads := _ |> <| actors := _ |>).
  assert (Hn1 : ncallers s1 = ncallers s) by (unfold ncallers; subst s1; cbn; rewrite !app_length; cbn; lia).
  assert (Hlen : length s.(actors) = ncallers s + length s.(threads)) by (unfold ncallers; lia).
  assert (HS1 : Shape s1).
  { split.
    - subst s1; cbn. rewrite !app_length; cbn. lia.
    - intros t th H. rewrite Hn1. subst s1; cbn in H. destruct (decide (t < length (threads s))) as [Hlt|Hge].
      + rewrite lookup_app_l in H by done. by apply Ta.
      + rewrite lookup_app_r in H by lia. destruct (t - length (threads s)) eqn:E; [|done]. cbn in H. injection H as <-. cbn. lia.
    - intros b ab H Hb. rewrite Hn1 in Hb. subst s1; cbn in H. rewrite lookup_app_l in H by lia. by eapply Ca.
    - intros t ab H. rewrite Hn1 in H. subst s1; cbn in H. destruct (decide (t < length (threads s))) as [Hlt|Hge].
      + rewrite lookup_app_l in H by lia. by apply Po.
      + rewrite lookup_app_r in H by lia. destruct (ncallers s + t - length (actors s)) eqn:E; [|done]. cbn in H. injection H as <-. cbn.
        rewrite bool_decide_true; [done|lia].
    - intros t th ab H1 H2. rewrite Hn1 in H2. subst s1; cbn in H1, H2. destruct (decide (t < length (threads s))) as [Hlt|Hge].
      + rewrite lookup_app_l in H1 by done. rewrite lookup_app_l in H2 by lia. by eapply He.
      + rewrite lookup_app_r in H1 by lia. rewrite lookup_app_r in H2 by lia.
        destruct (t - length (threads s)) eqn:E1; [|done]. destruct (ncallers s + t - length (actors s)) eqn:E2; [|done].
        cbn in H1, H2. injection H1 as <-. injection H2 as <-. done.
    - intros h. subst s1; cbn. rewrite Sh. split; intros (ab & t & H1 & H2).
      + exists ab, t. split; [|done]. by apply lookup_app_l_Some.
      + apply lookup_app_Some in H1 as [H1|[_ H1]]; [eauto|]. destruct (h - length (actors s)); [|done]. cbn in H1. injection H1 as <-. done.
    - intros h. subst s1; cbn. rewrite Th. split; intros (ab & i & r & H1 & H2).
      + exists ab, i, r. split; [|done]. by apply lookup_app_l_Some.
      + apply lookup_app_Some in H1 as [H1|[_ H1]]; [eauto|]. destruct (h - length (actors s)); [|done]. cbn in H1. injection H1 as <-. done. }
  assert (Ea1 : s1.(actors) !! a = Some ac) by (subst s1; cbn; by apply lookup_app_l_Some).
  destruct (kind_of s a ac HS Ea) as [[Hlt Hok]|(t & -> & Hok)]; [|by rewrite Est in Hok].
  eapply (Shape_update s1 _ a ac (FSTlock :: rest)); try done.
  - apply stacks_setstack.
  - intros t th' H. exists th'. split; [done|]. split; [done|]. rewrite Hn1. case_decide; [lia|done].
  - intros _. rewrite Est in Hok. destruct rest as [|g [|h [|]]]; try done; destruct g; try done.
  - intros t Ht. lia.
  - cbn. by rewrite Est.
  - cbn. by rewrite Est.
Qed.

Lemma caller_ok_inv fr rest : caller_ok (fr :: rest) = true ->
  (rest = [] /\ is_top fr = true) \/ (exists os, rest = [FTop os] /\ simple_frame fr = true)
  \/ (exists g os, rest = [g; FTop os] /\ pair_ok fr g = true).
Proof.
  destruct rest as [|g [|h [|i r]]]; cbn.
  - intros H. by left.
  - intros [H1 H2]%andb_true_iff. right; left. destruct g; try discriminate. eauto.
  - intros [H1 H2]%andb_true_iff. right; right. destruct h; try discriminate. eauto.
  - discriminate.
Qed.
Definition caller_frame (f : frame) : bool :=
  is_top f || simple_frame f || match f with FROdeq _ | FROrun _ _ => true | _ => false end.
Lemma caller_ok_head fr rest : caller_ok (fr :: rest) = true -> caller_frame fr = true.
Proof. intros [(-> & H)|[(os & -> & H)|(g & os & -> & H)]]%caller_ok_inv; by destruct fr. Qed.
Definition pool1 (t : nat) (f : frame) : bool :=
  match f with FTrecv t' | FTlock t' | FTnext t' | FTexam t' | FTrelnone t' | FTrelsome t' _ => bool_decide (t' = t) | _ => false end.
Definition drainf (f : frame) : bool := match f with FDRdeq _ | FDRrun _ _ | FDRfin _ => true | _ => false end.
Lemma pool_ok_inv t fr rest : pool_ok t (fr :: rest) = true ->
  (rest = [] /\ pool1 t fr = true) \/ (rest = [FTlock t] /\ drainf fr = true).
Proof.
  intros H. destruct fr; try discriminate H; destruct rest as [|g [|h r]]; try discriminate H; try (by left); destruct g; try discriminate H.
  all: apply bool_decide_eq_true in H as ->; by right.
Qed.

(* Shape (caller_ok, pool_ok) read from the top frame: who the actor is and what lies below *)
Definition rest_ok (s : state) (a : nat) (fr : frame) (rest : list frame) : Prop :=
  match fr with
  | FTop _ => a < ncallers s /\ rest = []
  | FROdeq q | FROrun q _ => a < ncallers s /\ exists os, rest = [FSDloop q; FTop os] \/ rest = [FSBsteal q; FTop os]
  | FRQ1 _ | FRQ2 _ | FSTlock | FSTscan _ | FSTspawn =>
      a < ncallers s /\ exists os, rest = [FTop os] \/ exists q, rest = [FSBcheck q; FTop os]
  | FTrecv t | FTlock t | FTnext t | FTexam t | FTrelnone t | FTrelsome t _ => a = ncallers s + t /\ rest = []
  | FDRdeq _ | FDRrun _ _ | FDRfin _ => exists t, a = ncallers s + t /\ rest = [FTlock t]
  | _ => a < ncallers s /\ exists os, rest = [FTop os]
  end.

Lemma shape_top s a ac fr rest : Shape s -> s.(actors) !! a = Some ac -> ac.(stack) = fr :: rest -> rest_ok s a fr rest.
Proof.
  intros HS Ea Est. destruct (kind_of s a ac HS Ea) as [[Hlt Hok]|(t & -> & Hok)]; rewrite Est in Hok.
  - apply caller_ok_inv in Hok as [(-> & Hfr)|[(os & -> & Hsf)|(g & os & -> & Hpo)]].
    + by destruct fr.
    + destruct fr; try discriminate; cbn; eauto.
    + destruct fr; try discriminate; destruct g; try discriminate; cbn in Hpo |- *;
        try (apply bool_decide_eq_true in Hpo as ->); eauto 6.
  - apply pool_ok_inv in Hok as [(-> & Hfr)|(-> & Hfr)]; destruct fr; try discriminate; cbn in Hfr |- *;
      try (apply bool_decide_eq_true in Hfr as ->); eauto.
Qed.

(* after [destruct fr]: make [rest] concrete; Hlt : a < ncallers s for a caller, Hat : a = ncallers s + t for the
   pool actor of thread t *)
Ltac shape_inv H :=
  cbn [rest_ok] in H;
  lazymatch type of H with
  | _ < _ /\ _ = [] => destruct H as [Hlt ->]
  | _ = _ /\ _ = [] => destruct H as [Hat ->]
  | _ /\ exists os, _ = [FTop _] => destruct H as [Hlt [os ->]]
  | _ /\ exists os, _ = [FTop _] \/ _ => destruct H as [Hlt [os [->|[?q ->]]]]
  | _ /\ exists os, _ \/ _ => destruct H as [Hlt [os [->| ->]]]
  | exists t, _ => destruct H as (t0 & Hat & ->)
  end.

Ltac ob_stacks := rewrite stacks_setstack; f_equal; first [done | by rewrite stacks_upda_same].
Ltac ob_len := cbn; rewrite ?length_threads_updt, ?alter_length; done.

Lemma threads_setstack s a st : (setstack s a st).(threads) = s.(threads).
Proof. done. Qed.

Lemma foldl_notify_self F ws s a ac : s.(actors) !! a = Some ac -> not_waiting ac.(stack) ->
  exists ac1, (foldl (notify F) s ws).(actors) !! a = Some ac1 /\ ac1.(stack) = ac.(stack).
Proof. apply woken_self, woken_foldl_notify. Qed.
Lemma run_job_self F s j a ac : s.(actors) !! a = Some ac -> not_waiting ac.(stack) ->
  exists ac1, (run_job F s j).(actors) !! a = Some ac1 /\ ac1.(stack) = ac.(stack).
Proof. apply woken_self, woken_run_job. Qed.
Lemma ncallers_obs s1 s : length s1.(actors) = length s.(actors) -> length s1.(threads) = length s.(threads) -> ncallers s1 = ncallers s.
Proof. unfold ncallers. lia. Qed.

Lemma state_eta s : s = {| queues := queues s; sched := sched s; sched_held := sched_held s; threads := threads s; threads_held := threads_held s;
                           maxt := maxt s; actors := actors s; ran := ran s; nextop := nextop s |}.
Proof. by destruct s. Qed.
Lemma foldl_notify_len F ws s : length (foldl (notify F) s ws).(actors) = length s.(actors).
Proof. apply woken_length, woken_foldl_notify. Qed.
Lemma run_job_len F s j : length (run_job F s j).(actors) = length s.(actors).
Proof. apply woken_length, woken_run_job. Qed.
Lemma notify_frame F s w : exists A, notify F s w = s <| actors := A |>.
Proof.
  unfold notify. set (s1 := if f_sticky_notify F then _ else s).
  assert (H1 : exists A, s1 = s <| actors := A |>).
  { subst s1. destruct (f_sticky_notify F); [by eexists|]. exists (actors s). by destruct s. }
  destruct H1 as (A & ->). destruct (_ !! w) as [aw|]; [|by eexists]. destruct (stack aw) as [|[] rest]; by eexists.
Qed.
Lemma foldl_notify_frame F ws s : exists A, foldl (notify F) s ws = s <| actors := A |>.
Proof.
  revert s; induction ws as [|w ws IH]; intros s; cbn.
  - exists (actors s). by destruct s.
  - destruct (notify_frame F s w) as (A & ->). destruct (IH (s <| actors := A |>)) as (B & ->). by eexists.
Qed.
Lemma run_job_frame F s j : exists A R, run_job F s j = s <| actors := A |> <| ran := R |>.
Proof.
  destruct j as [o|o c|o c]; unfold run_job.
  - exists (actors s), (o :: ran s). by destruct s.
  - by do 2 eexists.
  - set (s1 := upda _ c _). assert (H1 : exists A R, s1 = s <| actors := A |> <| ran := R |>) by (subst s1; by do 2 eexists).
    destruct H1 as (A & R & ->). destruct (_ !! c) as [ac|]; [|by do 2 eexists]. destruct (stack ac) as [|[] rest]; by do 2 eexists.
Qed.

Lemma eff_stacks T F s a ac fr m new : eff T F s a ac fr m new ->
  exists w sp, woken w s /\ stacks m = stacks w ++ sp /\
    ((sp = [] /\ length m.(threads) = length s.(threads)) \/
     (sp = [[FTrecv (length s.(threads))]] /\ fr = FSTspawn /\ new = [FSTlock] /\ s.(threads_held) = None /\
      length s.(threads) < s.(maxt) /\ m = spawn s)).
Proof. apply eff_actors. Qed.

Lemma lt_ne_add a n t : a < n -> a <> n + t.
Proof. lia. Qed.
Lemma caller_threads s a (b : bool) : a < ncallers s -> forall t th', s.(threads) !! t = Some th' ->
  exists th, s.(threads) !! t = Some th /\ th'.(tactor) = th.(tactor) /\ th'.(held) = if decide (a = ncallers s + t) then b else th.(held).
Proof. intros Hlt t th' Ht. exists th'. split; [done|]. split; [done|]. rewrite decide_False; [done|lia]. Qed.

Section ShapeStep.
  Context (T : tables) (F : facts).

  Lemma eff_shape s a ac fr rest m new :
    Shape s -> s.(actors) !! a = Some ac -> ac.(stack) = fr :: rest -> eff T F s a ac fr m new ->
    length m.(threads) = length s.(threads) ->
    (forall t th', m.(threads) !! t = Some th' -> exists th, s.(threads) !! t = Some th /\ th'.(tactor) = th.(tactor) /\
          th'.(held) = if decide (a = ncallers s + t) then holds_busy (new ++ rest) else th.(held)) /\
    (a < ncallers s -> caller_ok (new ++ rest) = true) /\
    (forall t, a = ncallers s + t -> pool_ok t (new ++ rest) = true) /\
    m.(sched_held) = (if is_exam (new ++ rest) then Some a else if is_exam (fr :: rest) then None else s.(sched_held)) /\
    (is_exam (new ++ rest) = true -> is_exam (fr :: rest) = false -> s.(sched_held) = None) /\
    m.(threads_held) = (if is_scan (new ++ rest) then Some a else if is_scan (fr :: rest) then None else s.(threads_held)) /\
    (is_scan (new ++ rest) = true -> is_scan (fr :: rest) = false -> s.(threads_held) = None).
  Proof.
    intros HS Ea Est He Hlen.
    pose proof (shape_top s a ac fr rest HS Ea Est) as Hk. pose proof HS as [L Ta Ca Po Hh Sh Th].
    destruct He; shape_inv Hk.
    all: try (exfalso; unfold spawn in Hlen; cbn in Hlen; rewrite app_length in Hlen; cbn in Hlen; lia).
    all: lazymatch goal with
         | |- context [run_job ?F ?s ?j] => destruct (run_job_frame F s j) as (A & R & ->)
         | |- context [foldl (notify ?F) ?s ?ws] => destruct (foldl_notify_frame F ws s) as (A & ->)
         | _ => idtac
         end.
    (* a caller: only the scan touches a thread, and not its held flag *)
    all: try (assert (Hne := fun t => lt_ne_add a (ncallers s) t Hlt); try destruct o; (split;
              [ first
                  [ exact (caller_threads s a _ Hlt)
                  | intros t1 th' Ht1; rewrite threads_updt_lookup in Ht1; cbn [threads set] in Ht1; destruct (decide (i = t1)) as [<-|];
                    [ rewrite Et in Ht1; cbn in Ht1; injection Ht1 as <-; exists th | exists th' ]; (split; [done|]; split; [done|]; by rewrite decide_False) ]
              | split; [intros _; cbn; by rewrite ?bool_decide_true by done|]; split; [intros t1 Ht1; by destruct (Hne t1)|];
                cbn; rewrite ?Est; split_and!; first [done | congruence] ]); fail).
    (* the pool actor of thread t0: the held flag of its thread follows its stack *)
    all: subst a; lazymatch goal with Ea : actors _ !! (ncallers _ + ?t0) = Some _ |- _ =>
         assert (Hown : forall t, ncallers s + t0 = ncallers s + t -> t = t0) by (intros; lia);
         assert (Hnc : ~ ncallers s + t0 < ncallers s) by lia;
         assert (Hth0 : exists th0, threads s !! t0 = Some th0 /\ held th0 = holds_busy (stack ac));
         [ destruct (lookup_lt_is_Some_2 (threads s) t0) as [th0 Hth0];
           [ apply lookup_lt_Some in Ea; unfold ncallers in *; lia | exists th0; split; [done|]; by eapply Hh ] | ];
         destruct Hth0 as (th0 & Hth0 & Hheld0); rewrite Est in Hheld0; cbn in Hheld0;
         (split;
         [ intros t1 th' Ht1; rewrite ?threads_updt_lookup in Ht1; cbn [threads set] in Ht1;
           destruct (decide (t0 = t1)) as [<-|Hne];
           [ try rewrite decide_True in Ht1 by done; cbn in Ht1; rewrite Hth0 in Ht1; cbn in Ht1; injection Ht1 as <-;
             exists th0; split; [done|]; split; [done|]; rewrite decide_True by done; cbn; congruence
           | try rewrite decide_False in Ht1 by done; exists th'; split; [exact Ht1|]; split; [done|]; rewrite decide_False; [done|intros H; by destruct Hne; rewrite (Hown t1 H)] ]
         | split; [intros Hc; by destruct Hnc|]; split; [intros t1 Ht1; rewrite (Hown t1 Ht1); cbn; by rewrite ?bool_decide_true by done|];
           cbn; rewrite ?Est; split_and!; first [done | congruence] ]) end.
  Qed.

  Lemma step_shape s a s' : Shape s -> step T F s a = Some s' -> Shape s'.
  Proof.
    intros HS (ac & fr & rest & m & new & Ea & Est & He & ->)%step_eff.
    destruct (eff_stacks _ _ _ _ _ _ _ _ He) as (w & sp & Hw & Hst & [[-> Hlen]|(_ & -> & -> & Hfree & _ & ->)]); [|by eapply Shape_spawn].
    destruct (eff_shape s a ac fr rest m new HS Ea Est He Hlen) as (Hthr & Hcal & Hpool & Hsh & Hsh0 & Hth & Hth0).
    destruct (woken_self w s a ac Hw Ea) as (ac1 & Ea1 & Est1).
    { rewrite Est. destruct fr; try done. by destruct (eff_not_wait _ _ _ _ _ _ _ _ He q). }
    pose proof (woken_ncallers w s Hw) as Hn.
    rewrite app_nil_r in Hst.
    eapply (Shape_update w _ a ac1 (new ++ rest) (Shape_woken w s Hw HS) Ea1); rewrite ?Hn, ?Est1, ?Est, ?(wk_threads _ _ Hw), ?(wk_sched_held _ _ Hw), ?(wk_threads_held _ _ Hw); try done.
    by rewrite stacks_setstack, Hst.
  Qed.

  Lemma init_shape nq mx scripts : Shape (init nq mx scripts).
  Proof.
    split; unfold init, ncallers; cbn.
    - lia.
    - intros t th H. done.
    - intros a ac H _. rewrite list_lookup_fmap in H. destruct (scripts !! a); [|done]. injection H as <-. done.
    - intros t ac H. rewrite fmap_length in H. apply lookup_lt_Some in H. rewrite fmap_length in H. lia.
    - intros t th ac H. done.
    - intros h. split; [done|]. intros (ac & t & H1 & H2). rewrite list_lookup_fmap in H1. destruct (scripts !! h); [|done]. injection H1 as <-. done.
    - intros h. split; [done|]. intros (ac & i & r & H1 & H2). rewrite list_lookup_fmap in H1. destruct (scripts !! h); [|done]. injection H1 as <-. done.
  Qed.

  Theorem reachable_shape nq mx scripts tr s :
    foldl (fun os a => o ← os; step T F o a) (Some (init nq mx scripts)) tr = Some s -> Shape s.
  Proof. apply (run_invariant T F Shape step_shape), init_shape. Qed.
End ShapeStep.

Print Assumptions reachable_shape.

