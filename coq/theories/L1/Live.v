(* Two invariants for the liveness argument: PoolInv (busy flag, channel and stack of a pool thread agree) and QInv (a queue
   that is Pending or holds jobs has a witness on the way to serve it), for tables that behave like [core_tables].
   ([live], the pool threads that will serve the schedule, is in Help.v.) *)
From stdpp Require Import list numbers option.
From RecordUpdate Require Import RecordUpdate.
From L1 Require Import Model Own Shape Stuck.

(* busy flag, channel and stack of a pool thread go together *)
Definition is_recv (st : list frame) : bool := match st with [FTrecv _] => true | _ => false end.
Definition pool_state_ok (th : pthread) (st : list frame) : bool :=
  match th.(busy), th.(chan) with
  | false, 0 => is_recv st
  | true, 1 => is_recv st
  | true, 0 => negb (is_recv st)
  | _, _ => false
  end.
Definition PoolInv (s : state) : Prop :=
  forall t th st, s.(threads) !! t = Some th -> stacks s !! (ncallers s + t) = Some st -> pool_state_ok th st = true.

Definition bc (s : state) : list (bool * nat) := (fun th => (th.(busy), th.(chan))) <$> s.(threads).

Lemma PoolInv_view s1 s : stacks s1 = stacks s -> bc s1 = bc s -> length s1.(actors) = length s.(actors) -> PoolInv s -> PoolInv s1.
Proof.
  intros Hst Hbc Hla H t th1 st Ht Hs.
  assert (Hlt : length s1.(threads) = length s.(threads)) by (apply (f_equal length) in Hbc; unfold bc in Hbc; by rewrite !fmap_length in Hbc).
  assert (Hn : ncallers s1 = ncallers s) by (unfold ncallers; lia).
  assert (H' : bc s1 !! t = Some (th1.(busy), th1.(chan))) by (unfold bc; by rewrite list_lookup_fmap, Ht).
  rewrite Hbc in H'. unfold bc in H'. rewrite list_lookup_fmap in H'. destruct (threads s !! t) as [th|] eqn:E; [|done]. injection H' as H1 H2.
  rewrite Hst, Hn in Hs. specialize (H t th st E Hs). unfold pool_state_ok in *. by rewrite <- H1, <- H2.
Qed.

Definition recvs (s : state) : list bool := is_recv <$> stacks s.
Lemma PoolInv_view2 s1 s : recvs s1 = recvs s -> bc s1 = bc s -> PoolInv s ->
  (forall t th st, s1.(threads) !! t = Some th -> stacks s1 !! (ncallers s1 + t) = Some st -> pool_state_ok th st = true).
Proof.
  intros Hr Hbc H t th1 st1 Ht Hs.
  assert (Hla : length s1.(actors) = length s.(actors)).
  { apply (f_equal length) in Hr. unfold recvs, stacks in Hr. by rewrite !fmap_length in Hr. }
  assert (Hlt : length s1.(threads) = length s.(threads)) by (apply (f_equal length) in Hbc; unfold bc in Hbc; by rewrite !fmap_length in Hbc).
  assert (Hn : ncallers s1 = ncallers s) by (unfold ncallers; lia).
  assert (H' : bc s1 !! t = Some (th1.(busy), th1.(chan))) by (unfold bc; by rewrite list_lookup_fmap, Ht).
  rewrite Hbc in H'. unfold bc in H'. rewrite list_lookup_fmap in H'. destruct (threads s !! t) as [th|] eqn:E; [|done]. injection H' as H1 H2.
  assert (Hr' : recvs s1 !! (ncallers s + t) = Some (is_recv st1)) by (unfold recvs; rewrite list_lookup_fmap, <- Hn, Hs; done).
  rewrite Hr in Hr'. unfold recvs in Hr'. rewrite list_lookup_fmap in Hr'. destruct (stacks s !! (ncallers s + t)) as [st|] eqn:Es; [|done].
  injection Hr' as Hr'. specialize (H t th st E Es). unfold pool_state_ok in *. by rewrite <- H1, <- H2, <- Hr'.
Qed.

Lemma recvs_update s s' a ac newst :
  s.(actors) !! a = Some ac -> stacks s' = <[a := newst]> (stacks s) -> is_recv newst = is_recv ac.(stack) -> recvs s' = recvs s.
Proof.
  intros Ea Hst Hr. unfold recvs. rewrite Hst, list_fmap_insert, Hr. apply list_insert_id. by rewrite list_lookup_fmap, stacks_lookup, Ea.
Qed.

Lemma recvs_upda_same s a f : (forall x, (f x).(stack) = x.(stack)) -> recvs (upda s a f) = recvs s.
Proof. intros. unfold recvs. by rewrite stacks_upda_same. Qed.
Lemma recvs_wake s w ac q rest : s.(actors) !! w = Some ac -> ac.(stack) = FSBwait q :: rest -> recvs (setstack s w (FSBwoken q :: rest)) = recvs s.
Proof. intros Ew Est. eapply recvs_update; [done|apply stacks_setstack|by rewrite Est]. Qed.
Lemma woken_recvs m s : woken m s -> recvs m = recvs s.
Proof.
  intros Hw. unfold recvs. apply list_eq. intros b. rewrite !list_lookup_fmap, !stacks_lookup.
  destruct (actors s !! b) as [x|] eqn:Hb.
  - destruct (woken_lookup _ _ _ _ Hw Hb) as (x' & -> & Hx). cbn. by destruct (aw_stack _ _ Hx) as [->|(q & r & -> & ->)].
  - apply lookup_ge_None in Hb. rewrite <- (woken_length _ _ Hw) in Hb. apply lookup_ge_None in Hb. by rewrite Hb.
Qed.
Lemma PoolInv_woken m s : woken m s -> PoolInv s -> PoolInv m.
Proof. intros Hw HP t th st. apply (PoolInv_view2 m s); [by apply woken_recvs|unfold bc; by rewrite (wk_threads _ _ Hw)|done]. Qed.

Lemma PoolInv_update s s' a ac newst :
  PoolInv s -> s.(actors) !! a = Some ac -> stacks s' = <[a := newst]> (stacks s) -> length s'.(threads) = length s.(threads) ->
  (forall t th', s'.(threads) !! t = Some th' -> exists th, s.(threads) !! t = Some th /\
     forall st, pool_state_ok th st = true ->
       (a = ncallers s + t -> st = ac.(stack) -> pool_state_ok th' newst = true) /\ (a <> ncallers s + t -> pool_state_ok th' st = true)) ->
  PoolInv s'.
Proof.
  intros HP Ea Hst Hl Hthr t th' st' Ht Hs'.
  assert (Hn : ncallers s' = ncallers s).
  { apply (f_equal length) in Hst. unfold stacks in Hst. rewrite insert_length, !fmap_length in Hst. unfold ncallers. by rewrite Hst, Hl. }
  rewrite Hn, Hst in Hs'. destruct (Hthr t th' Ht) as (th & Hth & H).
  destruct (decide (a = ncallers s + t)) as [Hat|Hat].
  - assert (Hs : stacks s !! (ncallers s + t) = Some (stack ac)) by (by rewrite <- Hat, stacks_lookup, Ea).
    rewrite <- Hat, list_lookup_insert in Hs' by (rewrite Hat; by eapply lookup_lt_Some). injection Hs' as <-.
    by apply (H (stack ac) (HP t th _ Hth Hs)).
  - rewrite list_lookup_insert_ne in Hs' by done. by apply (H st' (HP t th _ Hth Hs')).
Qed.
Lemma PoolInv_spawn s : length s.(threads) <= length s.(actors) -> PoolInv s -> PoolInv (spawn s).
Proof.
  intros L HP t th st Ht Hs.
  assert (Hn : ncallers (spawn s) = ncallers s) by (unfold ncallers, spawn; cbn; rewrite !app_length; cbn; lia).
  assert (Hlen : length (actors s) = ncallers s + length (threads s)) by (unfold ncallers; lia).
  rewrite Hn in Hs. unfold spawn, stacks in Ht, Hs; cbn in Ht, Hs. rewrite fmap_app in Hs.
  destruct (decide (t < length (threads s))) as [Hl1|Hg1].
  - rewrite lookup_app_l in Ht by done. rewrite lookup_app_l in Hs by (rewrite fmap_length; lia). by eapply HP.
  - rewrite lookup_app_r in Ht by lia. rewrite lookup_app_r in Hs by (rewrite fmap_length; lia). rewrite fmap_length in Hs.
    destruct (t - length (threads s)) eqn:Ed; [|done]. replace (ncallers s + t - length (actors s)) with 0 in Hs by lia.
    cbn in Ht, Hs. by injection Ht as <-; injection Hs as <-.
Qed.

Lemma ncallers_setstack s a st : ncallers (setstack s a st) = ncallers s.
Proof. unfold ncallers. by rewrite length_actors_setstack. Qed.
Lemma ncallers_updt s t f : ncallers (updt s t f) = ncallers s.
Proof. unfold ncallers. by rewrite length_threads_updt. Qed.
Lemma stacks_setstack_lookup s a st b : stacks (setstack s a st) !! b = if decide (a = b) then (fun _ => st) <$> (stacks s !! b) else stacks s !! b.
Proof.
  rewrite stacks_setstack. case_decide; subst.
  - destruct (stacks s !! b) eqn:E; cbn; [rewrite list_lookup_insert; [done|by eapply lookup_lt_Some]|].
    apply lookup_ge_None. rewrite insert_length. by apply lookup_ge_None.
  - by rewrite list_lookup_insert_ne.
Qed.

Section PoolStep.
  Context (T : tables) (F : facts).

  (* a step in the terms of [PoolInv_update]: the scan wakes a dormant thread, a pool thread takes the closure
     from its channel or goes dormant; nothing else touches busy flags, channels or the waiting-for-a-closure frame *)
  Lemma eff_pool s a ac fr rest m new :
    Shape s -> s.(actors) !! a = Some ac -> ac.(stack) = fr :: rest -> eff T F s a ac fr m new ->
    length m.(threads) = length s.(threads) ->
    forall t th', m.(threads) !! t = Some th' -> exists th, s.(threads) !! t = Some th /\
      forall st, pool_state_ok th st = true ->
        (a = ncallers s + t -> st = fr :: rest -> pool_state_ok th' (new ++ rest) = true) /\ (a <> ncallers s + t -> pool_state_ok th' st = true).
  Proof.
    intros HS Ea Est He Hlen.
    destruct (kind_of s a ac HS Ea) as [[Hlt Hok]|(t0 & -> & Hok)].
    - assert (Hne : forall t, a <> ncallers s + t) by (intros; lia).
      rewrite Est in Hok. apply caller_ok_head in Hok.
      destruct He; try discriminate Hok; try (unfold spawn in Hlen; cbn in Hlen; rewrite app_length in Hlen; cbn in Hlen; lia);
        lazymatch goal with
        | |- context [run_job ?F ?s ?j] => rewrite (wk_threads _ _ (woken_run_job F s j))
        | |- context [foldl (notify ?F) ?s ?ws] => cbn [threads updq set]; rewrite (wk_threads _ _ (woken_foldl_notify F ws s))
        | _ => idtac
        end.
      (* a caller is nobody's pool actor; all its steps but the scan's claim leave the threads alone *)
      all: intros t1 th' Ht1; first
             [ exists th'; split; [exact Ht1|]; intros st Hst; split; [intros H; by destruct (Hne t1)|done]
             | idtac ].
      rewrite threads_updt_lookup in Ht1. cbn [threads set] in Ht1. destruct (decide (i = t1)) as [<-|]; [|exists th'; by split; [|intros st Hst; split; [intros H; destruct (Hne t1 H)|]]].
      rewrite Et in Ht1. injection Ht1 as <-. exists th. split; [done|]. intros st Hst. split; [intros H; by destruct (Hne i)|intros _].
      unfold pool_state_ok in *. cbn. rewrite Hbusy in Hst. by destruct (chan th).
    - rewrite Est in Hok.
      assert (Hown : forall t, ncallers s + t0 = ncallers s + t -> t = t0) by (intros; lia).
      apply pool_ok_inv in Hok as [(-> & Hfr)|(-> & Hfr)]; destruct He; try discriminate Hfr.
      all: lazymatch goal with
           | |- context [run_job ?F ?s ?j] => rewrite (wk_threads _ _ (woken_run_job F s j))
           | _ => idtac
           end.
      all: cbn in Hfr; try (apply bool_decide_eq_true in Hfr; subst).
      all: intros t1 th' Ht1; rewrite ?threads_updt_lookup in Ht1; cbn [threads set updq] in Ht1;
           destruct (decide (t0 = t1)) as [<-|Hne];
           [ try rewrite decide_True in Ht1 by done
           | try rewrite decide_False in Ht1 by done; exists th'; split; [exact Ht1|]; intros st Hst; split; [intros H; by destruct Hne; rewrite (Hown t1 H)|done] ].
      (* the thread record is untouched and the new stack is as little a waiting-for-a-closure stack as the old one *)
      all: try (exists th'; split; [exact Ht1|]; intros st Hst; split; [intros _ ->; exact Hst|done]; fail).
      (* FTrecv, FTlock, FTrelnone, FTrelsome: the pool actor updates its own thread *)
      all: destruct (threads s !! t0) as [th0|] eqn:Hth0; [|done]; cbn in Ht1; injection Ht1 as <-; exists th0; (split; [done|]);
           intros st Hst; (split; [intros _ ->|done]); unfold pool_state_ok in *; cbn in *.
      all: try (injection Et as <-; rewrite Hchan in Hst).
      all: destruct (busy th0); try done; by repeat match goal with |- context [match ?x with _ => _ end] => destruct x | H : context [match ?x with _ => _ end] |- _ => destruct x end.
  Qed.

  Lemma step_pool s a s' : Shape s -> PoolInv s -> step T F s a = Some s' -> PoolInv s'.
  Proof.
    intros HS HP (ac & fr & rest & m & new & Ea & Est & He & ->)%step_eff.
    destruct (eff_stacks _ _ _ _ _ _ _ _ He) as (w & sp & Hw & Hst & [[-> Hlen]|(_ & -> & -> & Hfree & _ & ->)]).
    - pose proof (eff_pool s a ac fr rest m new HS Ea Est He Hlen) as Hthr.
      destruct (woken_self w s a ac Hw Ea) as (ac1 & Ea1 & Est1).
      { rewrite Est. destruct fr; try done. by destruct (eff_not_wait _ _ _ _ _ _ _ _ He q). }
      pose proof (woken_ncallers w s Hw) as Hn.
      rewrite app_nil_r in Hst.
      eapply (PoolInv_update w _ a ac1 (new ++ rest) (PoolInv_woken w s Hw HP) Ea1); rewrite ?Hn, ?Est1, ?Est, ?(wk_threads _ _ Hw); try done.
      by rewrite stacks_setstack, Hst.
    - assert (Ea1 : actors (spawn s) !! a = Some ac) by (by apply lookup_app_l_Some).
      destruct (kind_of s a ac HS Ea) as [[Hlt _]|(t0 & -> & Hok)]; [|rewrite Est in Hok; by destruct rest as [|? [|]]].
      eapply (PoolInv_update (spawn s) _ a ac (FSTlock :: rest) (PoolInv_spawn s (sh_len _ HS) HP) Ea1); [apply stacks_setstack|done|].
      intros t th' Ht. exists th'. split; [done|]. intros st Hps. split; [|done].
      replace (ncallers (spawn s)) with (ncallers s) by (unfold ncallers, spawn; cbn; rewrite !app_length; cbn; pose proof (sh_len _ HS); lia). lia.
  Qed.
End PoolStep.
(* a pool thread that cannot move waits for a closure with an empty channel, so it is not marked busy *)
Lemma stuck_pool s t th ap : Shape s -> PoolInv s -> s.(threads) !! t = Some th -> s.(actors) !! (ncallers s + t) = Some ap ->
  stuck_ok s ap.(stack) -> th.(busy) = false /\ ap.(stack) = [FTrecv t].
Proof.
  intros HS HP Ht Eap Hsk. pose proof (HP t th (stack ap) Ht ltac:(by rewrite stacks_lookup, Eap)) as Hps.
  pose proof (sh_pool s HS t ap Eap) as Po. destruct (stack ap) as [|fr rest]; [done|].
  apply pool_ok_inv in Po as [(-> & Hfr)|(-> & Hfr)]; [|by destruct fr].
  destruct fr; try done. apply bool_decide_eq_true in Hfr as ->. destruct Hsk as (th' & Ht' & Hch). rewrite Ht in Ht'. injection Ht' as <-.
  unfold pool_state_ok in Hps. rewrite Hch in Hps. split; [by destruct (busy th)|done].
Qed.

Lemma init_pool nq mx scripts : PoolInv (init nq mx scripts).
Proof. intros t th st Ht. done. Qed.


(* The tables on the three states a queue of the L1 model can be in (the model has no futures, hence none of the Waiting
   states; [qc_core] is the invariant that says so).  [k_try_i] is the repaired try_sync: Busy leaves an Idle queue Idle. *)
Record core_tables (T : tables) : Prop := {
  k_desync_i : T.(t_desync) Idle = (Pending, DASchedule);
  k_desync_p : T.(t_desync) Pending = (Pending, DANone);
  k_desync_r : T.(t_desync) Running = (Running, DANone);
  k_sync_i : forall e, T.(t_sync) Idle e = (Running, if e then SAImmediate else SADrain);
  k_sync_p : forall e, T.(t_sync) Pending e = (Running, SADrain);
  k_sync_r : forall e, T.(t_sync) Running e = (Running, SABackground);
  k_try_i : forall e, T.(t_trysync) Idle e = if e then (Running, TAImmediate) else (Idle, TABusy);
  k_try_p : forall e, T.(t_trysync) Pending e = (Pending, TABusy);
  k_try_r : forall e, T.(t_trysync) Running e = (Running, TABusy);
  k_resched_i : forall ne, T.(t_resched) Idle ne = if ne then (Pending, true) else (Idle, false);
  k_resched_p : forall ne, T.(t_resched) Pending ne = (Pending, false);
  k_resched_r : forall ne, T.(t_resched) Running ne = (Running, false);
  k_next_i : T.(t_next) Idle = None;
  k_next_p : T.(t_next) Pending = Some Running;
  k_next_r : T.(t_next) Running = None;
  k_claim_i : T.(t_claim) Idle = Some Running;
  k_claim_p : T.(t_claim) Pending = Some Running;
  k_claim_r : T.(t_claim) Running = None;
  k_deq_i : T.(t_dequeue_refuses) Idle = false;
  k_deq_p : T.(t_dequeue_refuses) Pending = false;
  k_deq_r : T.(t_dequeue_refuses) Running = false;
  k_fin : forall e, T.(t_drain_fin) Running e = if e then (Idle, true) else (Running, false);
}.
Lemma fixed_core : core_tables (fixed_trysync orig_tables).
Proof. split; try done; by intros []. Qed.
#[export] Hint Rewrite k_desync_i k_desync_p k_desync_r k_sync_i k_sync_p k_sync_r k_try_i k_try_p k_try_r
  k_resched_i k_resched_p k_resched_r k_next_i k_next_p k_next_r k_claim_i k_claim_p k_claim_r k_deq_i k_deq_p k_deq_r k_fin
  using assumption : core_tables.

Definition core_state (st : qstate) : Prop := st = Idle \/ st = Pending \/ st = Running.
Definition has_top (s : state) (fr : frame) : Prop := exists b st, stacks s !! b = Some st /\ hd_error st = Some fr.

Lemma has_top_actor s f : has_top s f <-> exists b ab, s.(actors) !! b = Some ab /\ hd_error ab.(stack) = Some f.
Proof.
  split.
  - intros (b & st & Hb & Hh). rewrite stacks_lookup in Hb. destruct (actors s !! b) as [ab|] eqn:E; [|done]. injection Hb as <-. eauto.
  - intros (b & ab & Hb & Hh). exists b, (stack ab). split; [by rewrite stacks_lookup, Hb|done].
Qed.

Record QClauses (s : state) (q : nat) (qq : queue) : Prop := {
  qc_core : core_state qq.(qs);
  qc_pending : qq.(qs) = Pending -> qq.(jobs) <> [] /\ (q ∈ s.(sched) \/ has_top s (FD2 q) \/ has_top s (FRQ2 q));
  qc_idle : qq.(qs) = Idle -> qq.(jobs) <> [] -> has_top s (FRQ1 q);
}.
Definition QInv (s : state) : Prop := forall q qq, s.(queues) !! q = Some qq -> QClauses s q qq.

(* witnesses: the three frames that carry responsibility for a queue *)
Definition wit (st : list frame) : option frame :=
  match st with (FD2 q as f) :: _ | (FRQ2 q as f) :: _ | (FRQ1 q as f) :: _ => Some f | _ => None end.
Definition is_wit (fr : frame) : bool := match fr with FD2 _ | FRQ2 _ | FRQ1 _ => true | _ => false end.

Lemma has_top_other s s' a ac newst fr :
  s.(actors) !! a = Some ac -> stacks s' = <[a := newst]> (stacks s) -> hd_error ac.(stack) <> Some fr -> has_top s fr -> has_top s' fr.
Proof.
  intros Ea Hst Hne (b & st & Hb & Hh). exists b, st. split; [|done]. rewrite Hst.
  destruct (decide (a = b)) as [->|]; [|by rewrite list_lookup_insert_ne].
  rewrite stacks_lookup, Ea in Hb. cbn in Hb. injection Hb as <-. done.
Qed.
Lemma has_top_new s s' a ac newst fr :
  s.(actors) !! a = Some ac -> stacks s' = <[a := newst]> (stacks s) -> hd_error newst = Some fr -> has_top s' fr.
Proof.
  intros Ea Hst Hh. exists a, newst. split; [|done]. rewrite Hst, list_lookup_insert; [done|].
  unfold stacks. rewrite fmap_length. by eapply lookup_lt_Some.
Qed.

Lemma QInv_update s s' a ac q g newst :
  QInv s -> s.(actors) !! a = Some ac ->
  stacks s' = <[a := newst]> (stacks s) ->
  (forall q', s'.(queues) !! q' = if decide (q = q') then g <$> (s.(queues) !! q') else s.(queues) !! q') ->
  (forall q', q' <> q -> q' ∈ s.(sched) -> q' ∈ s'.(sched)) ->
  (forall f, hd_error ac.(stack) = Some f -> is_wit f = true -> f = FD2 q \/ f = FRQ2 q \/ f = FRQ1 q) ->
  (forall qq, s.(queues) !! q = Some qq -> QClauses s q qq -> QClauses s' q (g qq)) ->
  QInv s'.
Proof.
  intros HQ Ea Hst Hq Hsch Hwit Hthis q' qq' Hqq'. rewrite Hq in Hqq'. destruct (decide (q = q')) as [<-|Hne].
  - destruct (queues s !! q) as [qq|] eqn:E; [|done]. injection Hqq' as <-. apply Hthis; [done|]. by apply HQ.
  - destruct (HQ q' qq' Hqq') as [C1 C2 C3].
    assert (Hoth : forall f, (f = FD2 q' \/ f = FRQ2 q' \/ f = FRQ1 q') -> has_top s f -> has_top s' f).
    { intros f Hf. eapply has_top_other; [done|done|]. intros Hh.
      assert (Hw : is_wit f = true) by (destruct Hf as [-> | [-> | ->]]; done).
      destruct (Hwit f Hh Hw) as [H1 | [H1 | H1]]; destruct Hf as [H2 | [H2 | H2]]; congruence. }
    split; [done| |].
    + intros Hp. destruct (C2 Hp) as [Hj Hs]. split; [done|]. destruct Hs as [Hs | [Hs | Hs]].
      * left. by apply Hsch.
      * right; left. apply Hoth; [|done]. by left.
      * right; right. apply Hoth; [|done]. right; by left.
    + intros Hi Hj. apply Hoth; [|by apply C3]. right; by right.
Qed.

Lemma QInv_mono s1 s :
  s1.(queues) = s.(queues) -> (forall q, q ∈ s.(sched) -> q ∈ s1.(sched)) ->
  (forall f, is_wit f = true -> has_top s f -> has_top s1 f) -> QInv s -> QInv s1.
Proof.
  intros Hq Hs Ht HQ q qq Hqq. rewrite Hq in Hqq. destruct (HQ q qq Hqq) as [C1 C2 C3]. split; [done| |].
  - intros Hp. destruct (C2 Hp) as [Hj Hx]. split; [done|]. destruct Hx as [?|[?|?]]; [left|right; left|right; right]; auto.
  - intros Hi Hj. apply Ht; [done|]. by apply C3.
Qed.
Lemma QInv_noq s s' a ac newst :
  QInv s -> s.(actors) !! a = Some ac -> stacks s' = <[a := newst]> (stacks s) ->
  s'.(queues) = s.(queues) -> (forall q', q' ∈ s.(sched) -> q' ∈ s'.(sched)) ->
  wit ac.(stack) = None ->
  QInv s'.
Proof.
  intros HQ Ea Hst Hq Hsch Hw. apply (QInv_mono s' s); [done|done| |done].
  intros f Hf. eapply has_top_other; [done|done|]. intros Hh. destruct (stack ac) as [|f' r]; [done|]. injection Hh as ->. by destruct f.
Qed.
Lemma QInv_same s1 s : stacks s1 = stacks s -> s1.(queues) = s.(queues) -> s1.(sched) = s.(sched) -> QInv s -> QInv s1.
Proof. intros Hst Hq Hs. apply QInv_mono; [done|by rewrite Hs|]. intros f _ (b & st & H1 & H2). exists b, st. by rewrite Hst. Qed.
Lemma has_top_woken m s f : woken m s -> is_wit f = true -> has_top s f -> has_top m f.
Proof.
  intros Hw Hf (b & x & Hx & Hh)%has_top_actor. destruct (woken_lookup _ _ _ _ Hw Hx) as (x' & Hx' & Hxx).
  apply has_top_actor. exists b, x'. split; [done|].
  destruct (aw_stack _ _ Hxx) as [->|(q & r & E & _)]; [done|]. rewrite E in Hh. injection Hh as <-. done.
Qed.
Lemma QInv_woken m s : woken m s -> QInv s -> QInv m.
Proof. intros Hw. apply QInv_mono; [apply Hw|by rewrite (wk_sched _ _ Hw)|intros f; by apply has_top_woken]. Qed.
Lemma QInv_wake s w ac q rest : QInv s -> s.(actors) !! w = Some ac -> ac.(stack) = FSBwait q :: rest -> QInv (setstack s w (FSBwoken q :: rest)).
Proof. intros HQ Ew Est. pose proof (woken_wake s w) as Hw. unfold wake in Hw. rewrite Ew, Est in Hw. by eapply QInv_woken. Qed.
Lemma QInv_foldl_notify F ws s : QInv s -> QInv (foldl (notify F) s ws).
Proof. apply QInv_woken, woken_foldl_notify. Qed.

Lemma QC_running s q qq : qq.(qs) = Running -> QClauses s q qq.
Proof. intros H. split; [right; by right| |]; rewrite H; done. Qed.
Lemma QC_keep s s' q qq qq' :
  qq'.(qs) = qq.(qs) -> (qq.(jobs) = [] <-> qq'.(jobs) = []) ->
  (q ∈ s.(sched) -> q ∈ s'.(sched)) ->
  (forall f, (f = FD2 q \/ f = FRQ2 q \/ f = FRQ1 q) -> has_top s f -> has_top s' f) ->
  QClauses s q qq -> QClauses s' q qq'.
Proof.
  intros Hs Hj Hsch Ht [C1 C2 C3]. split; rewrite Hs; [done| |].
  - intros Hp. destruct (C2 Hp) as [Hn Hx]. split; [by rewrite <- Hj|]. destruct Hx as [?|[?|?]]; [by left; auto|right; left|right; right]; apply Ht; auto.
  - intros Hi Hn. apply Ht; [auto|]. apply C3; [done|]. by rewrite Hj.
Qed.

Lemma QC_pending_keep s s' q qq qq' :
  qq.(qs) = Pending -> qq'.(qs) = Pending -> (qq.(jobs) <> [] -> qq'.(jobs) <> []) ->
  (q ∈ s.(sched) -> q ∈ s'.(sched)) ->
  (forall f, (f = FD2 q \/ f = FRQ2 q) -> has_top s f -> has_top s' f) ->
  QClauses s q qq -> QClauses s' q qq'.
Proof.
  intros Hs Hs' Hj Hsch Ht [C1 C2 C3]. split; rewrite Hs'; [right; by left| |done].
  intros _. destruct (C2 Hs) as [Hn Hx]. split; [by apply Hj|]. destruct Hx as [?|[?|?]]; [by left; auto|right; left|right; right]; apply Ht; auto.
Qed.

Lemma QC_idle_keep s s' q qq qq' :
  qq.(qs) = Idle -> qq'.(qs) = Idle -> (qq'.(jobs) <> [] -> qq.(jobs) <> []) ->
  (has_top s (FRQ1 q) -> has_top s' (FRQ1 q)) ->
  QClauses s q qq -> QClauses s' q qq'.
Proof.
  intros Hs Hs' Hj Ht [C1 C2 C3]. split; rewrite Hs'; [by left|done|]. intros _ Hn. apply Ht, C3; [done|by apply Hj].
Qed.

Ltac ob_sched_same := intros; cbn; try done; try (apply elem_of_app; by left).
Ltac ob_wit Est := intros f Hh Hf; rewrite Est in Hh; cbn in Hh; injection Hh as <-; cbn in Hf; try discriminate; eauto.

Section QStep.
  Context (T : tables) (F : facts) (HK : core_tables T) (HT : own_conditions T).

  (* A step in the terms of [QInv_update]. [s0] is the state the clauses are known of, [s'] the one they are wanted for:
     the schedule of [s'] is that of [m], the new top frame of the stepping actor is a top of [s'], and the other
     actors' witness frames stay on top. *)
  Lemma eff_q s a ac fr rest m new s0 s' :
    Shape s -> Inv s -> s.(actors) !! a = Some ac -> ac.(stack) = fr :: rest -> eff T F s a ac fr m new ->
    s0.(sched) = s.(sched) -> s'.(sched) = m.(sched) ->
    (forall f, hd_error (new ++ rest) = Some f -> has_top s' f) ->
    (forall f, is_wit f = true -> f <> fr -> has_top s0 f -> has_top s' f) ->
    exists q g,
      m.(queues) = alter g q s.(queues) /\
      (forall q', q' <> q -> q' ∈ s.(sched) -> q' ∈ s'.(sched)) /\
      (is_wit fr = true -> fr = FD2 q \/ fr = FRQ2 q \/ fr = FRQ1 q) /\
      (forall qq, s.(queues) !! q = Some qq -> QClauses s0 q qq -> QClauses s' q (g qq)).
  Proof.
    intros HS HI Ea Est He Hsch0 Hsch Hnew Hoth.
    assert (Hrun : forall q qq, owns_b q fr = true -> s.(queues) !! q = Some qq -> qs qq = Running).
    { intros q qq Hfr Hq. eapply (runner_owns s a q qq); [done| |done]. rewrite (stack_cnt_self _ _ _ _ Ea), Est. cbn. by rewrite Hfr. }
    (* run_one_job_now is only called by the runner of the same queue *)
    assert (Hbelow : forall q qq, fr = FROdeq q -> s.(queues) !! q = Some qq -> qs qq = Running).
    { intros q qq -> Hq. eapply (runner_owns s a q qq); [done| |done]. rewrite (stack_cnt_self _ _ _ _ Ea), Est.
      destruct (kind_of s a ac HS Ea) as [[_ Hok]|(t0 & _ & Hok)]; rewrite Est in Hok; [|by apply pool_ok_inv in Hok as [(_ & H)|(_ & H)]].
      apply caller_ok_inv in Hok as [(_ & H)|[(os & _ & H)|(g & os & -> & H)]]; try done.
      destruct g; try done; apply bool_decide_eq_true in H; subst; cbn; by rewrite bool_decide_true. }
    assert (Hkeep : forall q0 f, f = FD2 q0 \/ f = FRQ2 q0 \/ f = FRQ1 q0 -> f <> fr -> has_top s0 f -> has_top s' f).
    { intros q0 f [->|[->| ->]] ? ?; by apply Hoth. }
    destruct He; cbn in Hsch.
    all: lazymatch goal with
         | |- context [queues (updq (updq _ ?q ?g1) _ ?g2)] => exists q, (fun x => g2 (g1 x))
         | |- context [queues (updq _ ?q ?g)] => exists q, g
         | |- context [queues (upda (updq _ ?q ?g) _ _)] => exists q, g
         | Hsched : sched _ = ?q :: _ |- _ => exists q, id
         | Hsch : _ = sched _ ++ [?q] |- _ => exists q, id
         | |- _ => exists 0, id
         end.
    all: (split; [lazymatch goal with
                  | |- _ = alter id _ _ => rewrite list_alter_id by done; first [done | apply wk_queues, woken_run_job]
                  | |- _ => first [done | cbn; by rewrite <- list_alter_compose | cbn; by rewrite (wk_queues _ _ (woken_foldl_notify F _ s))]
                  end|]).
    all: (split; [intros q' Hne Hin; rewrite Hsch; rewrite ?(wk_sched _ _ (woken_foldl_notify F _ s)), ?(wk_sched _ _ (woken_run_job F s _));
                  first [ done | apply elem_of_app; by left | apply elem_of_list_filter; by split
                        | rewrite Hsched in Hin; by apply elem_of_cons in Hin as [->|Hin] ]|]).
    all: (split; [cbn; intros Hw; first [discriminate Hw | by left | by right; left | by right; right]|]).
    all: intros qq0 Hqq0 HC0; try (rewrite Eq in Hqq0; injection Hqq0 as <-); cbn [id].
    (* steps that leave the state of the queue and the emptiness of its job list alone *)
    all: try (lazymatch goal with |- QClauses _ _ (_ <| wake_blocked := _ |>) => idtac | |- QClauses _ _ ?x => is_var x end;
              eapply (QC_keep s0 s'); [ done | done
                | rewrite Hsch0, Hsch, ?(wk_sched _ _ (woken_run_job F s _)); cbn; first [done | intros; apply elem_of_app; by left]
                | intros f Hf; apply (Hkeep _ f Hf); by destruct Hf as [->|[->| ->]] | exact HC0 ]; fail).
    (* FD2 / FRQ2: the witness puts the queue on the schedule; a queue that is gone has no clauses *)
    all: try (lazymatch goal with Hsch : sched _ = sched _ ++ [?q] |- _ => idtac end;
              destruct HC0 as [C1 C2 C3]; split; [done| |];
              [ intros Hp; split; [by apply C2|]; left; rewrite Hsch; apply elem_of_app; right; by apply elem_of_list_singleton
              | intros Hi Hj; apply (Hkeep q); [auto|done|by apply C3] ]; fail).
    all: try congruence.
    (* otherwise evaluate the table on the three states the queue can be in; the drain's final check is made by the owner *)
    all: pose proof (qc_core _ _ _ HC0) as Hcore.
    all: try (rewrite (Hrun q qq (bool_decide_eq_true_2 _ eq_refl) Eq) in Etab, Hcore).
    all: destruct Hcore as [Hc|[Hc|Hc]]; try discriminate Hc.
    all: try (rewrite ?Hc in Etab; autorewrite with core_tables in Etab;
              repeat match type of Etab with context [if ?b then _ else _] => destruct b eqn:? end; simplify_eq).
    all: try (apply QC_running; by cbn).
    all: try (apply QC_running; cbn; first [ by eapply Hrun; [cbn; apply bool_decide_eq_true_2|] | by eapply Hbelow ]).
    all: repeat match goal with
         | H : negb (bool_decide _) = true |- _ => apply negb_true_iff, bool_decide_eq_false in H
         | H : negb (bool_decide _) = false |- _ => apply negb_false_iff, bool_decide_eq_true in H
         | H : bool_decide _ = true |- _ => apply bool_decide_eq_true in H
         end.
    (* the queue is left Idle and this actor goes on to reschedule it, or it is Idle and empty;
       or it is Pending with this actor as the witness *)
    all: try (split; cbn; rewrite ?Hc;
              [ first [by left | right; by left]
              | first [done | intros _; split; [first [done | by destruct (jobs qq)]|]; right; first [left; by apply Hnew | right; by apply Hnew]]
              | first [done | intros _ _; by apply Hnew | by intros _ [] ] ]; fail).
    all: try (eapply (QC_keep s0 s'); [ by cbn; rewrite ?Hc | cbn; first [done | split; [intros H; by rewrite H in *; destruct (qc_pending _ _ _ HC0 Hc) | by destruct (jobs _)]]
                                      | rewrite Hsch0, Hsch; cbn; first [done | intros; apply elem_of_app; by left]
                                      | intros f Hf; apply (Hkeep _ f Hf); by destruct Hf as [->|[->| ->]] | exact HC0 ]; fail).
    (* reschedule_queue finds the queue Pending, the pool thread skips an Idle entry of the schedule: some other witness stays *)
    - (* E_resched, Pending *) eapply (QC_pending_keep s0 s'); [exact Hc|done|done|by rewrite Hsch0, Hsch, (wk_sched _ _ (woken_foldl_notify F _ s))| |exact HC0].
      intros f Hf. apply (Hkeep q f); [tauto|by destruct Hf as [->| ->]].
    - (* E_exam_skip, Idle *) eapply (QC_idle_keep s0 s'); [exact Hc|done|done| |exact HC0]. intros Ht. by apply (Hkeep q); [auto| |].
  Qed.
  Lemma step_q s a s' : Shape s -> Inv s -> QInv s -> step T F s a = Some s' -> QInv s'.
  Proof.
    intros HS HI HQ (ac & fr & rest & m & new & Ea & Est & He & ->)%step_eff.
    destruct (eff_stacks _ _ _ _ _ _ _ _ He) as (w & sp & Hw & Hst & _).
    destruct (eff_self _ _ _ _ _ _ _ _ _ He Ea Est) as (ac' & Ea' & Est').
    (* the wake-ups and a new pool actor first: they only add tops *)
    set (m0 := m <| queues := queues s |> <| sched := sched s |>).
    assert (HQ0 : QInv m0).
    { apply (QInv_mono m0 s); [done|done| |done]. intros f Hf Ht. destruct (has_top_woken w s f Hw Hf Ht) as (b & st & Hb & Hh).
      exists b, st. split; [|done]. change (stacks m0) with (stacks m). rewrite Hst. by apply lookup_app_l_Some. }
    assert (Hss : stacks (setstack m a (new ++ rest)) = <[a := new ++ rest]> (stacks m0)) by (change (stacks m0) with (stacks m); apply stacks_setstack).
    destruct (eff_q s a ac fr rest m new m0 (setstack m a (new ++ rest)) HS HI Ea Est He) as (q & g & Hq & Hsch & Hwit & Hthis); [done|done| | |].
    - intros f Hf. by eapply (has_top_new m0 _ a ac').
    - intros f Hf Hne. eapply (has_top_other m0 _ a ac'); [done|done|]. rewrite Est'. cbn. congruence.
    - eapply (QInv_update m0 _ a ac' q g (new ++ rest) HQ0 Ea'); [done| |exact Hsch| |exact Hthis].
      { intros q'. cbn. rewrite Hq. destruct (decide (q = q')) as [<-|]; [by rewrite list_lookup_alter|by rewrite list_lookup_alter_ne]. }
      intros f Hh Hf. rewrite Est' in Hh. injection Hh as <-. by apply Hwit.
  Qed.
End QStep.
Lemma init_q nq mx scripts : QInv (init nq mx scripts).
Proof. intros q qq [-> _]%lookup_replicate. split; cbn; [by left|done|done]. Qed.
