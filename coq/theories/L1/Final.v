(* All invariants of L1 together, and L-quiet (C03): a reachable state in which nobody can move is complete. *)
From stdpp Require Import list numbers option.
From RecordUpdate Require Import RecordUpdate.
From L1 Require Import Model Own Shape Stuck Live Wait Help.

Record All (s : state) : Prop := {
  a_shape : Shape s; a_inv : Inv s; a_wf : WF s; a_pool : PoolInv s; a_q : QInv s; a_j : JInv s; a_k : KInv s; a_max : 1 <= s.(maxt);
}.

Section Assembly.
  Context (T : tables) (F : facts) (HK : core_tables T) (HT : own_conditions T) (HF : F.(f_dormant_blocks) = true).

  Lemma step_maxt s a s' : step T F s a = Some s' -> s'.(maxt) = s.(maxt).
  Proof. intros (ac & fr & rest & m & new & _ & _ & He & ->)%step_eff. exact (eff_maxt _ _ _ _ _ _ _ _ He). Qed.

  Lemma step_all s a s' : All s -> step T F s a = Some s' -> All s'.
  Proof.
    intros [H1 H2 H3 H4 H5 H6 H7 H8] Hstep. split.
    - by eapply step_shape.
    - by eapply step_inv.
    - by eapply step_wf.
    - by eapply step_pool.
    - by eapply step_q.
    - by eapply step_j.
    - by eapply step_k.
    - by rewrite (step_maxt _ _ _ Hstep).
  Qed.
End Assembly.

Lemma init_k nq mx scripts : KInv (init nq mx scripts).
Proof. intros (q & qq & Hin & _). unfold init in Hin; cbn in Hin. by apply elem_of_nil in Hin. Qed.

Section Final.
  Context (T : tables) (F : facts) (HK : core_tables T) (HT : own_conditions T) (HF : F.(f_dormant_blocks) = true).

  Lemma init_all nq mx scripts : wf_scripts nq scripts -> 1 <= mx -> All (init nq mx scripts).
  Proof.
    intros Hs Hm. split; [apply init_shape|apply init_inv|by apply init_wf|apply init_pool|apply init_q|apply init_j|apply init_k|done].
  Qed.

  Theorem reachable_all nq mx scripts tr s : wf_scripts nq scripts -> 1 <= mx -> run T F (init nq mx scripts) tr = Some s -> All s.
  Proof. intros Hs Hm. apply (run_invariant T F All (step_all T F HK HT HF)). by apply init_all. Qed.
End Final.

Definition stuck_frame (fr : frame) : Prop := match fr with FTop [] | FSBwait _ | FTrecv _ => True | _ => False end.
Lemma stuck_hd s st fr : stuck_ok s st -> hd_error st = Some fr -> stuck_frame fr.
Proof. destruct st as [|[] [|]]; cbn; try done; intros H [= <-]; try done; by destruct script. Qed.

Lemma stuck_cnt0 s b ab q : Shape s -> s.(actors) !! b = Some ab -> stuck_ok s ab.(stack) -> cnt q ab.(stack) = 0.
Proof.
  intros HS Eb Hst. destruct (kind_of s b ab HS Eb) as [[_ Hok]|(t & _ & Hok)].
  - destruct (stack ab) as [|fr rest]; [done|]. apply caller_ok_inv in Hok as [(-> & Hfr)|[(os & -> & Hsf)|(g & os & -> & Hpo)]].
    + by destruct fr.
    + destruct fr; try done.
    + destruct fr; try done; by destruct g.
  - destruct (stack ab) as [|fr rest]; [done|]. apply pool_ok_inv in Hok as [(-> & Hfr)|(-> & Hfr)]; by destruct fr.
Qed.

(* when every actor is stuck: every top frame is a stuck frame, and no queue is Running, since its owner could move *)
Lemma stuck_tops s f : (forall a ac, s.(actors) !! a = Some ac -> stuck_ok s ac.(stack)) -> has_top s f -> stuck_frame f.
Proof.
  intros Hstuck (b & ab & Eb & Hh)%has_top_actor. eapply stuck_hd; [by eapply Hstuck|done].
Qed.
Lemma stuck_not_running s q qq : Shape s -> Inv s -> (forall a ac, s.(actors) !! a = Some ac -> stuck_ok s ac.(stack)) ->
  s.(queues) !! q = Some qq -> qq.(qs) <> Running.
Proof.
  intros HS HI Hstuck Hq Hr. destruct (running_owner s q qq HI Hq Hr) as (b & ab & _ & Eb & Hc).
  by rewrite (stuck_cnt0 s b ab q HS Eb (Hstuck b ab Eb)) in Hc.
Qed.

Section Quiet.
  Context (T : tables) (F : facts) (HK : core_tables T) (HT : own_conditions T) (HF : F.(f_dormant_blocks) = true).

  Theorem terminal_complete s : All s -> terminal T F s -> complete s = true.
  Proof.
    intros [HS HI HW HP HQ HJ HKI Hm] Hterm.
    pose proof (stuck_frames T F s HS HW Hterm) as Hstuck.
    pose proof (fun f => stuck_tops s f Hstuck) as HA. pose proof (fun q qq => stuck_not_running s q qq HS HI Hstuck) as HB1.
    (* no queue is Pending *)
    assert (HB2 : forall q qq, s.(queues) !! q = Some qq -> qq.(qs) <> Pending).
    { intros q qq Hq Hp. destruct (HQ q qq Hq) as [C1 C2 C3]. destruct (C2 Hp) as [Hj [Hs|[Hs|Hs]]]; [|by apply HA in Hs|by apply HA in Hs].
      assert (Htk : takeable s) by (exists q, qq; done).
      destruct (HKI Htk) as [(t & th & st & G1 & G2 & G3 & G4)|(b & st & Hb & Hc)].
      - destruct (pool_actor s t th HS G1) as [ap Eap]. by rewrite (proj1 (stuck_pool s t th ap HS HP G1 Eap (Hstuck _ ap Eap))) in G3.
      - rewrite stacks_lookup in Hb. destruct (actors s !! b) as [ab|] eqn:Eb; [|done]. injection Hb as <-.
        pose proof (hclause_htop _ _ Hc) as Hh. pose proof (Hstuck b ab Eb) as Hsk.
        destruct (stack ab) as [|fr rest]; [done|]. pose proof (stuck_hd s _ fr Hsk eq_refl) as Hf. by destruct fr. }
    (* every queue is Idle and empty *)
    assert (HB3 : forall q qq, s.(queues) !! q = Some qq -> qq.(qs) = Idle /\ qq.(jobs) = []).
    { intros q qq Hq. destruct (HQ q qq Hq) as [C1 C2 C3]. destruct C1 as [Hc|[Hc|Hc]]; [|by destruct (HB2 q qq Hq)|by destruct (HB1 q qq Hq)].
      split; [done|]. destruct (decide (jobs qq = [])) as [Hj|Hn]; [done|]. exfalso. specialize (C3 Hc Hn). by apply HA in C3. }
    (* nobody is inside the condition-variable wait *)
    assert (HC : forall w ac q rest, s.(actors) !! w = Some ac -> ac.(stack) = FSBwait q :: rest -> False).
    { intros w ac q rest Ew Est. destruct (HJ w ac Ew) as [J1 J2].
      assert (Hr : ready ac = false) by (apply (J2 q); by rewrite Est).
      destruct (J1 q) as [(qq & o & G1 & G2)|(b & st & o & G1 & (q' & G2))]; [by rewrite Est|done| |].
      - destruct (HB3 q qq G1) as [_ Hj]. rewrite Hj in G2. by apply elem_of_nil in G2.
      - assert (Ht : has_top s (FROrun q' (JSyncBg o w)) \/ has_top s (FDRrun q' (JSyncBg o w))) by (destruct G2; [left|right]; by exists b, st).
        destruct Ht as [Ht|Ht]; by apply HA in Ht. }
    unfold complete. rewrite !andb_true_iff. split; [split|].
    - apply forallb_forall. intros ab Hin. apply elem_of_list_In, elem_of_list_lookup in Hin as [b Eb].
      pose proof (Hstuck b ab Eb) as Hsk. unfold actor_done. destruct (stack ab) as [|fr rest] eqn:Es; [done|].
      destruct fr; try done; cbn in Hsk.
      + destruct script; [|done]. by destruct rest.
      + exfalso. by eapply HC.
      + by destruct rest.
    - apply forallb_forall. intros qq Hin. apply elem_of_list_In, elem_of_list_lookup in Hin as [q Hq]. destruct (HB3 q qq Hq) as [-> ->]. done.
    - apply forallb_forall. intros th Hin. apply elem_of_list_In, elem_of_list_lookup in Hin as [t Ht].
      destruct (pool_actor s t th HS Ht) as [ap Eap]. by rewrite (proj1 (stuck_pool s t th ap HS HP Ht Eap (Hstuck _ ap Eap))).
  Qed.

  (* L-quiet on the L1 model: with at least one pool thread allowed, every reachable state in which no thread
     can move is complete: all scripts finished, all queues idle and empty, no thread marked busy. *)
  Theorem L_quiet nq mx scripts tr s :
    wf_scripts nq scripts -> 1 <= mx -> run T F (init nq mx scripts) tr = Some s -> terminal T F s -> complete s = true.
  Proof. intros Hs Hm Hr. apply terminal_complete. by eapply (reachable_all T F). Qed.
End Quiet.

Corollary L_quiet_repaired F nq mx scripts tr s :
  F.(f_dormant_blocks) = true -> wf_scripts nq scripts -> 1 <= mx ->
  run (fixed_trysync orig_tables) F (init nq mx scripts) tr = Some s -> terminal (fixed_trysync orig_tables) F s -> complete s = true.
Proof. intros HF. apply L_quiet; [apply fixed_core|apply fixed_tables_ok|done]. Qed.

Print Assumptions L_quiet_repaired.

(* the hypothesis f_dormant_blocks is needed: with try_lock the model strands a queue (F1) *)
Definition f1_facts : facts := {| f_dormant_blocks := false; f_sticky_notify := true |}.
Definition f1_scripts : list (list op) := [[ODesync 0]; [ODesync 1]].
Definition f1_trace : list nat := [0; 0; 0; 0; 0; 0; 0; 0; 1; 1; 2; 2; 2; 2; 2; 2; 2; 2; 2; 2; 2; 2; 1; 1; 1; 1; 1; 2].
Definition terminal_b (T : tables) (F : facts) (s : state) : bool :=
  forallb (fun a => match step T F s a with None => true | Some _ => false end) (seq 0 (length s.(actors))).

Example L_quiet_refuted_without_blocking_scan :
  exists s, run (fixed_trysync orig_tables) f1_facts (init 2 1 f1_scripts) f1_trace = Some s
            /\ terminal_b (fixed_trysync orig_tables) f1_facts s = true /\ complete s = false.
Proof. eexists. split; [vm_compute; reflexivity|]. split; vm_compute; reflexivity. Qed.
