(* Why a Pending queue in the schedule is not forgotten: somebody is on the way to take it.  [live] pool threads, the
   helper frames of schedule_thread, and the invariant KInv: a takeable queue has a helper. *)
From stdpp Require Import list numbers option.
From RecordUpdate Require Import RecordUpdate.
From L1 Require Import Model Own Shape Stuck Live Wait.

Definition live (s : state) (t : nat) : Prop :=
  exists th st, s.(threads) !! t = Some th /\ stacks s !! (ncallers s + t) = Some st /\ th.(busy) = true /\ st <> [FTrelnone t].
Definition takeable (s : state) : Prop :=
  exists q qq, q ∈ s.(sched) /\ s.(queues) !! q = Some qq /\ qq.(qs) = Pending.
Definition hclause (s : state) (st : list frame) : Prop :=
  match hd_error st with
  | Some (FD2 _) | Some (FRQ2 _) | Some FSTlock => True
  | Some (FSTscan i) => forall t, t < i -> t < length s.(threads) -> live s t
  | Some FSTspawn => forall t, t < length s.(threads) -> live s t
  | _ => False
  end.
Definition helper (s : state) : Prop := (exists t, live s t) \/ (exists b st, stacks s !! b = Some st /\ hclause s st).
Definition KInv (s : state) : Prop := takeable s -> helper s.
Definition is_htop (st : list frame) : bool :=
  match hd_error st with Some (FD2 _) | Some (FRQ2 _) | Some FSTlock | Some (FSTscan _) | Some FSTspawn => true | _ => false end.

Lemma hclause_htop s st : hclause s st -> is_htop st = true.
Proof. unfold hclause, is_htop. destruct (hd_error st) as [[]|]; done. Qed.

Lemma K_update s s' a ac newst :
  KInv s -> s.(actors) !! a = Some ac ->
  stacks s' = <[a := newst]> (stacks s) -> length s'.(threads) = length s.(threads) ->
  (takeable s' -> takeable s) ->
  (takeable s' -> forall t, live s t -> live s' t) ->
  (is_htop ac.(stack) = true -> hclause s ac.(stack) -> takeable s' -> helper s') ->
  KInv s'.
Proof.
  intros HK Ea Hst Hlt Htk Hlive Hself Ht'. destruct (HK (Htk Ht')) as [(t & Hl)|(b & st & Hb & Hc)].
  - left. exists t. by apply Hlive.
  - destruct (decide (a = b)) as [<-|Hne].
    + rewrite stacks_lookup, Ea in Hb. injection Hb as <-. apply Hself; [by eapply hclause_htop|done|done].
    + right. exists b, st. split; [rewrite Hst; by rewrite list_lookup_insert_ne|].
      unfold hclause in *. rewrite Hlt. destruct (hd_error st) as [[]|]; try done; intros; apply Hlive; auto.
Qed.

Lemma K_direct s s' a ac newst :
  s.(actors) !! a = Some ac -> stacks s' = <[a := newst]> (stacks s) ->
  (match hd_error newst with Some (FD2 _) | Some (FRQ2 _) | Some FSTlock => True | _ => False end) -> KInv s'.
Proof.
  intros Ea Hst Hh _. right. exists a, newst. split.
  - rewrite Hst, list_lookup_insert; [done|]. unfold stacks. rewrite fmap_length. by eapply lookup_lt_Some.
  - unfold hclause. destruct (hd_error newst) as [[]|]; done.
Qed.

Lemma takeable_mono s s' q g :
  (forall q0, q0 ∈ s'.(sched) -> q0 ∈ s.(sched)) ->
  (forall q0, s'.(queues) !! q0 = if decide (q = q0) then g <$> (s.(queues) !! q0) else s.(queues) !! q0) ->
  (forall qq, s.(queues) !! q = Some qq -> (g qq).(qs) = Pending -> qq.(qs) = Pending) ->
  takeable s' -> takeable s.
Proof.
  intros Hs Hq Hg (q0 & qq' & H1 & H2 & H3). rewrite Hq in H2. destruct (decide (q = q0)) as [<-|Hne].
  - destruct (queues s !! q) as [qq|] eqn:E; [|done]. injection H2 as <-. exists q, qq. split; [by apply Hs|]. split; [done|]. by apply Hg.
  - exists q0, qq'. split; [by apply Hs|]. done.
Qed.

Lemma live_mono_caller s s' a ac newst :
  s.(actors) !! a = Some ac -> a < ncallers s -> stacks s' = <[a := newst]> (stacks s) -> ncallers s' = ncallers s ->
  (forall t th, s.(threads) !! t = Some th -> exists th', s'.(threads) !! t = Some th' /\ (th.(busy) = true -> th'.(busy) = true)) ->
  forall t, live s t -> live s' t.
Proof.
  intros Ea Hlt Hst Hn Hth t (th & st & H1 & H2 & H3 & H4). destruct (Hth t th H1) as (th' & G1 & G2).
  exists th', st. split; [done|]. split; [|by auto]. rewrite Hn, Hst, list_lookup_insert_ne by lia. done.
Qed.
Lemma live_mono_pool s s' t0 ac newst :
  s.(actors) !! (ncallers s + t0) = Some ac -> stacks s' = <[ncallers s + t0 := newst]> (stacks s) -> ncallers s' = ncallers s ->
  newst <> [FTrelnone t0] ->
  (forall t th, s.(threads) !! t = Some th -> exists th', s'.(threads) !! t = Some th' /\ (th.(busy) = true -> th'.(busy) = true)) ->
  forall t, live s t -> live s' t.
Proof.
  intros Ea Hst Hn Hnew Hth t (th & st & H1 & H2 & H3 & H4). destruct (Hth t th H1) as (th' & G1 & G2).
  destruct (decide (t = t0)) as [->|Hne].
  - exists th', newst. split; [done|]. split; [|by auto]. rewrite Hn, Hst, list_lookup_insert; [done|]. by eapply lookup_lt_Some.
  - exists th', st. split; [done|]. split; [|by auto]. rewrite Hn, Hst, list_lookup_insert_ne by lia. done.
Qed.

Lemma helper_new_top s s' a ac newst :
  s.(actors) !! a = Some ac -> stacks s' = <[a := newst]> (stacks s) -> hclause s' newst -> helper s'.
Proof.
  intros Ea Hst Hc. right. exists a, newst. split; [|done]. rewrite Hst, list_lookup_insert; [done|].
  unfold stacks. rewrite fmap_length. by eapply lookup_lt_Some.
Qed.
Lemma busy_unheld_live s t th : Shape s -> s.(threads) !! t = Some th -> th.(busy) = true -> th.(held) = false -> live s t.
Proof.
  intros HS Ht Hb Hh. pose proof HS as [L Ta Ca Po He Sh Th].
  assert (Hi : ncallers s + t < length (actors s)) by (apply lookup_lt_Some in Ht; unfold ncallers; lia).
  destruct (lookup_lt_is_Some_2 _ _ Hi) as [ap Eap]. exists th, (stack ap). split; [done|]. split; [by rewrite stacks_lookup, Eap|]. split; [done|].
  specialize (He t th ap Ht Eap). rewrite Hh in He. intros Hs. by rewrite Hs in He.
Qed.

Lemma live_woken m s t : woken m s -> live s t -> live m t.
Proof.
  intros Hw (th & st & H1 & H2 & H3 & H4). rewrite stacks_lookup in H2. destruct (actors s !! _) as [x|] eqn:Hx; [|done]. injection H2 as <-.
  destruct (woken_lookup _ _ _ _ Hw Hx) as (x' & Hx' & Hxx). exists th, (stack x').
  split; [by rewrite (wk_threads _ _ Hw)|]. split; [|split; [done|]].
  - by rewrite (woken_ncallers m s Hw), stacks_lookup, Hx'.
  - by destruct (aw_stack _ _ Hxx) as [->|(q & r & _ & ->)].
Qed.
Lemma KInv_woken m s : woken m s -> KInv s -> KInv m.
Proof.
  intros Hw HK (q0 & qq & H1 & H2 & H3). rewrite (wk_sched _ _ Hw) in H1. rewrite (wk_queues _ _ Hw) in H2.
  destruct HK as [(t & Ht)|(b & st & Hb & Hc)]; [by exists q0, qq|left; exists t; by apply (live_woken m s)|].
  rewrite stacks_lookup in Hb. destruct (actors s !! b) as [x|] eqn:Hx; [|done]. injection Hb as <-.
  destruct (woken_lookup _ _ _ _ Hw Hx) as (x' & Hx' & Hxx). right. exists b, (stack x'). split; [by rewrite stacks_lookup, Hx'|].
  destruct (aw_stack _ _ Hxx) as [->|(q & r & E & _)]; [|by rewrite E in Hc].
  unfold hclause in *. rewrite (wk_threads _ _ Hw). destruct (hd_error (stack x)) as [[]|]; try done; intros; apply (live_woken m s _ Hw); apply Hc; auto.
Qed.
Lemma KInv_wake s w ac q rest : Shape s -> KInv s -> s.(actors) !! w = Some ac -> ac.(stack) = FSBwait q :: rest -> KInv (setstack s w (FSBwoken q :: rest)).
Proof. intros _ HK Ew Est. pose proof (woken_wake s w) as Hw. unfold wake in Hw. rewrite Ew, Est in Hw. by eapply KInv_woken. Qed.
Lemma KInv_kick s w (f : actor -> actor) : (forall x, (f x).(stack) = x.(stack)) -> KInv s -> KInv (upda s w f).
Proof.
  intros Hf HK (q0 & qq & H1 & H2 & H3).
  assert (Hst : stacks (upda s w f) = stacks s) by (by apply stacks_upda_same).
  assert (Hn : ncallers (upda s w f) = ncallers s) by (unfold ncallers; by rewrite length_actors_upda).
  assert (Hl : forall t, live s t -> live (upda s w f) t).
  { intros t (th & st & G1 & G2 & G3 & G4). exists th, st. rewrite Hn, Hst. done. }
  destruct HK as [(t & Ht)|(b & st & Hb & Hc)]; [by exists q0, qq|left; exists t; by apply Hl|].
  right. exists b, st. split; [by rewrite Hst|]. unfold hclause in *. destruct (hd_error st) as [[]|]; try done; intros; apply Hl; auto.
Qed.
Lemma KInv_foldl_notify F ws s : Shape s -> KInv s -> KInv (foldl (notify F) s ws).
Proof. intros _. apply KInv_woken, woken_foldl_notify. Qed.

Ltac ob_q_id' := let q0 := fresh "q0" in intros q0; cbn; match goal with |- context [decide (?x = ?y)] => destruct (decide (x = y)) end; [by match goal with |- context [queues ?s !! ?q] => destruct (queues s !! q) end|done].
Ltac ob_nc := unfold ncallers, setstack, upda, updt, updq; cbn; rewrite ?alter_length; done.
Ltac ob_threads_same := let t := fresh "t" in let thx := fresh "thx" in let H := fresh "Hthx" in intros t thx H; exists thx; split; [exact H|done].
Ltac ob_sched_sub := intros ?q0 ?Hin; cbn in Hin; first [exact Hin | (apply elem_of_list_filter in Hin as [_ Hin]; exact Hin) | (match goal with E0 : sched _ = _ :: _ |- _ => rewrite E0; apply elem_of_cons; by right end)].
(* the state obligation of takeable_mono, by evaluating the table on the three core states *)
Ltac ob_state HQ := let qq0 := fresh "qq" in let Hqq0 := fresh in let Hp := fresh in intros qq0 Hqq0 Hp; cbn in Hp;
         first [ exact Hp | discriminate
               | match goal with Eq : queues _ !! _ = Some ?qq, Etab : _ |- _ =>
                   rewrite Eq in Hqq0; injection Hqq0 as <-;
                   destruct (qc_core _ _ _ (HQ _ _ Eq)) as [Hc|[Hc|Hc]]; rewrite Hc in Etab; autorewrite with core_tables in Etab;
                   repeat match type of Etab with context [if ?b then _ else _] => destruct b eqn:? end; simplify_eq; done end ].
(* no queue becomes takeable: [takeable_mono] with the queue function read off the goal *)
Ltac k_takeable s HQ :=
  lazymatch goal with
  | |- takeable (setstack (updq (updq _ ?q ?f1) _ ?f2) _ _) -> _ => eapply (takeable_mono s _ q (fun x => f2 (f1 x))); [ob_sched_sub|obs_q2|ob_state HQ]
  | |- takeable (setstack (updq _ ?q ?f) _ _) -> _ => eapply (takeable_mono s _ q f); [ob_sched_sub|obs_q2|ob_state HQ]
  | |- takeable (setstack (upda (updq _ ?q ?f) _ _) _ _) -> _ => eapply (takeable_mono s _ q f); [ob_sched_sub|obs_q2|ob_state HQ]
  | |- _ => eapply (takeable_mono s _ 0 (fun x => x)); [ob_sched_sub|ob_q_id'|done]
  end.

Section KStep.
  Context (T : tables) (F : facts) (HK : core_tables T) (HT : own_conditions T) (HF : F.(f_dormant_blocks) = true).

  Lemma step_k s a s' : Shape s -> PoolInv s -> Inv s -> QInv s -> 1 <= s.(maxt) -> KInv s -> step T F s a = Some s' -> KInv s'.
  Proof.
    intros HS0 HP0 HI0 HQ0 Hmax0 HKI0 (ac0 & fr & rest & m & new & Ea0 & Est0 & He0 & ->)%step_eff.
    (* the wake-ups first: every invariant survives them, and what follows wakes nobody *)
    destruct (eff_wake _ _ _ _ _ _ _ _ _ He0 Ea0 Est0) as (w & ac & Hw & Ea & Est & He & _). rewrite Est0 in Est.
    pose proof (Shape_woken w s Hw HS0) as HS. pose proof (PoolInv_woken w s Hw HP0) as HP. pose proof (Inv_woken w s Hw HI0) as HI.
    pose proof (QInv_woken w s Hw HQ0) as HQ. pose proof (KInv_woken w s Hw HKI0) as HKI.
    assert (Hmax : 1 <= maxt w) by (by rewrite (wk_maxt _ _ Hw)).
    clear dependent s. rename w into s.
    (* the whole stack is known once we know whether [a] is a caller or the pool actor of thread t0 *)
    pose proof (kind_of s a ac HS Ea) as Hkind. rewrite Est in Hkind.
    destruct Hkind as [[Hlt Hok]|(t0 & -> & Hok)];
      [ apply caller_ok_inv in Hok as [(-> & Hfr)|[(os' & -> & Hfr)|(g & os' & -> & Hfr)]]
      | apply pool_ok_inv in Hok as [(-> & Hfr)|(-> & Hfr)] ].
    all: destruct He; try discriminate Hfr.
    all: try (destruct g; try discriminate Hfr; try (apply bool_decide_eq_true in Hfr; subst)).
    all: try (cbn in Hfr; apply bool_decide_eq_true in Hfr; subst).
    all: cbn [app]; try congruence.
    all: lazymatch goal with
         (* a thread was spawned: the caller scans again *)
         | |- KInv (setstack (spawn _) _ _) =>
             intros _; right; eexists a, _; split; [rewrite stacks_setstack, list_lookup_insert; [reflexivity|]|done];
             unfold stacks, spawn; cbn; rewrite fmap_length, app_length; apply lookup_lt_Some in Ea; lia
         (* the new top frame is itself a helper *)
         | |- KInv (setstack _ _ (FD2 _ :: _)) => eapply (K_direct s _ _ ac _ Ea); [ob_stacks|done]
         | |- KInv (setstack _ _ (FRQ2 _ :: _)) => eapply (K_direct s _ _ ac _ Ea); [ob_stacks|done]
         | |- KInv (setstack _ _ (FSTlock :: _)) => eapply (K_direct s _ _ ac _ Ea); [ob_stacks|done]
         (* FTexam found the schedule empty: nothing is takeable *)
         | |- KInv (setstack _ _ [FTrelnone _]) => intros (q0 & qq0 & Hin & _); cbn in Hin; rewrite Hsched in Hin; by apply elem_of_nil in Hin
         | _ => idtac
         end.
    (* the drain's final check: the runner's queue is Running, the table sends it to Idle or leaves it *)
    all: try (lazymatch goal with Est : stack _ = FDRfin ?q :: _ |- _ => idtac end;
              assert (Hrun : qs qq = Running) by (eapply (runner_owns s _ q qq); [exact HI| |exact Eq]; rewrite (stack_cnt_self _ _ _ _ Ea), Est; cbn [cnt owns_b]; by rewrite bool_decide_true);
              rewrite Hrun, (k_fin _ HK) in Etab; destruct (bool_decide (jobs qq = [])); simplify_eq).
    (* a caller holding the helper's frames: FSTlock, the scan, FSTspawn *)
    all: try (lazymatch goal with Est : stack _ = FSTlock :: _ |- _ => idtac | Est : stack _ = FSTscan _ :: _ |- _ => idtac | Est : stack _ = FSTspawn :: _ |- _ => idtac end;
              assert (Hlm : forall newst, forall t, live s t -> live (setstack s a newst) t)
                by (intros newst; eapply (live_mono_caller s _ a ac); [exact Ea|exact Hlt|apply stacks_setstack|ob_nc|ob_threads_same])).
    all: lazymatch goal with
         (* FSTlock -> FSTscan 0 *)
         | Est : stack _ = FSTlock :: _ |- _ =>
             eapply (K_update s _ a ac _ HKI Ea);
             [ ob_stacks | ob_len | k_takeable s HQ | intros _; apply Hlm
             | intros _ _ _; eapply (helper_new_top s _ a ac); [exact Ea|ob_stacks|]; unfold hclause; cbn; intros; lia ]
         (* FSTscan i -> FSTscan (S i): thread i is busy and does not hold its lock, hence live *)
         | |- KInv (setstack _ _ (FSTscan (S ?i) :: _)) =>
             eapply (K_update s _ a ac _ HKI Ea);
             [ ob_stacks | ob_len | k_takeable s HQ | intros _; apply Hlm
             | intros _ Hc _; rewrite Est in Hc; unfold hclause in Hc; cbn in Hc;
               eapply (helper_new_top s _ a ac); [exact Ea|ob_stacks|]; unfold hclause; cbn; intros t1 Hlt1 Hlen1;
               apply Hlm; destruct (decide (t1 = i)) as [->|Hne]; [by eapply busy_unheld_live|apply Hc; [lia|exact Hlen1]] ]
         (* the scan reached the end of the thread list *)
         | |- KInv (setstack _ _ (FSTspawn :: _)) =>
             apply lookup_ge_None in Et;
             eapply (K_update s _ a ac _ HKI Ea);
             [ ob_stacks | ob_len | k_takeable s HQ | intros _; apply (Hlm (FSTspawn :: _))
             | intros _ Hc _; rewrite Est in Hc; unfold hclause in Hc; cbn in Hc;
               eapply (helper_new_top s _ a ac); [exact Ea|ob_stacks|]; unfold hclause; cbn; intros t1 Hlen1;
               apply (Hlm (FSTspawn :: _)); apply Hc; [lia|exact Hlen1] ]
         (* the scan claims a dormant thread: it is live afterwards *)
         | Est : stack _ = FSTscan ?i :: _ |- _ =>
             intros _; left; exists i;
             pose proof (sh_len _ HS) as L;
             assert (Hi : ncallers s + i < length (actors s)) by (apply lookup_lt_Some in Et; unfold ncallers; lia);
             destruct (lookup_lt_is_Some_2 _ _ Hi) as [ap Eap];
             assert (Hps : pool_state_ok th (stack ap) = true) by (apply (HP i); [exact Et|by rewrite stacks_lookup, Eap]);
             unfold pool_state_ok in Hps; rewrite Hbusy in Hps;
             exists (th <| busy := true |> <| chan := S (chan th) |>), (stack ap);
             split; [rewrite threads_setstack, threads_updt_lookup, decide_True by done; cbn; by rewrite Et|];
             split; [match goal with |- stacks ?s1 !! (ncallers ?s1 + _) = _ => assert (Hn : ncallers s1 = ncallers s) by ob_nc; rewrite Hn end;
                     rewrite stacks_setstack, list_lookup_insert_ne by lia; change (stacks (updt (s <| threads_held := None |>) i _)) with (stacks s); by rewrite stacks_lookup, Eap|];
             split; [done|]; destruct (chan th); [|done]; destruct (stack ap) as [|[] [|]]; done
         (* the pool is at its maximum: the scan returns, and every thread it passed is live *)
         | Est : stack _ = FSTspawn :: _ |- _ =>
             eapply (K_update s _ a ac _ HKI Ea);
             [ ob_stacks | ob_len | k_takeable s HQ | intros _; apply Hlm
             | intros _ Hc _; rewrite Est in Hc; unfold hclause in Hc; cbn in Hc; left; exists 0; apply Hlm; apply Hc; lia ]
         (* FTrelnone goes dormant: the thread was not live before either *)
         | Est : stack _ = [FTrelnone ?t0] |- _ =>
             eapply (K_update s _ _ ac _ HKI Ea); [ ob_stacks | ob_len | k_takeable s HQ | | intros Hh; rewrite Est in Hh; cbn in Hh; discriminate ];
             intros _ t1 (th1 & st1 & G1 & G2 & G3 & G4); destruct (decide (t1 = t0)) as [->|Hne];
             [ exfalso; rewrite stacks_lookup, Ea in G2; injection G2 as <-; by rewrite Est in G4
             | exists th1, st1; split; [rewrite threads_setstack, threads_updt_lookup, decide_False by done; exact G1|];
               split; [|done]; match goal with |- stacks ?s1 !! (ncallers ?s1 + _) = _ => assert (Hn : ncallers s1 = ncallers s) by ob_nc; rewrite Hn end;
               rewrite stacks_setstack, list_lookup_insert_ne by lia; exact G2 ]
         (* the other steps of a caller: busy flags stay *)
         | Hlt : _ < ncallers _ |- _ =>
             eapply (K_update s _ a ac _ HKI Ea);
             [ ob_stacks | ob_len | k_takeable s HQ
             | intros _; eapply (live_mono_caller s _ a ac); [exact Ea|exact Hlt|ob_stacks|ob_nc|ob_threads_same]
             | intros Hh; rewrite Est in Hh; cbn in Hh; discriminate ]
         (* the other steps of a pool thread: it stays out of FTrelnone and busy flags stay *)
         | |- _ =>
             eapply (K_update s _ _ ac _ HKI Ea);
             [ ob_stacks | ob_len | k_takeable s HQ
             | intros _; eapply (live_mono_pool s _ _ ac); [exact Ea|ob_stacks|ob_nc|done
                 | let t1 := fresh "t" in let th1 := fresh "th" in let Ht1 := fresh "Ht" in
                   intros t1 th1 Ht1; first [ (exists th1; split; [exact Ht1|done])
                                           | (rewrite threads_setstack, threads_updt_lookup; match goal with |- context [decide (?x = ?y)] => destruct (decide (x = y)) as [<-|] end;
                                              [rewrite Ht1; cbn; eexists; split; [reflexivity|cbn; done] | exists th1; split; [exact Ht1|done]]) ] ]
             | intros Hh; rewrite Est in Hh; cbn in Hh; discriminate ]
         end.
  Qed.
End KStep.

Print Assumptions step_k.

