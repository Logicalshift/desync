(* try_sync (C09): never blocks, never half-runs, never disturbs the queue *)
From stdpp Require Import list numbers option.
From RecordUpdate Require Import RecordUpdate.
From L1 Require Import Model Own Shape Stuck Live.

Record trysync_conditions (T : tables) : Prop := {
  ts_busy_unchanged : forall st e st', T.(t_trysync) st e = (st', TABusy) -> st' = st;
  ts_panic_unchanged : forall st e st', T.(t_trysync) st e = (st', TAPanic) -> st' = st /\ st = Panicked;
  ts_imm_only_idle_empty : forall st e st', T.(t_trysync) st e = (st', TAImmediate) -> st = Idle /\ e = true /\ st' = Running;
  ts_idle_empty_imm : T.(t_trysync) Idle true = (Running, TAImmediate);
}.

Lemma queue_eta (x : queue) : x <| qs := qs x |> = x. Proof. by destruct x. Qed.
Lemma alter_same {A} (f : A -> A) (l : list A) q x : l !! q = Some x -> f x = x -> alter f q l = l.
Proof.
  intros Hq Hf. apply list_eq. intros i. destruct (decide (i = q)) as [->|Hn].
  - rewrite list_lookup_alter, Hq. cbn. by rewrite Hf.
  - by rewrite list_lookup_alter_ne.
Qed.
Lemma state_eta (s : state) : s <| queues := queues s |> = s. Proof. by destruct s. Qed.
Lemma updq_same s q qq : s.(queues) !! q = Some qq -> updq s q (fun x => x <| qs := qs qq |>) = s.
Proof.
  intros Hq. unfold updq. rewrite (alter_same _ _ _ _ Hq); [apply state_eta|apply queue_eta].
Qed.

Section TrySync.
  Context (T : tables) (F : facts) (HC : trysync_conditions T).

  (* the decision step of try_sync is always enabled on an existing object: the call has no waiting point *)
  Lemma trysync_enabled s a ac q rest qq :
    s.(actors) !! a = Some ac -> ac.(stack) = FTS1 q :: rest -> s.(queues) !! q = Some qq -> is_Some (step T F s a).
  Proof.
    intros Ea Est Eq. unfold step. rewrite Ea; cbn. rewrite Est; cbn. rewrite Eq; cbn.
    destruct (t_trysync T (qs qq) (bool_decide (jobs qq = []))) as [st' act]. destruct act; eauto.
  Qed.

  (* what the decision step does: either the object is idle with nothing queued and the caller becomes its owner and goes
     on to run the closure, or NOTHING but the caller's own stack changes (Busy / Panic): queue state, queued jobs,
     schedule, pool and the set of closures that have run are all untouched *)
  Lemma trysync_decision s a ac q rest qq s' :
    s.(actors) !! a = Some ac -> ac.(stack) = FTS1 q :: rest -> s.(queues) !! q = Some qq -> step T F s a = Some s' ->
    (qq.(qs) = Idle /\ qq.(jobs) = [] /\
       s' = setstack (updq (updq s q (fun x => x <| qs := Running |>)) q (fun x => x <| owner := Some a |>)) a (FSIrun q :: rest))
    \/ ((qq.(qs) <> Idle \/ qq.(jobs) <> []) /\ s' = setstack s a rest).
  Proof.
    intros Ea Est Eq Hstep. unfold step in Hstep. rewrite Ea in Hstep; cbn in Hstep. rewrite Est in Hstep; cbn in Hstep. rewrite Eq in Hstep; cbn in Hstep.
    destruct (t_trysync T (qs qq) (bool_decide (jobs qq = []))) as [st' act] eqn:E. destruct act; injection Hstep as <-.
    - apply (ts_imm_only_idle_empty _ HC) in E as (E1 & E2 & ->). left. apply bool_decide_eq_true in E2. done.
    - pose proof (ts_busy_unchanged _ HC _ _ _ E) as ->. right. rewrite (updq_same _ _ _ Eq). split; [|done].
      destruct (decide (qs qq = Idle)) as [Hi|]; [|by left]. right. intros Hj.
      rewrite Hi in E. rewrite bool_decide_eq_true_2 in E by done. rewrite (ts_idle_empty_imm _ HC) in E. congruence.
    - pose proof (ts_panic_unchanged _ HC _ _ _ E) as (-> & Hp). right. rewrite (updq_same _ _ _ Eq). split; [|done]. left. congruence.
  Qed.

  Lemma trysync_succeeds_when_idle s a ac q rest qq :
    s.(actors) !! a = Some ac -> ac.(stack) = FTS1 q :: rest -> s.(queues) !! q = Some qq -> qq.(qs) = Idle -> qq.(jobs) = [] ->
    exists s', step T F s a = Some s' /\ (stack <$> (s'.(actors) !! a)) = Some (FSIrun q :: rest).
  Proof.
    intros Ea Est Eq Hi Hj. destruct (trysync_enabled s a ac q rest qq Ea Est Eq) as [s' Hs]. exists s'. split; [done|].
    destruct (trysync_decision s a ac q rest qq s' Ea Est Eq Hs) as [(_ & _ & ->)|([?|?] & _)]; [|done|done].
    unfold setstack, upda, updq; cbn. rewrite list_lookup_alter, Ea. done.
  Qed.
End TrySync.

(* in every reachable state an object that holds no job and has no runner is Idle (so try_sync on it succeeds) *)
Section Quiescent.
  Context (T : tables) (F : facts) (HK : core_tables T) (HT : own_conditions T).

  Theorem quiescent_object_is_idle nq mx scripts tr s q qq :
    run T F (init nq mx scripts) tr = Some s -> s.(queues) !! q = Some qq -> qq.(jobs) = [] -> qq.(owner) = None -> qq.(qs) = Idle.
  Proof.
    intros Hr Hq Hj Ho.
    assert (H3 : Shape s /\ Inv s /\ QInv s).
    { revert Hr. apply (run_invariant T F (fun s => Shape s /\ Inv s /\ QInv s)); [|split_and!; [apply init_shape|apply init_inv|apply init_q]].
      intros s0 a s1 (A & B & C) E. split_and!; [by eapply step_shape|by eapply step_inv|by eapply step_q]. }
    destruct H3 as (HS & HI & HQ). destruct (HQ q qq Hq) as [[Hc|[Hc|Hc]] Hp _]; [done| |].
    - destruct (Hp Hc) as [Hne _]. done.
    - apply (inv_state _ HI q qq Hq) in Hc. rewrite Ho in Hc. by destruct Hc.
  Qed.
End Quiescent.

Print Assumptions trysync_decision.
Print Assumptions quiescent_object_is_idle.
