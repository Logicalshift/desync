(* What one step of the model does, said once: an induction principle for traces, the wake-up relation
   (all that notify and run_job may do to the other actors), and an inversion of [step] into its control paths. *)
From stdpp Require Import list numbers option.
From RecordUpdate Require Import RecordUpdate.
From L1 Require Import Model.

Lemma mine_true h a : mine h a = true -> h = Some a.
Proof. destruct h; cbn; [|done]. intros H%bool_decide_eq_true. by subst. Qed.
Lemma free_true h : free h = true -> h = None.
Proof. by destruct h. Qed.

Lemma fmap_alter_at {A B} (f : A -> B) (g : A -> A) (i : nat) (l : list A) x :
  l !! i = Some x -> f (g x) = f x -> f <$> alter g i l = f <$> l.
Proof.
  intros Hx Hf. apply list_eq. intros j. rewrite !list_lookup_fmap. destruct (decide (i = j)) as [<-|]; [|by rewrite list_lookup_alter_ne].
  rewrite list_lookup_alter, Hx. cbn. by rewrite Hf.
Qed.
Lemma fmap_alter_same {A B} (f : A -> B) (g : A -> A) (i : nat) (l : list A) : (forall x, f (g x) = f x) -> f <$> alter g i l = f <$> l.
Proof. intros H. revert i. induction l as [|x l IH]; intros [|i]; csimpl; by rewrite ?H, ?IH. Qed.
Lemma fmap_alter_const {A B} (f : A -> B) (g : A -> A) (i : nat) (l : list A) y : (forall x, f (g x) = y) -> f <$> alter g i l = <[i := y]> (f <$> l).
Proof. intros H. revert i. induction l as [|x l IH]; intros [|i]; csimpl; by rewrite ?H, ?IH. Qed.

Lemma length_actors_upda s a f : length (upda s a f).(actors) = length s.(actors).
Proof. unfold upda; cbn. by rewrite alter_length. Qed.
Lemma length_actors_setstack s a st : length (setstack s a st).(actors) = length s.(actors).
Proof. apply length_actors_upda. Qed.

(* [aw_awake]: the ready flag is raised together with the wake-up, so nobody waits with its job done. *)
Record awoken (x' x : actor) : Prop := {
  aw_stack : x'.(stack) = x.(stack) \/ exists q r, x.(stack) = FSBwait q :: r /\ x'.(stack) = FSBwoken q :: r;
  aw_opctr : x'.(opctr) = x.(opctr);
  aw_ready : x.(ready) = true -> x'.(ready) = true;
  aw_result : x.(result) = true -> x'.(result) = true;
  aw_kicked : x.(kicked) = true -> x'.(kicked) = true;
  aw_awake : x.(ready) = false -> x'.(ready) = true -> forall q, hd_error x'.(stack) <> Some (FSBwait q);
}.
Record woken (m s : state) : Prop := {
  wk_queues : m.(queues) = s.(queues);
  wk_sched : m.(sched) = s.(sched);
  wk_sched_held : m.(sched_held) = s.(sched_held);
  wk_threads : m.(threads) = s.(threads);
  wk_threads_held : m.(threads_held) = s.(threads_held);
  wk_maxt : m.(maxt) = s.(maxt);
  wk_nextop : m.(nextop) = s.(nextop);
  wk_actors : Forall2 awoken m.(actors) s.(actors);
}.

Lemma awoken_refl x : awoken x x.
Proof. split; try done; [by left|congruence]. Qed.
Lemma awoken_trans x'' x' x : awoken x'' x' -> awoken x' x -> awoken x'' x.
Proof.
  intros [S1 O1 R1 U1 K1 A1] [S2 O2 R2 U2 K2 A2]. split; [|congruence|auto..|].
  - destruct S2 as [S2|(q & r & E1 & E2)]; [by rewrite <- S2|].
    right. exists q, r. split; [done|]. destruct S1 as [S1|(q' & r' & E3 & E4)]; congruence.
  - intros H0 H2 q Hq. destruct (ready x') eqn:H1.
    + apply (A2 H0 eq_refl q). destruct S1 as [S1|(q' & r' & E3 & E4)]; [by rewrite <- S1|by rewrite E4 in Hq].
    + by apply (A1 eq_refl H2 q).
Qed.
Lemma woken_refl s : woken s s.
Proof. split; try done. apply Forall2_same_length_lookup_2; [done|]. intros i x y -> [= ->]. apply awoken_refl. Qed.
Lemma woken_trans m' m s : woken m' m -> woken m s -> woken m' s.
Proof.
  intros [] []. split; try congruence. eapply Forall2_transitive; [|done..]. intros ???; apply awoken_trans.
Qed.
Lemma woken_ran s r : woken (s <| ran := r |>) s.
Proof. destruct (woken_refl s). by split. Qed.

Lemma woken_length m s : woken m s -> length m.(actors) = length s.(actors).
Proof. intros []. by eapply Forall2_length. Qed.
Lemma woken_lookup m s b x : woken m s -> s.(actors) !! b = Some x -> exists x', m.(actors) !! b = Some x' /\ awoken x' x.
Proof. intros [] Hx. by eapply Forall2_lookup_r. Qed.
Lemma woken_lookup_r m s b x' : woken m s -> m.(actors) !! b = Some x' -> exists x, s.(actors) !! b = Some x /\ awoken x' x.
Proof. intros [] Hx. by eapply Forall2_lookup_l. Qed.
Definition not_waiting (st : list frame) : Prop := match st with FSBwait _ :: _ => False | _ => True end.
Lemma awoken_stack x' x : awoken x' x -> not_waiting x.(stack) -> x'.(stack) = x.(stack).
Proof. intros [[?|(q & r & E & _)] _ _ _ _ _] Hnw; [done|]. by rewrite E in Hnw. Qed.
Lemma woken_self m s a ac : woken m s -> s.(actors) !! a = Some ac -> not_waiting ac.(stack) ->
  exists ac1, m.(actors) !! a = Some ac1 /\ ac1.(stack) = ac.(stack).
Proof. intros Hw Ea Hnw. destruct (woken_lookup _ _ _ _ Hw Ea) as (x & Hx & Hxx). exists x. split; [done|]. by apply awoken_stack. Qed.

Lemma woken_alter s w g r : (forall x, s.(actors) !! w = Some x -> awoken (g x) x) ->
  woken (s <| actors := alter g w s.(actors) |> <| ran := r |>) s.
Proof.
  intros Hg. split; try done. cbn. apply Forall2_same_length_lookup_2; [by rewrite alter_length|].
  intros i x' x Hx' Hx. destruct (decide (w = i)) as [->|].
  - rewrite list_lookup_alter, Hx in Hx'. injection Hx' as <-. by apply Hg.
  - rewrite list_lookup_alter_ne, Hx in Hx' by done. injection Hx' as <-. apply awoken_refl.
Qed.

(* the common part of notify and run_job: raise flags of [w], then wake it if it waits *)
Definition wake (s : state) (w : nat) : state :=
  match s.(actors) !! w with
  | Some aw => match aw.(stack) with FSBwait q :: rest => setstack s w (FSBwoken q :: rest) | _ => s end
  | None => s
  end.
Lemma wake_elim (P : state -> Prop) s w :
  P s -> (forall aw q rest, s.(actors) !! w = Some aw -> aw.(stack) = FSBwait q :: rest -> P (setstack s w (FSBwoken q :: rest))) ->
  P (wake s w).
Proof.
  intros H0 H1. unfold wake. destruct (actors s !! w) as [aw|] eqn:Ew; [|done].
  destruct (stack aw) as [|[] rest] eqn:Es; try done. by eapply H1.
Qed.
Lemma notify_wake F s w : notify F s w = wake (if f_sticky_notify F then upda s w (fun x => x <| kicked := true |>) else s) w.
Proof. done. Qed.
Lemma run_job_bg F s o c :
  run_job F s (JSyncBg o c) = wake (upda (s <| ran := o :: ran s |>) c (fun x => x <| result := true |> <| ready := true |>)) c.
Proof. done. Qed.
Lemma foldl_notify_keeps (P : state -> Prop) F :
  (forall s w, P s -> P (upda s w (fun x => x <| kicked := true |>))) ->
  (forall s w aw q rest, s.(actors) !! w = Some aw -> aw.(stack) = FSBwait q :: rest -> P s -> P (setstack s w (FSBwoken q :: rest))) ->
  forall ws s, P s -> P (foldl (notify F) s ws).
Proof.
  intros Hk Hw ws. induction ws as [|w ws IH]; intros s HP; [done|]. apply IH.
  cbn [foldl]. rewrite notify_wake. apply wake_elim; [by destruct (f_sticky_notify F); auto|]. intros aw q rest Ew Es. eapply Hw; [done..|].
  destruct (f_sticky_notify F); auto.
Qed.

Lemma woken_raise_wake s w f :
  (forall x, (f x).(stack) = x.(stack) /\ (f x).(opctr) = x.(opctr) /\ (x.(ready) = true -> (f x).(ready) = true) /\
             (x.(result) = true -> (f x).(result) = true) /\ (x.(kicked) = true -> (f x).(kicked) = true)) ->
  woken (wake (upda s w f) w) s.
Proof.
  intros Hf. unfold wake. change (actors (upda s w f)) with (alter f w (actors s)). rewrite list_lookup_alter.
  assert (Hs1 : upda s w f = s <| actors := alter f w (actors s) |> <| ran := ran s |>) by (by destruct s).
  destruct (actors s !! w) as [x|] eqn:Ex; cbn; [|rewrite Hs1; apply woken_alter; congruence].
  destruct (Hf x) as (Hs & Ho & Hr & Hu & Hk).
  assert (Hkeep : (forall q, hd_error (stack (f x)) <> Some (FSBwait q)) -> woken (upda s w f) s).
  { intros Hnw. rewrite Hs1. apply woken_alter. rewrite Ex. intros ? [= <-]. split; [by left|done..|]. intros _ _. apply Hnw. }
  destruct (stack (f x)) as [|[] rest] eqn:Es; try by apply Hkeep.
  replace (setstack (upda s w f) w (FSBwoken q :: rest))
    with (s <| actors := alter ((fun y => y <| stack := FSBwoken q :: rest |>) ∘ f) w (actors s) |> <| ran := ran s |>)
    by (unfold setstack, upda; destruct s; cbn; by rewrite list_alter_compose).
  apply woken_alter. rewrite Ex. intros ? [= <-]. split; cbn; auto. right. exists q, rest. by rewrite <- Hs.
Qed.
Lemma woken_wake s w : woken (wake s w) s.
Proof.
  unfold wake. destruct (actors s !! w) as [x|] eqn:Ex; [|apply woken_refl].
  destruct (stack x) as [|[] rest] eqn:Es; try apply woken_refl.
  replace (setstack s w (FSBwoken q :: rest)) with (s <| actors := alter (fun y => y <| stack := FSBwoken q :: rest |>) w (actors s) |> <| ran := ran s |>)
    by (by destruct s).
  apply woken_alter. rewrite Ex. intros ? [= <-]. split; cbn; auto. right. by exists q, rest.
Qed.

Lemma woken_notify F s w : woken (notify F s w) s.
Proof.
  rewrite notify_wake.
  destruct (f_sticky_notify F); [by apply woken_raise_wake|apply woken_wake].
Qed.
Lemma woken_foldl_notify F ws s : woken (foldl (notify F) s ws) s.
Proof. revert s; induction ws as [|w ws IH]; intros s; cbn; [apply woken_refl|]. eapply woken_trans; [apply IH|apply woken_notify]. Qed.
Lemma woken_run_job F s j : woken (run_job F s j) s.
Proof.
  destruct j as [o|o c|o c].
  - apply woken_ran.
  - refine (woken_alter s c _ (o :: ran s) _). intros x _. split; cbn; auto. congruence.
  - rewrite run_job_bg.
    eapply woken_trans; [by apply woken_raise_wake|apply woken_ran].
Qed.

(* schedule_thread adds a dormant pool thread, with its actor *)
Definition spawn (s : state) : state :=
  s <| threads := s.(threads) ++ [ {| busy := false; held := false; chan := 0; tactor := length s.(actors) |} ] |>
    <| actors := s.(actors) ++ [ {| stack := [FTrecv (length s.(threads))]; ready := false; result := false; opctr := 0; kicked := false |} ] |>.
Lemma run_job_ready F s o c x : (run_job F s (JSyncBg o c)).(actors) !! c = Some x -> x.(ready) = true.
Proof.
  rewrite run_job_bg.
  unfold wake. set (s1 := upda _ c _).
  assert (H1 : forall y, s1.(actors) !! c = Some y -> ready y = true).
  { intros y. subst s1. unfold upda; cbn. rewrite list_lookup_alter. destruct (actors s !! c); [|done]. by intros [= <-]. }
  clearbody s1. destruct (actors s1 !! c) as [y|] eqn:Ey; [|by rewrite Ey]. specialize (H1 y eq_refl).
  destruct (stack y) as [|[] r]; try (rewrite Ey; by intros [= <-]).
  unfold setstack, upda; cbn. rewrite list_lookup_alter, Ey. by intros [= <-].
Qed.

Definition op_frame (o : op) : frame := match o with ODesync q => FD1 q | OSync q => FS1 q | OTrySync q => FTS1 q end.

Section Step.
  Context (T : tables) (F : facts).

  Lemma run_none tr : foldl (fun os a => o ← os; step T F o a) None tr = None.
  Proof. induction tr; cbn; done. Qed.
  Lemma run_invariant (P : state -> Prop) :
    (forall s a s', P s -> step T F s a = Some s' -> P s') ->
    forall tr s0 s, P s0 -> foldl (fun os a => o ← os; step T F o a) (Some s0) tr = Some s -> P s.
  Proof.
    intros Hstep. induction tr as [|a tr IH]; intros s0 s H0; cbn; [by intros [= <-]|].
    destruct (step T F s0 a) as [s1|] eqn:E; cbn; [by eapply IH, Hstep|by rewrite run_none].
  Qed.

  (* [eff s a ac fr m new]: actor [a], whose record is [ac] and whose top frame is [fr], turns the state into [m]
     and replaces its top frame by the frames [new]; the frames below are never looked at.
     The two functions that wake other actors are parameters, so that the wake-ups can be split off ([eff_wake]). *)
  Inductive eff_gen (rj : state -> job -> state) (nt : state -> list nat -> state)
      (s : state) (a : nat) (ac : actor) : frame -> state -> list frame -> Prop :=
  | E_op o os :
      eff_gen rj nt s a ac (FTop (o :: os))
          (upda (s <| nextop := S s.(nextop) |>) a (fun x => x <| opctr := s.(nextop) |> <| ready := false |> <| result := false |>))
          [op_frame o; FTop os]
  | E_desync_sched q qq st' (Eq : s.(queues) !! q = Some qq) (Etab : T.(t_desync) qq.(qs) = (st', DASchedule)) :
      eff_gen rj nt s a ac (FD1 q) (updq s q (fun x => x <| jobs := x.(jobs) ++ [JPlain ac.(opctr)] |> <| qs := st' |>)) [FD2 q]
  | E_desync q qq st' act (Eq : s.(queues) !! q = Some qq) (Etab : T.(t_desync) qq.(qs) = (st', act)) (Hact : act <> DASchedule) :
      eff_gen rj nt s a ac (FD1 q) (updq s q (fun x => x <| jobs := x.(jobs) ++ [JPlain ac.(opctr)] |> <| qs := st' |>)) []
  | E_sched q (Hfree : s.(sched_held) = None) :
      eff_gen rj nt s a ac (FD2 q) (s <| sched := s.(sched) ++ [q] |>) [FSTlock]
  | E_lock (Hfree : s.(threads_held) = None) :
      eff_gen rj nt s a ac FSTlock (s <| threads_held := Some a |>) [FSTscan 0]
  | E_scan_end i (Hmine : s.(threads_held) = Some a) (Et : s.(threads) !! i = None) :
      eff_gen rj nt s a ac (FSTscan i) (s <| threads_held := None |>) [FSTspawn]
  | E_scan_held i th (Hmine : s.(threads_held) = Some a) (Et : s.(threads) !! i = Some th)
      (Hheld : th.(held) = true) (Hblk : F.(f_dormant_blocks) = false) :
      eff_gen rj nt s a ac (FSTscan i) s [FSTscan (S i)]
  | E_scan_busy i th (Hmine : s.(threads_held) = Some a) (Et : s.(threads) !! i = Some th)
      (Hheld : th.(held) = false) (Hbusy : th.(busy) = true) :
      eff_gen rj nt s a ac (FSTscan i) s [FSTscan (S i)]
  | E_scan_claim i th (Hmine : s.(threads_held) = Some a) (Et : s.(threads) !! i = Some th)
      (Hheld : th.(held) = false) (Hbusy : th.(busy) = false) :
      eff_gen rj nt s a ac (FSTscan i) (updt (s <| threads_held := None |>) i (fun x => x <| busy := true |> <| chan := S x.(chan) |>)) []
  | E_spawn (Hfree : s.(threads_held) = None) (Hroom : length s.(threads) < s.(maxt)) :
      eff_gen rj nt s a ac FSTspawn (spawn s) [FSTlock]
  | E_spawn_full (Hfree : s.(threads_held) = None) (Hroom : ~ length s.(threads) < s.(maxt)) :
      eff_gen rj nt s a ac FSTspawn s []
  | E_sync_now q qq st' (Eq : s.(queues) !! q = Some qq) (Etab : T.(t_sync) qq.(qs) (bool_decide (qq.(jobs) = [])) = (st', SAImmediate)) :
      eff_gen rj nt s a ac (FS1 q) (updq (updq s q (fun x => x <| qs := st' |>)) q (fun x => x <| owner := Some a |>)) [FSIrun q]
  | E_sync_drain q qq st' (Eq : s.(queues) !! q = Some qq) (Etab : T.(t_sync) qq.(qs) (bool_decide (qq.(jobs) = [])) = (st', SADrain)) :
      eff_gen rj nt s a ac (FS1 q) (updq (updq s q (fun x => x <| qs := st' |>)) q (fun x => x <| owner := Some a |>)) [FSDpush q]
  | E_sync_bg q qq st' (Eq : s.(queues) !! q = Some qq) (Etab : T.(t_sync) qq.(qs) (bool_decide (qq.(jobs) = [])) = (st', SABackground)) :
      eff_gen rj nt s a ac (FS1 q) (updq s q (fun x => x <| qs := st' |>)) [FSBreg q]
  | E_sync_panic q qq st' (Eq : s.(queues) !! q = Some qq) (Etab : T.(t_sync) qq.(qs) (bool_decide (qq.(jobs) = [])) = (st', SAPanic)) :
      eff_gen rj nt s a ac (FS1 q) (updq s q (fun x => x <| qs := st' |>)) []
  | E_now_run q : eff_gen rj nt s a ac (FSIrun q) (s <| ran := ac.(opctr) :: s.(ran) |>) [FSIidle q]
  | E_now_idle q : eff_gen rj nt s a ac (FSIidle q) (updq s q (fun x => x <| qs := Idle |> <| owner := None |>)) [FRQ1 q]
  | E_drain_push q : eff_gen rj nt s a ac (FSDpush q) (updq s q (fun x => x <| jobs := x.(jobs) ++ [JSyncDrain ac.(opctr) a] |>)) [FSDloop q]
  | E_drain_done q (Hres : ac.(result) = true) : eff_gen rj nt s a ac (FSDloop q) s [FSDidle q]
  | E_drain_more q (Hres : ac.(result) = false) : eff_gen rj nt s a ac (FSDloop q) s [FROdeq q; FSDloop q]
  | E_drain_idle q : eff_gen rj nt s a ac (FSDidle q) (updq s q (fun x => x <| qs := Idle |> <| owner := None |>)) [FRQ1 q]
  | E_bg_reg q :
      eff_gen rj nt s a ac (FSBreg q)
          (upda (updq s q (fun x => x <| wake_blocked := x.(wake_blocked) ++ [a] |>)) a (fun x => x <| kicked := F.(f_sticky_notify) |>)) [FSBpush q]
  | E_bg_push_idle q qq (Eq : s.(queues) !! q = Some qq) (Hidle : qq.(qs) = Idle) :
      eff_gen rj nt s a ac (FSBpush q) (updq s q (fun x => x <| jobs := x.(jobs) ++ [JSyncBg ac.(opctr) a] |>)) [FRQ1 q; FSBcheck q]
  | E_bg_push q qq (Eq : s.(queues) !! q = Some qq) (Hidle : qq.(qs) <> Idle) :
      eff_gen rj nt s a ac (FSBpush q) (updq s q (fun x => x <| jobs := x.(jobs) ++ [JSyncBg ac.(opctr) a] |>)) [FSBcheck q]
  | E_check_ready q (Hrdy : ac.(ready) = true) : eff_gen rj nt s a ac (FSBcheck q) s [FSBdone q]
  | E_check_kicked q (Hrdy : ac.(ready) = false) (Hkick : ac.(kicked) = true) :
      eff_gen rj nt s a ac (FSBcheck q) (upda s a (fun x => x <| kicked := false |>)) [FSBclaim q]
  | E_check_wait q (Hrdy : ac.(ready) = false) (Hkick : ac.(kicked) = false) : eff_gen rj nt s a ac (FSBcheck q) s [FSBwait q]
  | E_woken_ready q (Hrdy : ac.(ready) = true) : eff_gen rj nt s a ac (FSBwoken q) s [FSBdone q]
  | E_woken_claim q (Hrdy : ac.(ready) = false) : eff_gen rj nt s a ac (FSBwoken q) (upda s a (fun x => x <| kicked := false |>)) [FSBclaim q]
  | E_claim q qq st' (Hfree : s.(sched_held) = None) (Eq : s.(queues) !! q = Some qq) (Etab : T.(t_claim) qq.(qs) = Some st') :
      eff_gen rj nt s a ac (FSBclaim q)
          (updq (s <| sched := filter (fun x => x <> q) s.(sched) |>) q (fun x => x <| qs := st' |> <| owner := Some a |>)) [FSBsteal q]
  | E_claim_none q qq (Hfree : s.(sched_held) = None) (Eq : s.(queues) !! q = Some qq) (Etab : T.(t_claim) qq.(qs) = None) :
      eff_gen rj nt s a ac (FSBclaim q) s [FSBcheck q]
  | E_steal_done q (Hrdy : ac.(ready) = true) : eff_gen rj nt s a ac (FSBsteal q) s [FSBstealidle q]
  | E_steal_more q (Hrdy : ac.(ready) = false) : eff_gen rj nt s a ac (FSBsteal q) s [FROdeq q; FSBsteal q]
  | E_steal_idle q : eff_gen rj nt s a ac (FSBstealidle q) (updq s q (fun x => x <| qs := Idle |> <| owner := None |>)) [FRQ1 q; FSBcheck q]
  | E_bg_done q : eff_gen rj nt s a ac (FSBdone q) (updq s q (fun x => x <| wake_blocked := filter (fun w => w <> a) x.(wake_blocked) |>)) []
  | E_deq_refused q qq (Eq : s.(queues) !! q = Some qq) (Etab : T.(t_dequeue_refuses) qq.(qs) = true) : eff_gen rj nt s a ac (FROdeq q) s []
  | E_deq_empty q qq (Eq : s.(queues) !! q = Some qq) (Etab : T.(t_dequeue_refuses) qq.(qs) = false) (Hjobs : qq.(jobs) = []) :
      eff_gen rj nt s a ac (FROdeq q) s []
  | E_deq q qq j js (Eq : s.(queues) !! q = Some qq) (Etab : T.(t_dequeue_refuses) qq.(qs) = false) (Hjobs : qq.(jobs) = j :: js) :
      eff_gen rj nt s a ac (FROdeq q) (updq s q (fun x => x <| jobs := js |>)) [FROrun q j]
  | E_run q j : eff_gen rj nt s a ac (FROrun q j) (rj s j) []
  | E_try_now q qq st' (Eq : s.(queues) !! q = Some qq) (Etab : T.(t_trysync) qq.(qs) (bool_decide (qq.(jobs) = [])) = (st', TAImmediate)) :
      eff_gen rj nt s a ac (FTS1 q) (updq (updq s q (fun x => x <| qs := st' |>)) q (fun x => x <| owner := Some a |>)) [FSIrun q]
  | E_try_no q qq st' act (Eq : s.(queues) !! q = Some qq) (Etab : T.(t_trysync) qq.(qs) (bool_decide (qq.(jobs) = [])) = (st', act))
      (Hact : act <> TAImmediate) :
      eff_gen rj nt s a ac (FTS1 q) (updq s q (fun x => x <| qs := st' |>)) []
  | E_resched_push q qq st' (Eq : s.(queues) !! q = Some qq)
      (Etab : T.(t_resched) qq.(qs) (negb (bool_decide (qq.(jobs) = []))) = (st', true)) :
      eff_gen rj nt s a ac (FRQ1 q) (updq (nt s qq.(wake_blocked)) q (fun x => x <| qs := st' |>)) [FRQ2 q]
  | E_resched q qq st' (Eq : s.(queues) !! q = Some qq)
      (Etab : T.(t_resched) qq.(qs) (negb (bool_decide (qq.(jobs) = []))) = (st', false)) :
      eff_gen rj nt s a ac (FRQ1 q) (updq (nt s qq.(wake_blocked)) q (fun x => x <| qs := st' |>)) []
  | E_resched_sched q (Hfree : s.(sched_held) = None) :
      eff_gen rj nt s a ac (FRQ2 q) (s <| sched := s.(sched) ++ [q] |>) [FSTlock]
  | E_recv t th n (Et : s.(threads) !! t = Some th) (Hchan : th.(chan) = S n) :
      eff_gen rj nt s a ac (FTrecv t) (updt s t (fun x => x <| chan := n |>)) [FTlock t]
  | E_tlock t : eff_gen rj nt s a ac (FTlock t) (updt s t (fun x => x <| held := true |>)) [FTnext t]
  | E_next t (Hfree : s.(sched_held) = None) : eff_gen rj nt s a ac (FTnext t) (s <| sched_held := Some a |>) [FTexam t]
  | E_exam_none t (Hmine : s.(sched_held) = Some a) (Hsched : s.(sched) = []) :
      eff_gen rj nt s a ac (FTexam t) (s <| sched_held := None |>) [FTrelnone t]
  | E_exam_gone t q sc (Hmine : s.(sched_held) = Some a) (Hsched : s.(sched) = q :: sc) (Eq : s.(queues) !! q = None) :
      eff_gen rj nt s a ac (FTexam t) (s <| sched := sc |>) [FTexam t]
  | E_exam_take t q sc qq st' (Hmine : s.(sched_held) = Some a) (Hsched : s.(sched) = q :: sc) (Eq : s.(queues) !! q = Some qq)
      (Etab : T.(t_next) qq.(qs) = Some st') :
      eff_gen rj nt s a ac (FTexam t)
          (updq (s <| sched := sc |> <| sched_held := None |>) q (fun x => x <| qs := st' |> <| owner := Some a |>)) [FTrelsome t q]
  | E_exam_skip t q sc qq (Hmine : s.(sched_held) = Some a) (Hsched : s.(sched) = q :: sc) (Eq : s.(queues) !! q = Some qq)
      (Etab : T.(t_next) qq.(qs) = None) :
      eff_gen rj nt s a ac (FTexam t) (s <| sched := sc |>) [FTexam t]
  | E_rel_none t : eff_gen rj nt s a ac (FTrelnone t) (updt s t (fun x => x <| busy := false |> <| held := false |>)) [FTrecv t]
  | E_rel_some t q : eff_gen rj nt s a ac (FTrelsome t q) (updt s t (fun x => x <| held := false |>)) [FDRdeq q; FTlock t]
  | E_pdeq_refused q qq (Eq : s.(queues) !! q = Some qq) (Etab : T.(t_dequeue_refuses) qq.(qs) = true) : eff_gen rj nt s a ac (FDRdeq q) s [FDRfin q]
  | E_pdeq_empty q qq (Eq : s.(queues) !! q = Some qq) (Etab : T.(t_dequeue_refuses) qq.(qs) = false) (Hjobs : qq.(jobs) = []) :
      eff_gen rj nt s a ac (FDRdeq q) s [FDRfin q]
  | E_pdeq q qq j js (Eq : s.(queues) !! q = Some qq) (Etab : T.(t_dequeue_refuses) qq.(qs) = false) (Hjobs : qq.(jobs) = j :: js) :
      eff_gen rj nt s a ac (FDRdeq q) (updq s q (fun x => x <| jobs := js |>)) [FDRrun q j]
  | E_prun q j : eff_gen rj nt s a ac (FDRrun q j) (rj s j) [FDRdeq q]
  | E_fin_done q qq st' (Eq : s.(queues) !! q = Some qq) (Etab : T.(t_drain_fin) qq.(qs) (bool_decide (qq.(jobs) = [])) = (st', true)) :
      eff_gen rj nt s a ac (FDRfin q) (updq (updq s q (fun x => x <| qs := st' |>)) q (fun x => x <| owner := None |>)) []
  | E_fin_more q qq st' (Eq : s.(queues) !! q = Some qq) (Etab : T.(t_drain_fin) qq.(qs) (bool_decide (qq.(jobs) = [])) = (st', false)) :
      eff_gen rj nt s a ac (FDRfin q) (updq s q (fun x => x <| qs := st' |>)) [FDRdeq q].
  Definition eff : state -> nat -> actor -> frame -> state -> list frame -> Prop := eff_gen (run_job F) (foldl (notify F)).

  Lemma step_eff s a s' : step T F s a = Some s' ->
    exists ac fr rest m new, s.(actors) !! a = Some ac /\ ac.(stack) = fr :: rest /\ eff s a ac fr m new /\ s' = setstack m a (new ++ rest).
  Proof.
    intros Hstep. unfold step in Hstep.
    destruct (actors s !! a) as [ac|] eqn:Ea; cbn in Hstep; [|congruence].
    destruct (stack ac) as [|fr rest] eqn:Est; [congruence|].
    exists ac, fr, rest.
    destruct fr.
    all: cbn beta iota zeta in Hstep.
    1: { (* FTop *) destruct script as [|o os]; [done|]. do 2 eexists. split; [done|]. split; [done|]. split; [apply E_op|]. by destruct o; injection Hstep as <-. }
    all: repeat (first
         [ match type of Hstep with
           | context [queues _ !! ?q] => let E := fresh "Eq" in destruct (queues s !! q) as [qq|] eqn:E; cbn in Hstep
           | context [threads _ !! ?t] => let E := fresh "Et" in destruct (threads s !! t) as [th|] eqn:E; cbn in Hstep
           end
         | match type of Hstep with context [match ?x with _ => _ end] => let E := fresh "E" in destruct x eqn:E end; cbn in Hstep; try congruence ]).
    all: try discriminate.
    all: injection Hstep as <-.
    all: repeat match goal with
         | H : negb (mine ?h ?a) = false |- _ => apply negb_false_iff, mine_true in H
         | H : negb (free ?h) = false |- _ => apply negb_false_iff, free_true in H
         | H : free ?h = true |- _ => apply free_true in H
         | H : bool_decide _ = true |- _ => apply bool_decide_eq_true in H
         | H : bool_decide _ = false |- _ => apply bool_decide_eq_false in H
         end.
    all: do 2 eexists; split; [done|]; split; [done|].
    all: split; [econstructor; first [eassumption | congruence | by destruct (qs qq)] | reflexivity].
  Qed.
  Lemma eff_queues_length s a ac fr m new : eff s a ac fr m new -> length m.(queues) = length s.(queues).
  Proof.
    destruct 1; cbn; rewrite ?alter_length; try done.
    - (* E_run *) by rewrite (wk_queues _ _ (woken_run_job F s j)).
    - (* E_resched_push *) by rewrite (wk_queues _ _ (woken_foldl_notify F _ s)).
    - (* E_resched *) by rewrite (wk_queues _ _ (woken_foldl_notify F _ s)).
    - (* E_prun *) by rewrite (wk_queues _ _ (woken_run_job F s j)).
  Qed.
  Lemma eff_actors s a ac fr m new : eff s a ac fr m new ->
    exists w sp, woken w s /\ stack <$> m.(actors) = (stack <$> w.(actors)) ++ sp /\
      ((sp = [] /\ length m.(threads) = length s.(threads)) \/
       (sp = [[FTrecv (length s.(threads))]] /\ fr = FSTspawn /\ new = [FSTlock] /\ s.(threads_held) = None /\
        length s.(threads) < s.(maxt) /\ m = spawn s)).
  Proof.
    destruct 1;
      lazymatch goal with
      | |- context [run_job ?F ?s ?j] => exists (run_job F s j), []; split; [apply woken_run_job|]
      | |- context [foldl (notify ?F) ?s ?ws] => exists (foldl (notify F) s ws), []; split; [apply woken_foldl_notify|]
      | _ : _ < maxt _ |- _ => exists s, [[FTrecv (length s.(threads))]]; split; [apply woken_refl|]
      | _ => exists s, []; split; [apply woken_refl|]
      end.
    all: split; [rewrite ?app_nil_r; first [done | by apply (fmap_alter_same stack) | cbn; by rewrite fmap_app]|].
    all: first [left; split; [done|]; cbn; rewrite ?alter_length; first [done | by rewrite (wk_threads _ _ (woken_run_job F s j)) | by rewrite (wk_threads _ _ (woken_foldl_notify F _ s))] | by right].
  Qed.
  Lemma eff_maxt s a ac fr m new : eff s a ac fr m new -> m.(maxt) = s.(maxt).
  Proof. destruct 1; first [done | apply wk_maxt, woken_run_job | apply (wk_maxt _ _ (woken_foldl_notify F _ s))]. Qed.
  Lemma eff_not_wait s a ac fr m new : eff s a ac fr m new -> forall q, fr <> FSBwait q.
  Proof. intros He q H. destruct He; discriminate H. Qed.
  Lemma eff_self s a ac fr rest m new : eff s a ac fr m new -> s.(actors) !! a = Some ac -> ac.(stack) = fr :: rest ->
    exists ac', m.(actors) !! a = Some ac' /\ ac'.(stack) = fr :: rest.
  Proof.
    intros He Ea Est. destruct (eff_actors _ _ _ _ _ _ He) as (w & sp & Hw & Hst & _).
    destruct (woken_self _ _ _ _ Hw Ea) as (x & Hx & Hxx).
    { rewrite Est. destruct fr; try done. by destruct (eff_not_wait _ _ _ _ _ _ He q). }
    assert (H : (stack <$> actors m) !! a = Some (fr :: rest)).
    { rewrite Hst. apply lookup_app_l_Some. by rewrite list_lookup_fmap, Hx, <- Est, <- Hxx. }
    rewrite list_lookup_fmap in H. destruct (actors m !! a) as [ac'|]; [|done]. injection H as H. eauto.
  Qed.
  Lemma eff_wake s a ac fr rest m new : eff s a ac fr m new -> s.(actors) !! a = Some ac -> ac.(stack) = fr :: rest ->
    exists w ac1, woken w s /\ w.(actors) !! a = Some ac1 /\ ac1.(stack) = ac.(stack) /\
      eff_gen (fun x _ => x) (fun x _ => x) w a ac1 fr m new /\
      forall q o c x, fr = FROrun q (JSyncBg o c) \/ fr = FDRrun q (JSyncBg o c) -> w.(actors) !! c = Some x -> x.(ready) = true.
  Proof.
    intros He Ea Est.
    assert (Hself : forall w, woken w s -> not_waiting ac.(stack) -> exists ac1, w.(actors) !! a = Some ac1 /\ ac1.(stack) = ac.(stack))
      by (intros w Hw Hnw; by apply (woken_self w s)).
    destruct He;
      lazymatch goal with
      | |- context [run_job ?F ?s ?j] =>
          pose proof (woken_run_job F s j) as Hw; destruct (Hself _ Hw) as (ac1 & Ea1 & Est1); [by rewrite Est|]; exists (run_job F s j), ac1
      | |- context [foldl (notify ?F) ?s ?ws] =>
          pose proof (woken_foldl_notify F ws s) as Hw; destruct (Hself _ Hw) as (ac1 & Ea1 & Est1); [by rewrite Est|];
          exists (foldl (notify F) s ws), ac1; rewrite <- (wk_queues _ _ Hw) in Eq
      | _ => pose proof (woken_refl s) as Hw; exists s, ac
      end.
    all: split; [done|]; split; [done|]; split; [done|].
    all: split; [|intros ? ? ? ? [[=]|[=]]; subst; by eapply run_job_ready]; try by econstructor.
    - exact (E_run _ _ _ _ _ q j).
    - exact (E_resched_push _ _ _ _ _ q qq st' Eq Etab).
    - exact (E_resched _ _ _ _ _ q qq st' Eq Etab).
    - exact (E_prun _ _ _ _ _ q j).
  Qed.
  Lemma eff_step s a ac fr rest m new : eff s a ac fr m new -> s.(actors) !! a = Some ac -> ac.(stack) = fr :: rest ->
    step T F s a = Some (setstack m a (new ++ rest)).
  Proof.
    intros He Ea Est. unfold step. rewrite Ea. cbn. rewrite Est.
    destruct He; cbn beta iota zeta.
    all: rewrite ?Eq, ?Et; cbn; rewrite ?Etab, ?Hfree, ?Hmine, ?Hsched, ?Hheld, ?Hbusy, ?Hblk, ?Hres, ?Hrdy, ?Hkick, ?Hchan, ?Hjobs, ?Eq; cbn;
         rewrite ?bool_decide_true by done; cbn; rewrite ?Etab; try done.
    - (* E_op *) by destruct o.
    - (* E_desync *) by destruct act.
    - (* E_spawn *) by rewrite decide_True.
    - (* E_spawn_full *) by rewrite decide_False.
    - (* E_bg_push_idle *) by rewrite Hidle.
    - (* E_bg_push *) by destruct (qs qq).
    - (* E_try_no *) by destruct act.
  Qed.
End Step.
