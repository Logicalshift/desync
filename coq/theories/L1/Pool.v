(* The pool of threads never exceeds its maximum (C17); needs no invariant but the shape of a step. *)
From stdpp Require Import list numbers option.
From RecordUpdate Require Import RecordUpdate.
From L1 Require Import Model Own Shape Stuck.


Definition same_pool (s1 s : state) : Prop := threads s1 = threads s /\ maxt s1 = maxt s /\ length (actors s1) = length (actors s).
Lemma woken_same_pool m s : woken m s -> same_pool m s.
Proof. intros Hw. split; [apply Hw|]. split; [apply Hw|by apply woken_length]. Qed.
Lemma foldl_notify_pool F ws s : same_pool (foldl (notify F) s ws) s.
Proof. apply woken_same_pool, woken_foldl_notify. Qed.
Lemma run_job_pool F s j : same_pool (run_job F s j) s.
Proof. apply woken_same_pool, woken_run_job. Qed.

(* the pool never exceeds its maximum (C17), for arbitrary tables and facts *)
Section Pool.
  Context (T : tables) (F : facts).

  Lemma step_threads s a s' : step T F s a = Some s' ->
    s'.(maxt) = s.(maxt) /\
    ((length s'.(threads) = length s.(threads) /\ length s'.(actors) = length s.(actors)) \/
     (length s.(threads) < s.(maxt) /\ length s'.(threads) = S (length s.(threads)) /\ length s'.(actors) = S (length s.(actors)))).
  Proof.
    intros (ac & fr & rest & m & new & Ea & Est & He & ->)%step_eff. split; [exact (eff_maxt _ _ _ _ _ _ _ _ He)|].
    rewrite length_actors_setstack. change (threads (setstack m a (new ++ rest))) with (threads m).
    destruct (eff_actors _ _ _ _ _ _ _ _ He) as (w & sp & Hw & Hst & [[-> Hlen]|(_ & _ & _ & _ & Hroom & ->)]).
    - left. split; [done|]. apply (f_equal length) in Hst. rewrite app_nil_r, !fmap_length in Hst. by rewrite Hst, (woken_length _ _ Hw).
    - right. split; [done|]. unfold spawn; cbn. rewrite !app_length; cbn. lia.
  Qed.

  Definition pool_bounded (s : state) : Prop := length s.(threads) <= s.(maxt).

  Lemma step_pool_bounded s a s' : pool_bounded s -> step T F s a = Some s' -> pool_bounded s'.
  Proof. unfold pool_bounded. intros H Hs. destruct (step_threads _ _ _ Hs) as (Hm & [(Ht & _)|(Hlt & Ht & _)]); lia. Qed.

  Definition run' (s : state) (tr : list nat) : option state := foldl (fun os a => o ← os; step T F o a) (Some s) tr.

  Lemma run_threads s tr s' : run' s tr = Some s' ->
    s'.(maxt) = s.(maxt) /\ (pool_bounded s -> pool_bounded s') /\
    length s'.(actors) + length s.(threads) = length s.(actors) + length s'.(threads).
  Proof.
    apply (run_invariant T F (fun s' => s'.(maxt) = s.(maxt) /\ (pool_bounded s -> pool_bounded s') /\
                                        length s'.(actors) + length s.(threads) = length s.(actors) + length s'.(threads))); [|done].
    intros s0 a s1 (Hm & Hb & Hl) E. destruct (step_threads _ _ _ E) as (Hm1 & Hc).
    split; [congruence|]. split; [intros H0; exact (step_pool_bounded s0 a s1 (Hb H0) E)|]. destruct Hc as [(?&?)|(?&?&?)]; lia.
  Qed.

  (* every reachable state of every program respects the maximum; with a maximum of zero there is no pool thread
     and no actor beyond the callers *)
  Theorem reachable_pool_bounded nq mx scripts tr s :
    run' (init nq mx scripts) tr = Some s ->
    length s.(threads) <= mx /\ s.(maxt) = mx /\ length s.(actors) = length scripts + length s.(threads).
  Proof.
    intros Hr. destruct (run_threads _ _ _ Hr) as (Hm & Hb & Hl). cbn in *.
    rewrite fmap_length in Hl. split; [|split; [done|lia]].
    rewrite <- Hm. apply Hb. unfold pool_bounded; cbn; lia.
  Qed.

  Corollary no_pool_without_maximum nq scripts tr s :
    run' (init nq 0 scripts) tr = Some s -> s.(threads) = [] /\ length s.(actors) = length scripts.
  Proof.
    intros Hr. destruct (reachable_pool_bounded _ _ _ _ _ Hr) as (H1 & _ & H2).
    destruct (threads s); cbn in *; [split; [done|lia]|lia].
  Qed.
End Pool.

Print Assumptions reachable_pool_bounded.
