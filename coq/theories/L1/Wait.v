(* Where is the job of a caller that loops until its own job has run?  One invariant, LInv, stated with jpos, in_hand,
   jloc, jflags: a new invariant of this kind should use these.  JInv (here: wp_q, run_top, located, readys) and GInv
   (L1b/JobLoc.v: pos, run_at, locq, flg, mine) are its two instances, kept under their names because theorems are stated
   with them; JInv_LInv and GInv_LInv translate. *)
From stdpp Require Import list numbers option.
From RecordUpdate Require Import RecordUpdate.
From L1 Require Import Model Own Shape Stuck Live.

Definition wp_q (st : list frame) : option nat :=
  match st with
  | FSBcheck q :: _ | FSBwait q :: _ | FSBwoken q :: _ | FSBclaim q :: _ | FSBsteal q :: _ | FSBstealidle q :: _ => Some q
  | _ :: FSBcheck q :: _ | _ :: FSBsteal q :: _ => Some q
  | _ => None
  end.
Definition run_top (st : list frame) (j : job) : Prop := exists q', hd_error st = Some (FROrun q' j) \/ hd_error st = Some (FDRrun q' j).
Definition located (s : state) (w q : nat) : Prop :=
  (exists qq o, s.(queues) !! q = Some qq /\ JSyncBg o w ∈ qq.(jobs)) \/
  (exists b st o, stacks s !! b = Some st /\ run_top st (JSyncBg o w)).
Definition readys (s : state) : list bool := ready <$> s.(actors).
Record JClauses (s : state) (w : nat) (ac : actor) : Prop := {
  j_loc : forall q, wp_q ac.(stack) = Some q -> ac.(ready) = false -> located s w q;
  j_wait : forall q, hd_error ac.(stack) = Some (FSBwait q) -> ac.(ready) = false;
}.
Definition JInv (s : state) : Prop := forall w ac, s.(actors) !! w = Some ac -> JClauses s w ac.

Definition is_run (fr : frame) : bool := match fr with FROrun _ _ | FDRrun _ _ => true | _ => false end.

(* [k = true]: a waiter of sync_background (flag `ready`, positions wp_q, jobs JSyncBg);
   [k = false]: a draining sync (flag `result`, frame FSDloop and its callee, jobs JSyncDrain).
   While the flag is false the job is in the queue the caller works on, or in the hand of an actor - with [tie], of an
   actor that runs THAT queue.  With [wt], nobody is inside the condition-variable wait with its flag set.
   JInv is the instance (true, false, true); the step bound (L1b) uses (k, true, false) for both k. *)
Definition dpos (st : list frame) : option nat :=
  match st with
  | FSDloop q :: _ => Some q
  | _ :: FSDloop q :: _ => Some q
  | _ => None
  end.
Definition in_hand (q : nat) (st : list frame) (j : job) : Prop :=
  hd_error st = Some (FROrun q j) \/ hd_error st = Some (FDRrun q j).

Lemma in_hand_inj q q' st j j' : in_hand q st j -> in_hand q' st j' -> q = q' /\ j = j'.
Proof. intros [H1|H1] [H2|H2]; rewrite H1 in H2; by injection H2. Qed.
Lemma in_hand_not_waiting q st j : in_hand q st j -> not_waiting st.
Proof. by intros [H|H]; destruct st as [|[] ?]. Qed.

Section Kind.
  Context (k tie wt : bool).
  Definition jflag (ac : actor) : bool := if k then ac.(ready) else ac.(result).
  Definition jpos (st : list frame) : option nat := if k then wp_q st else dpos st.
  Definition own (w : nat) (j : job) : bool :=
    match j with
    | JSyncBg _ c => k && bool_decide (c = w)
    | JSyncDrain _ c => negb k && bool_decide (c = w)
    | JPlain _ => false
    end.
  Definition jloc (s : state) (w q : nat) : Prop :=
    (exists qq j, s.(queues) !! q = Some qq /\ j ∈ qq.(jobs) /\ own w j = true) \/
    (exists b st q' j, stacks s !! b = Some st /\ in_hand q' st j /\ (tie = true -> q' = q) /\ own w j = true).
  Definition jflags (s : state) : list bool := jflag <$> s.(actors).
  Record LClauses (s : state) (w : nat) (ac : actor) : Prop := {
    l_loc : forall q, jpos ac.(stack) = Some q -> jflag ac = false -> jloc s w q;
    l_wait : wt = true -> forall q, hd_error ac.(stack) = Some (FSBwait q) -> jflag ac = false;
  }.
  Definition LInv (s : state) : Prop := forall w ac, s.(actors) !! w = Some ac -> LClauses s w ac.

  Definition jobs_mono (s s' : state) : Prop :=
    forall q0 qq j w, s.(queues) !! q0 = Some qq -> j ∈ qq.(jobs) -> own w j = true -> exists qq', s'.(queues) !! q0 = Some qq' /\ j ∈ qq'.(jobs).
  Definition hand_free (st : list frame) : Prop := forall q j w, in_hand q st j -> own w j = false.
  Lemma jobs_mono_refl s s' : s'.(queues) = s.(queues) -> jobs_mono s s'.
  Proof. intros Hq q0 qq j w H1 H2 _. rewrite Hq. eauto. Qed.

  Lemma jloc_mono s s' a ac newst w q :
    s.(actors) !! a = Some ac -> stacks s' = <[a := newst]> (stacks s) -> jobs_mono s s' ->
    (forall q' j, in_hand q' ac.(stack) j -> own w j = false) ->
    jloc s w q -> jloc s' w q.
  Proof.
    intros Ea Hst Hjobs Hnr [(qq & j & Hq & Hin & Hm)|(b & st & q' & j & Hb & Hr & Ht & Hm)].
    - left. destruct (Hjobs q qq j w Hq Hin Hm) as (qq' & H1 & H2). eauto.
    - right. exists b, st, q', j. split; [|done]. rewrite Hst. destruct (decide (a = b)) as [->|]; [|by rewrite list_lookup_insert_ne].
      exfalso. rewrite stacks_lookup, Ea in Hb. injection Hb as <-. by rewrite (Hnr q' j Hr) in Hm.
  Qed.

  Lemma actor_after_insert s s' a ac newst b ab' :
    s.(actors) !! a = Some ac -> stacks s' = <[a := newst]> (stacks s) -> jflags s' = jflags s ->
    s'.(actors) !! b = Some ab' ->
    exists ab, s.(actors) !! b = Some ab /\ jflag ab' = jflag ab /\ ab'.(stack) = if decide (a = b) then newst else ab.(stack).
  Proof.
    intros Ea Hst Hr Hb.
    assert (H1 : jflags s' !! b = Some (jflag ab')) by (unfold jflags; by rewrite list_lookup_fmap, Hb).
    rewrite Hr in H1. unfold jflags in H1. rewrite list_lookup_fmap in H1. destruct (actors s !! b) as [ab|] eqn:Eb; [|done]. injection H1 as H1.
    exists ab. split; [done|]. split; [done|].
    assert (H2 : stacks s' !! b = Some ab'.(stack)) by (by rewrite stacks_lookup, Hb).
    rewrite Hst in H2. case_decide; subst.
    - rewrite list_lookup_insert in H2; [by injection H2|]. unfold stacks. rewrite fmap_length. by eapply lookup_lt_Some.
    - rewrite list_lookup_insert_ne in H2 by done. rewrite stacks_lookup, Eb in H2. by injection H2.
  Qed.

  Lemma L_update_run s s' a ac newst :
    LInv s -> s.(actors) !! a = Some ac ->
    stacks s' = <[a := newst]> (stacks s) -> jflags s' = jflags s -> jobs_mono s s' ->
    (forall q' j w0 x, in_hand q' ac.(stack) j -> own w0 j = true -> s.(actors) !! w0 = Some x -> jflag x = true) ->
    (jpos newst = None \/ jpos newst = jpos ac.(stack)) ->
    (wt = true -> forall q, hd_error newst = Some (FSBwait q) -> jflag ac = false) ->
    LInv s'.
  Proof.
    intros HJ Ea Hst Hr Hjobs Hnr Hwp Hwait b ab' Hb.
    destruct (actor_after_insert s s' a ac newst b ab' Ea Hst Hr Hb) as (ab & Eb & Hrd & Hstk).
    destruct (HJ b ab Eb) as [J1 J2]. split.
    - intros q Hq Hrf. rewrite Hrd in Hrf. eapply jloc_mono; [exact Ea|exact Hst|exact Hjobs| |].
      + intros q' j Hrun. destruct (own b j) eqn:Hm; [|done]. by rewrite (Hnr q' j b ab Hrun Hm Eb) in Hrf.
      + apply J1; [|done]. rewrite Hstk in Hq. case_decide; [subst b|done].
        rewrite Ea in Eb. injection Eb as <-. destruct Hwp as [Hwp|Hwp]; congruence.
    - intros Hwt q Hh. rewrite Hrd. rewrite Hstk in Hh. case_decide; [subst b|by eapply J2].
      rewrite Ea in Eb. injection Eb as <-. by eapply Hwait.
  Qed.
  Lemma L_update s s' a ac newst :
    LInv s -> s.(actors) !! a = Some ac ->
    stacks s' = <[a := newst]> (stacks s) -> jflags s' = jflags s -> jobs_mono s s' -> hand_free ac.(stack) ->
    (jpos newst = None \/ jpos newst = jpos ac.(stack)) ->
    (wt = true -> forall q, hd_error newst = Some (FSBwait q) -> jflag ac = false) ->
    LInv s'.
  Proof. intros HJ Ea Hst Hr Hjobs Hnr. apply (L_update_run s s' a ac newst HJ Ea Hst Hr Hjobs). intros q' j w0 x Hrun Hm. by rewrite (Hnr q' j w0 Hrun) in Hm. Qed.

  Lemma L_update_reset s s' a ac newst :
    LInv s -> s.(actors) !! a = Some ac ->
    stacks s' = <[a := newst]> (stacks s) ->
    (forall b ab', s'.(actors) !! b = Some ab' -> b <> a -> exists ab, s.(actors) !! b = Some ab /\ jflag ab' = jflag ab) ->
    s'.(queues) = s.(queues) -> hand_free ac.(stack) ->
    jpos newst = None -> (forall q, hd_error newst <> Some (FSBwait q)) ->
    LInv s'.
  Proof.
    intros HJ Ea Hst Hr Hq Hnr Hwp Hwait b ab' Hb.
    assert (H2 : stacks s' !! b = Some ab'.(stack)) by (by rewrite stacks_lookup, Hb).
    rewrite Hst in H2. destruct (decide (a = b)) as [<-|Hne].
    - rewrite list_lookup_insert in H2 by (unfold stacks; rewrite fmap_length; by eapply lookup_lt_Some). injection H2 as H2.
      split; rewrite <- H2; [intros q Hq'; congruence|intros _ q Hh; by destruct (Hwait q)].
    - rewrite list_lookup_insert_ne in H2 by done. destruct (Hr b ab' Hb) as (ab & Eb & Hrd); [done|].
      rewrite stacks_lookup, Eb in H2. injection H2 as H2. destruct (HJ b ab Eb) as [J1 J2]. split; rewrite <- H2, Hrd; [|done].
      intros q Hq' Hrf. eapply jloc_mono; [exact Ea|exact Hst|by apply jobs_mono_refl| |by apply J1]. intros q' j Hrun. exact (Hnr q' j _ Hrun).
  Qed.

  Lemma jflags_upda_same s a f : (forall x, jflag (f x) = jflag x) -> jflags (upda s a f) = jflags s.
  Proof.
    intros Hf. unfold jflags, upda; cbn. apply list_eq. intros i. rewrite !list_lookup_fmap.
    destruct (decide (a = i)) as [->|]; [rewrite list_lookup_alter|by rewrite list_lookup_alter_ne]. destruct (actors s !! i); cbn; [by rewrite Hf|done].
  Qed.
  Lemma jflags_setstack s a st : jflags (setstack s a st) = jflags s.
  Proof. by apply jflags_upda_same. Qed.

  Lemma jpos_awoken x' x : awoken x' x -> jpos x'.(stack) = jpos x.(stack).
  Proof. intros [[->|(q & r & -> & ->)] _ _ _ _ _]; [done|]. unfold jpos. destruct k; [done|]. by destruct r as [|[] ?]. Qed.
  Lemma jflag_awoken x' x : awoken x' x -> jflag x = true -> jflag x' = true.
  Proof. intros [_ _ H1 H2 _ _]. unfold jflag. by destruct k. Qed.
  Lemma jloc_woken m s w q : woken m s -> jloc s w q -> jloc m w q.
  Proof.
    intros Hw [(qq & j & G1 & G2)|(b & st & q' & j & G1 & G2 & G3)]; [left; rewrite (wk_queues _ _ Hw); eauto|right].
    rewrite stacks_lookup in G1. destruct (actors s !! b) as [x|] eqn:Hx; [|done]. injection G1 as <-.
    destruct (woken_lookup _ _ _ _ Hw Hx) as (x' & Hx' & Hxx). exists b, (stack x'), q', j. split; [by rewrite stacks_lookup, Hx'|].
    by rewrite (awoken_stack _ _ Hxx (in_hand_not_waiting _ _ _ G2)).
  Qed.
  Lemma L_woken m s : (wt = true -> k = true) -> woken m s -> LInv s -> LInv m.
  Proof.
    intros Hk Hw HJ b x' Hb. destruct (woken_lookup_r _ _ _ _ Hw Hb) as (x & Hx & Hxx). destruct (HJ b x Hx) as [J1 J2]. split.
    - intros q Hq Hrf. apply (jloc_woken m s b q Hw). apply J1; [by rewrite <- (jpos_awoken _ _ Hxx)|].
      destruct (jflag x) eqn:Hr; [|done]. by rewrite (jflag_awoken _ _ Hxx) in Hrf.
    - intros Hwt q Hh. destruct (jflag x') eqn:Hr; [|done]. exfalso. unfold jflag in *. rewrite (Hk Hwt) in *.
      assert (Hs : stack x' = stack x) by (destruct (aw_stack _ _ Hxx) as [?|(q0 & r & _ & E)]; [done|by rewrite E in Hh]).
      rewrite Hs in Hh. by apply (aw_awake _ _ Hxx (J2 Hwt q Hh) Hr q); rewrite Hs.
  Qed.

  Lemma run_job_flag F s j c x : own c j = true -> (run_job F s j).(actors) !! c = Some x -> jflag x = true.
  Proof.
    unfold own, jflag. destruct j as [o|o c'|o c']; [done|..]; intros [Hk ->%bool_decide_eq_true]%andb_true_iff; destruct k; try done.
    - unfold run_job. rewrite actors_upda_lookup, decide_True by done. destruct (_ !! c); [|done]. by intros [= <-].
    - apply run_job_ready.
  Qed.
  Lemma L_run F s a ac q0 j newst : (wt = true -> k = true) ->
    LInv s -> s.(actors) !! a = Some ac -> in_hand q0 ac.(stack) j ->
    (jpos newst = None \/ jpos newst = jpos ac.(stack)) -> (forall q, hd_error newst <> Some (FSBwait q)) ->
    LInv (setstack (run_job F s j) a newst).
  Proof.
    intros Hk HJ Ea Hrun Hwp Hnw.
    destruct (woken_self _ s a ac (woken_run_job F s j) Ea (in_hand_not_waiting _ _ _ Hrun)) as (ac1 & Ea1 & Est1).
    eapply (L_update_run (run_job F s j) _ a ac1 newst (L_woken _ s Hk (woken_run_job F s j) HJ) Ea1);
      [apply stacks_setstack|apply jflags_setstack|by apply jobs_mono_refl| |by rewrite Est1|intros _ q Hh; by destruct (Hnw q)].
    (* the job in the hand of the stepping actor is the one that has just run *)
    intros q' j' w0 x Hr Hm. rewrite Est1 in Hr. destruct (in_hand_inj _ _ _ _ _ Hrun Hr) as [_ <-]. by apply run_job_flag.
  Qed.

  Lemma L_push s s' a ac q j newst :
    LInv s -> s.(actors) !! a = Some ac ->
    stacks s' = <[a := newst]> (stacks s) -> jflags s' = jflags s ->
    (forall q0, s'.(queues) !! q0 = if decide (q = q0) then (fun x => x <| jobs := x.(jobs) ++ [j] |>) <$> (s.(queues) !! q0) else s.(queues) !! q0) ->
    is_Some (s.(queues) !! q) -> hand_free ac.(stack) ->
    (jpos newst = None \/ jpos newst = jpos ac.(stack) \/ (jpos newst = Some q /\ own a j = true)) ->
    (forall q', hd_error newst <> Some (FSBwait q')) ->
    LInv s'.
  Proof.
    intros HJ Ea Hst Hr Hq [qq0 Eq0] Hnr Hwp Hnw b ab' Hb.
    assert (Hmono : jobs_mono s s').
    { intros q0 qq j0 w H1 H2 _. rewrite Hq. case_decide; subst; rewrite H1; cbn; eexists; split; try done. cbn. apply elem_of_app. by left. }
    destruct (actor_after_insert s s' a ac newst b ab' Ea Hst Hr Hb) as (ab & Eb & Hrd & Hstk).
    destruct (HJ b ab Eb) as [J1 J2]. split.
    - intros q1 Hq1 Hrf. rewrite Hstk in Hq1. rewrite Hrd in Hrf. assert (Hkeep : jloc s b q1 -> jloc s' b q1).
      { apply (jloc_mono s s' a ac newst); try done. intros q' j' Hrun. exact (Hnr q' j' _ Hrun). }
      destruct (decide (a = b)) as [<-|Hne]; [|by apply Hkeep, J1].
      rewrite Ea in Eb. injection Eb as <-. destruct Hwp as [Hwp|[Hwp|[Hwp Hm]]]; [congruence|apply Hkeep, J1; congruence|].
      assert (q1 = q) by congruence. subst q1. left. exists (qq0 <| jobs := jobs qq0 ++ [j] |>), j. split; [|split; [|done]].
      + rewrite Hq, decide_True by done. by rewrite Eq0.
      + cbn. apply elem_of_app. right. by apply elem_of_list_singleton.
    - intros Hwt q1 Hh. rewrite Hstk in Hh. rewrite Hrd. destruct (decide (a = b)) as [<-|Hne]; [by destruct (Hnw q1)|by eapply J2].
  Qed.

  Lemma L_pop s s' a ac q j l newst :
    LInv s -> s.(actors) !! a = Some ac ->
    stacks s' = <[a := newst]> (stacks s) -> jflags s' = jflags s ->
    (forall q0, s'.(queues) !! q0 = if decide (q = q0) then (fun x => x <| jobs := l |>) <$> (s.(queues) !! q0) else s.(queues) !! q0) ->
    (forall qq, s.(queues) !! q = Some qq -> qq.(jobs) = j :: l) ->
    in_hand q newst j -> hand_free ac.(stack) ->
    (jpos newst = None \/ jpos newst = jpos ac.(stack)) ->
    LInv s'.
  Proof.
    intros HJ Ea Hst Hr Hq Hjobs Hrun Hnr Hwp b ab' Hb.
    destruct (actor_after_insert s s' a ac newst b ab' Ea Hst Hr Hb) as (ab & Eb & Hrd & Hstk).
    destruct (HJ b ab Eb) as [J1 J2].
    assert (Hloc : forall w q1, jloc s w q1 -> jloc s' w q1).
    { intros w q1 [(qq & j' & G1 & G2 & G3)|(x & st & q' & j' & G1 & G2 & G3)].
      - destruct (decide (q = q1)) as [<-|Hne].
        + rewrite (Hjobs qq G1) in G2. apply elem_of_cons in G2 as [->|G2].
          * right. exists a, newst, q, j. split; [|done].
            rewrite Hst, list_lookup_insert; [done|]. unfold stacks. rewrite fmap_length. by eapply lookup_lt_Some.
          * left. exists (qq <| jobs := l |>), j'. split; [|done]. rewrite Hq, decide_True by done. by rewrite G1.
        + left. exists qq, j'. split; [|done]. by rewrite Hq, decide_False.
      - right. exists x, st, q', j'. split; [|done]. rewrite Hst. destruct (decide (a = x)) as [<-|]; [|by rewrite list_lookup_insert_ne].
        exfalso. rewrite stacks_lookup, Ea in G1. injection G1 as <-. destruct G3 as [_ G3]. by rewrite (Hnr q' j' w G2) in G3. }
    split.
    - intros q1 Hq1 Hrf. rewrite Hstk in Hq1. rewrite Hrd in Hrf. apply Hloc. apply J1; [|done]. destruct (decide (a = b)) as [<-|]; [|done].
      rewrite Ea in Eb. injection Eb as <-. destruct Hwp as [Hwp|Hwp]; congruence.
    - intros Hwt q1 Hh. rewrite Hstk in Hh. rewrite Hrd. destruct (decide (a = b)) as [<-|]; [|by eapply J2]. destruct Hrun as [H|H]; congruence.
  Qed.

  Lemma L_add_actor s s1 new :
    s1.(queues) = s.(queues) -> s1.(actors) = s.(actors) ++ [new] -> jpos new.(stack) = None -> (forall q, hd_error new.(stack) <> Some (FSBwait q)) ->
    LInv s -> LInv s1.
  Proof.
    intros Hq Ha Hwp Hnw HJ b ab Hb. rewrite Ha in Hb.
    assert (Hloc : forall w q, jloc s w q -> jloc s1 w q).
    { intros w q [(qq & j & G1 & G2)|(x & st & q' & j & G1 & G2)]; [left; rewrite Hq; eauto|right].
      exists x, st, q', j. split; [|done]. unfold stacks. rewrite Ha, fmap_app. by apply lookup_app_l_Some. }
    apply lookup_app_Some in Hb as [Hb|[_ Hb]].
    - destruct (HJ b ab Hb) as [J1 J2]. split; [|done]. intros q H1 H2. apply Hloc. by apply J1.
    - destruct (b - length (actors s)); [|done]. cbn in Hb. injection Hb as <-. split; [intros q H; congruence|intros _ q H; by destruct (Hnw q)].
  Qed.
End Kind.

(* the side conditions of the L_ lemmas for a step setstack (..s..) a newst: flags unchanged (ob_flags), own jobs only
   grow (ob_mono), the old top frame Est holds no job (ob_nr), the position of the new stack (ob_pos); obs_q2 (L1/Own.v)
   computes the queues of the new state when one queue is updated *)
Ltac ob_flags := rewrite jflags_setstack; first [reflexivity | by rewrite jflags_upda_same by (intros ?; unfold jflag; by case_match)].
Ltac ob_mono := let H1 := fresh in let H2 := fresh in intros ?q0 ?qq0 ?j0 ?w0 H1 H2 _;
  first [ solve [eexists; split; [exact H1 | exact H2]]
        | rewrite ?queues_setstack, ?queues_upda, ?queues_updt; rewrite ?queues_updq; cbn [queues set]; repeat case_decide; subst;
          first [ solve [eexists; split; [exact H1 | exact H2]]
                | rewrite H1; eexists; (split; [reflexivity|]); cbn; first [exact H2 | apply elem_of_app; left; exact H2] ] ].
Ltac ob_nr Est := let H := fresh in intros ?q' ?j0 ?w0 [H|H]; rewrite Est in H; done.
Ltac ob_pos Est := rewrite Est; unfold jpos; try match goal with |- context [if ?k then _ else _] => is_var k; destruct k end; cbn; first [by left | by right].

Section LStep.
  Context (T : tables) (F : facts) (k tie wt : bool) (Hk : wt = true -> k = true).

  Lemma step_l s0 a s' : Shape s0 -> (k = false -> WF s0) -> LInv k tie wt s0 -> step T F s0 a = Some s' -> LInv k tie wt s'.
  Proof.
    intros HS0 HW0 HJ0 (ac0 & fr & rest & m & new & Ea0 & Est0 & He0 & ->)%step_eff.
    (* the wake-ups first *)
    destruct (eff_wake _ _ _ _ _ _ _ _ _ He0 Ea0 Est0) as (s & ac & Hw & Ea & Est & He & _). rewrite Est0 in Est.
    pose proof (Shape_woken s s0 Hw HS0) as HS. pose proof (L_woken k tie wt s s0 Hk Hw HJ0) as HJ.
    pose proof (kind_of s a ac HS Ea) as Hkind. rewrite Est in Hkind.
    destruct Hkind as [[Hlt Hok]|(t0 & -> & Hok)];
      [ apply caller_ok_inv in Hok as [(-> & Hfr)|[(os' & -> & Hfr)|(g & os' & -> & Hfr)]]
      | apply pool_ok_inv in Hok as [(-> & Hfr)|(-> & Hfr)] ].
    all: destruct He; try discriminate Hfr.
    all: try (destruct g; try discriminate Hfr; try (apply bool_decide_eq_true in Hfr; subst)).
    all: cbn [app].
    all: lazymatch goal with
         (* a new operation: the flags are reset, the actor is in no position *)
         | Est : stack _ = [FTop _] |- _ =>
             destruct o; (eapply (L_update_reset k tie wt s _ a ac _ HJ Ea);
             [ ob_stacks
             | intros b ab' Hb Hne; rewrite actors_setstack_lookup, decide_False in Hb by done; rewrite actors_upda_lookup, decide_False in Hb by done; eauto
             | done | ob_nr Est | by destruct k | intros ?q' ?Hh; cbn in Hh; discriminate ])
         | |- LInv _ _ _ (setstack (spawn _) _ _) =>
             assert (HJ1 : LInv k tie wt (spawn s)) by (eapply (L_add_actor k tie wt s (spawn s)); [done|done|by destruct k|done|exact HJ]);
             assert (Ea1 : actors (spawn s) !! a = Some ac) by (by apply lookup_app_l_Some);
             eapply (L_update k tie wt (spawn s) _ _ ac _ HJ1 Ea1);
             [ ob_stacks | ob_flags | ob_mono | ob_nr Est | ob_pos Est | intros _ ?q' ?Hh; cbn in Hh; try discriminate; done ]
         (* the caller's own job is pushed: JSyncBg at FSBpush (k = true), JSyncDrain at FSDpush (k = false; the queue exists) *)
         | Eq : queues _ !! ?q = Some _ |- LInv _ _ _ (setstack (updq _ ?q (fun x => x <| jobs := jobs x ++ [?j] |>)) _ _) =>
             eapply (L_push k tie wt s _ a ac q j _ HJ Ea);
             [ ob_stacks | ob_flags | obs_q2 | by eexists | ob_nr Est
             | rewrite Est; unfold jpos, own; destruct k; cbn; first [by left | right; right; split; [done|]; by rewrite bool_decide_true]
             | intros ?q' ?Hh; cbn in Hh; discriminate ]
         | Est : stack _ = FSDpush ?q :: _ |- _ =>
             destruct k; [| eapply (L_push false tie wt s _ a ac q _ _ HJ Ea);
               [ ob_stacks | ob_flags | obs_q2
               | pose proof (WF_self s a ac (WF_woken s s0 Hw (HW0 eq_refl)) Ea) as Hwf; rewrite Est in Hwf; cbn in Hwf; apply andb_true_iff in Hwf as [Hwf _];
                 apply bool_decide_eq_true in Hwf; by apply lookup_lt_is_Some_2
               | ob_nr Est | rewrite Est; cbn; right; right; split; [done|]; unfold own; cbn; by rewrite bool_decide_true
               | intros ?q' ?Hh; cbn in Hh; discriminate ] ];
             eapply (L_update true tie wt s _ _ ac _ HJ Ea); [ ob_stacks | ob_flags | ob_mono | ob_nr Est | ob_pos Est | intros _ ?q' ?Hh; discriminate Hh ]
         (* a runner pops the next job *)
         | Hjobs : jobs _ = ?j :: ?l |- LInv _ _ _ (setstack (updq _ ?q _) _ _) =>
             eapply (L_pop k tie wt s _ _ ac q j l _ HJ Ea);
             [ ob_stacks | ob_flags | obs_q2
             | intros ?qq0 ?H; rewrite Eq in H; injection H as <-; done
             | first [by left | by right] | ob_nr Est | ob_pos Est ]
         (* the other steps: locations stay; a job that has just run belongs to a caller whose flag is set
            (He0 tells that the state after the wake-ups is run_job's) *)
         | |- _ =>
             eapply (L_update_run k tie wt s _ _ ac _ HJ Ea);
             [ ob_stacks | ob_flags | ob_mono
             | intros q' j0 w0 x [Hr|Hr] Hm Hx; rewrite Est in Hr; try discriminate Hr; injection Hr as <- <-;
               inversion He0; subst; by eapply run_job_flag
             | ob_pos Est
             | intros Hwt ?q' ?Hh; cbn in Hh; try discriminate; unfold jflag; rewrite (Hk Hwt); injection Hh as <-; try done ]
         end.
  Qed.
End LStep.

Lemma located_jloc s w q : located s w q <-> jloc true false s w q.
Proof.
  unfold located, jloc, run_top. split.
  - intros [(qq & o & H1 & H2)|(b & st & o & H1 & q' & H2)]; [left; exists qq, (JSyncBg o w)|right; exists b, st, q', (JSyncBg o w)];
      cbn; rewrite bool_decide_true by done; done.
  - intros [(qq & j & H1 & H2 & H3)|(b & st & q' & j & H1 & H2 & _ & H3)]; destruct j as [|?|o c]; try done;
      apply bool_decide_eq_true in H3 as ->; [left|right]; eauto 6.
Qed.
Lemma JInv_LInv s : JInv s <-> LInv true false true s.
Proof.
  split; intros H w ac Hw; destruct (H w ac Hw) as [H1 H2]; split; [| |intros q Hq Hr; apply located_jloc; by apply H1|by apply H2].
  - intros q Hq Hr. apply located_jloc. by apply H1.
  - intros _. exact H2.
Qed.

Lemma readys_setstack s a st : readys (setstack s a st) = readys s.
Proof. exact (jflags_setstack true s a st). Qed.
Lemma readys_upda_same s a f : (forall x, (f x).(ready) = x.(ready)) -> readys (upda s a f) = readys s.
Proof. exact (jflags_upda_same true s a f). Qed.

Lemma JInv_update s s' a ac newst :
  JInv s -> s.(actors) !! a = Some ac ->
  stacks s' = <[a := newst]> (stacks s) -> readys s' = readys s ->
  (forall q0 qq o w0, s.(queues) !! q0 = Some qq -> JSyncBg o w0 ∈ qq.(jobs) -> exists qq', s'.(queues) !! q0 = Some qq' /\ JSyncBg o w0 ∈ qq'.(jobs)) ->
  (forall o0 w0, ~ run_top ac.(stack) (JSyncBg o0 w0)) ->
  (wp_q newst = None \/ wp_q newst = wp_q ac.(stack)) ->
  (forall q, hd_error newst = Some (FSBwait q) -> ac.(ready) = false) ->
  JInv s'.
Proof.
  intros HJ%JInv_LInv Ea Hst Hr Hjobs Hnr Hwp Hwait. apply JInv_LInv. apply (L_update true false true s s' a ac newst HJ Ea Hst Hr); [| |done|by intros _].
  - intros q0 qq [|?|o c] w H1 H2 Hm; try done. apply bool_decide_eq_true in Hm as ->. by apply (Hjobs q0 qq).
  - intros q [|?|o c] w Hrun; try done. apply bool_decide_eq_false. intros ->. apply (Hnr o w). by exists q.
Qed.
Lemma JInv_run F s a ac j newst :
  JInv s -> s.(actors) !! a = Some ac -> run_top ac.(stack) j ->
  (wp_q newst = None \/ wp_q newst = wp_q ac.(stack)) -> (forall q, hd_error newst <> Some (FSBwait q)) ->
  JInv (setstack (run_job F s j) a newst).
Proof. intros HJ%JInv_LInv Ea [q0 Hrun] Hwp Hnw. apply JInv_LInv. by apply (L_run true false true F s a ac q0 j newst). Qed.

Section JStep.
  Context (T : tables) (F : facts).
  Lemma step_j s a s' : Shape s -> JInv s -> step T F s a = Some s' -> JInv s'.
  Proof. intros HS HJ%JInv_LInv Hstep. apply JInv_LInv. by apply (step_l T F true false true (fun _ => eq_refl) s a s'). Qed.

  Lemma init_j nq mx scripts : JInv (init nq mx scripts).
  Proof.
    intros w ac Hw. unfold init in Hw; cbn in Hw. rewrite list_lookup_fmap in Hw. destruct (scripts !! w); [|done]. injection Hw as <-.
    split; cbn; [intros q H; discriminate|intros q H; discriminate].
  Qed.
End JStep.
