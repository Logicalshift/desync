(* C15 - a panicked queue stays panicked and refuses everything.
   Every place where the code decides on or rewrites the queue state through a `match core.state` is a table generated
   from the source; this file proves, for EVERY family of tables that maps Panicked the way `panic_conditions` says, that no
   sequence of such events - in any order, from any thread, any number of times - leaves the Panicked state, and that every
   scheduling entry point answers with its Panic outcome.  (The only plain assignments to the state - `state = Idle`,
   `WaitingForWake`, `WaitingForPoll(id)` - are executed by a runner after its job returned normally; a runner that unwinds
   runs the ActiveQueue guard instead, whose presence on every runner is one of the facts checked in the instance file.) *)
From stdpp Require Import list numbers option.
From L0 Require Import Types.

Record qtables := {
  q_desync : qstate -> qstate * desyncact;
  q_sync : qstate -> bool -> qstate * syncact;
  q_sync_np : qstate -> bool -> qstate * syncact;
  q_trysync : qstate -> bool -> qstate * tryact;
  q_poll : nat -> qstate -> qstate * pollact;
  q_resched : qstate -> bool -> qstate * bool;
  q_next : qstate -> option qstate;
  q_claim : qstate -> option qstate;
  q_drain_pend : qstate -> qstate;
  q_drain_fin : qstate -> bool -> qstate * bool;
  q_roj_pend : qstate -> option qstate;
  q_wake_queue : qstate -> qstate * bool;
  q_wake_thread : qstate -> qstate;
}.

(* everything that can happen to the state word of one queue *)
Inductive qev :=
| EvDesync | EvSync (empty : bool) | EvSyncNoPanic (empty : bool) | EvTrySync (empty : bool) | EvPoll (me : nat)
| EvResched (nonempty : bool) | EvNext | EvClaim | EvDrainPend | EvDrainFin (empty : bool) | EvRojPend | EvWakeQueue | EvWakeThread.

Definition apply (T : qtables) (st : qstate) (ev : qev) : qstate :=
  match ev with
  | EvDesync => fst (T.(q_desync) st)
  | EvSync e => fst (T.(q_sync) st e)
  | EvSyncNoPanic e => fst (T.(q_sync_np) st e)
  | EvTrySync e => fst (T.(q_trysync) st e)
  | EvPoll me => fst (T.(q_poll) me st)
  | EvResched ne => fst (T.(q_resched) st ne)
  | EvNext => default st (T.(q_next) st)
  | EvClaim => default st (T.(q_claim) st)
  | EvDrainPend => T.(q_drain_pend) st
  | EvDrainFin e => fst (T.(q_drain_fin) st e)
  | EvRojPend => default st (T.(q_roj_pend) st)
  | EvWakeQueue => fst (T.(q_wake_queue) st)
  | EvWakeThread => T.(q_wake_thread) st
  end.

Record panic_conditions (T : qtables) : Prop := {
  pc_desync : T.(q_desync) Panicked = (Panicked, DAPanic);
  pc_sync : forall e, T.(q_sync) Panicked e = (Panicked, SAPanic);
  pc_sync_np : forall e, T.(q_sync_np) Panicked e = (Panicked, SAPanic);
  pc_trysync : forall e, T.(q_trysync) Panicked e = (Panicked, TAPanic);
  pc_poll : forall me, T.(q_poll) me Panicked = (Panicked, PAPanic);
  pc_resched : forall ne, T.(q_resched) Panicked ne = (Panicked, false);
  pc_next : T.(q_next) Panicked = None;
  pc_claim : T.(q_claim) Panicked = None;
  pc_drain_pend : T.(q_drain_pend) Panicked = Panicked;
  pc_drain_fin : forall e, fst (T.(q_drain_fin) Panicked e) = Panicked;
  pc_roj_pend : T.(q_roj_pend) Panicked = None;
  pc_wake_queue : fst (T.(q_wake_queue) Panicked) = Panicked;
  pc_wake_thread : T.(q_wake_thread) Panicked = Panicked;
  (* nothing but the guard produces Panicked: no table maps a healthy state to it *)
  pc_only_guard : forall st ev, st <> Panicked -> apply T st ev <> Panicked;
}.

Section Absorb.
  Context (T : qtables) (HC : panic_conditions T).

  Lemma apply_panicked ev : apply T Panicked ev = Panicked.
  Proof.
    destruct HC as [H1 H2 H3 H4 H5 H6 H7 H8 H9 H10 H11 H12 H13 _].
    destruct ev; cbn; by rewrite ?H1, ?H2, ?H3, ?H4, ?H5, ?H6, ?H7, ?H8, ?H9, ?H10, ?H11, ?H12, ?H13.
  Qed.

  (* absorbing: whatever happens afterwards, in whatever order and however often *)
  Theorem panicked_absorbing (evs : list qev) : foldl (apply T) Panicked evs = Panicked.
  Proof. induction evs as [|ev evs IH]; cbn; [done|]. by rewrite apply_panicked. Qed.

  (* every scheduling entry point fails loudly, no pool thread or waiter ever takes the queue again *)
  Theorem panicked_refuses :
    snd (T.(q_desync) Panicked) = DAPanic /\ (forall e, snd (T.(q_sync) Panicked e) = SAPanic) /\
    (forall e, snd (T.(q_trysync) Panicked e) = TAPanic) /\ (forall me, snd (T.(q_poll) me Panicked) = PAPanic) /\
    T.(q_next) Panicked = None /\ T.(q_claim) Panicked = None /\ (forall ne, snd (T.(q_resched) Panicked ne) = false).
  Proof.
    destruct HC as [H1 H2 _ H4 H5 H6 H7 H8 _ _ _ _ _ _]. repeat split; intros; by rewrite ?H1, ?H2, ?H4, ?H5, ?H6.
  Qed.

  (* a healthy queue is never marked panicked by anybody else's events: the damage stays with the object whose job panicked *)
  Theorem healthy_stays_healthy st (evs : list qev) : st <> Panicked -> foldl (apply T) st evs <> Panicked.
  Proof.
    revert st. induction evs as [|ev evs IH]; intros st Hst; cbn; [done|]. apply IH. by apply (pc_only_guard _ HC).
  Qed.
End Absorb.
