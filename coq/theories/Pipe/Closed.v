(* Pipe layer, used by C12.4 and C16: facts about `closed` and about the pipe's own reference to the Desync. *)
From stdpp Require Import list numbers option.
From Pipe Require Import Model Base Step Data.

Definition pc_retfalse (pc : jpc) : bool :=
  match pc with JClosedTake | JWake _ KRet | JClear => true | _ => false end.
Definition pc_after_close (pc : jpc) : bool :=
  match pc with JStart | JFull | JClosedTake | JWake _ KRet | JClear => true | _ => false end.
Definition pc_endclose (pc : jpc) : bool := match pc with JEndClose => true | _ => false end.
Definition run_all (P : jpc -> bool) (r : option (nat * jpc)) : bool := match r with Some (_, pc) => P pc | None => true end.
Definition run_some (P : jpc -> bool) (r : option (nat * jpc)) : bool := match r with Some (_, pc) => P pc | None => false end.
Definition is_takefn (w : wk) : bool := match w with WTakeFn => true | _ => false end.
Definition is_sync (w : wk) : bool := match w with WSync => true | _ => false end.
Definition ch_sync (c : chst) : bool := match c with ChSync => true | _ => false end.

Section Closed.
  Context (F : pfacts) (f : nat -> nat).

  Definition handed_over (s : state) : bool :=
    match s.(cst) with CDrop2 | CGone => true | CDrop1 => negb F.(f_drop_wakes_before_dispose) | _ => false end.
  (* on_drop is handed over exactly once: before that the queue is idle and the pipe's Arc<Desync> exists; afterwards
     the Arc exists exactly as long as on_drop sits in the queue *)
  Definition inv_chute (s : state) : Prop :=
    if handed_over s then match s.(chute) with ChQueued => s.(strong_held) = true | _ => s.(strong_held) = false end
    else s.(chute) = ChIdle /\ s.(strong_held) = true.

  Lemma inv_chute_init inputs sl ext : inv_chute (init_slow F inputs sl ext).
  Proof. done. Qed.

  Lemma inv_chute_live s : inv_chute s -> dropped s = false -> s.(chute) = ChIdle /\ s.(strong_held) = true.
  Proof. unfold inv_chute, handed_over, dropped. by destruct (cst s). Qed.

  Lemma step_inv_chute s a s' : inv_chute s -> step F f s a = Some s' -> inv_chute s'.
  Proof.
    intros H Hs. step_cases Hs.
    all: unfold inv_chute, handed_over in *; cbn; try assumption.
    all: on @s_poll (unfold outside_poll in Ho; by destruct (cst s)).
    all: on @s_ret (rewrite Ec in H; by destruct b).
    all: on @s_drop
           (unfold outside_poll in Ho; destruct (cst s); try done; destruct H as [-> ->]; by destruct (f_drop_wakes_before_dispose F)).
    all: on @s_drop1 (rewrite Ec in H; destruct (f_drop_wakes_before_dispose F); [by destruct H as [_ ->]|exact H]).
    all: on @s_drop2 (by rewrite Ec in H).
    all: on @s_dispose, @s_dispose_sync (revert H; rewrite Ech; by repeat case_match; intros []).
  Qed.

  Lemma reach_inv_chute inputs sl ext tr s : run F f (init_slow F inputs sl ext) tr = Some s -> inv_chute s.
  Proof. apply run_invariant_all; [apply inv_chute_init|apply step_inv_chute]. Qed.

  Definition inv_closed (s : state) : Prop :=
    (is_takefn s.(cwk) = true -> s.(strong_held) = false) /\
    (is_takefn s.(ewk) = true -> s.(strong_held) = false) /\
    (dropped s = false -> s.(poll_fn) = false -> s.(closed) = true) /\
    (dropped s = false -> s.(closed) = true -> s.(inp_rest) = [] /\ run_all pc_after_close s.(running) = true) /\
    (dropped s = false -> run_some pc_retfalse s.(running) = true -> s.(closed) = true) /\
    (run_some pc_endclose s.(running) = true -> s.(inp_rest) = []) /\
    (s.(cst) = CDone -> s.(closed) = true /\ s.(pending) = [] /\ s.(got_end) = true).

  Lemma inv_closed_init inputs sl ext : inv_closed (init_slow F inputs sl ext).
  Proof. unfold inv_closed; cbn. split_and!; done. Qed.

  Lemma step_inv_closed inputs s a s' :
    inv_data f inputs s -> inv_chute s -> inv_closed s -> step F f s a = Some s' -> inv_closed s'.
  Proof.
    intros (_ & _ & Hended & _) Hch (Htakec & Htakee & Hfn & Hclosed & Hretf & Hendc & Hdone) Hs. step_cases Hs.
    all: unfold inv_closed, dropped in *; cbn.
    all: try (rewrite Er in Hclosed, Hretf, Hendc; cbn in Hclosed, Hretf, Hendc).
    all: split_and!; try assumption; try done.
    all: rewrite ?(wk_of_false is_takefn) by done; try done.
    all: on @s_poll (pose proof (outside_not_dropped _ Ho); by auto).
    all: on @s_ret (rewrite Ec in *; by destruct b).
    all: on @j_start_gone (by rewrite Ec).
    all: on @j_full_open (intros _ Hc; congruence).
    (* the job reads the input: an item cannot come after the close; the input has ended only when nothing is left *)
    all: on @j_input_item (intros Hd' Hc; by destruct (Hclosed Hd' Hc)).
    all: on @j_input_end
           (intros _; destruct Ei as [Ei|Ei]; [done|]; specialize (Hended He); destruct (inp_rest s); [done|cbn in Hended; lia]).
    all: on @j_pend_closed, @j_pend_store (intros Hd' Hc; by destruct (Hclosed Hd' Hc)).
    all: on @j_end_close (first [intros _ _; by auto | intros Hc; by destruct (Hdone Hc) as (_ & ? & ?)]).
    (* no push after the consumer has seen the end *)
    all: on @j_push (intros Hc; destruct (Hdone Hc) as (Hcl' & _); rewrite Hc in Hclosed; by destruct (Hclosed eq_refl Hcl')).
    all: on @j_clear auto.
    (* a waker finds the Desync gone and clears poll_fn: only after the pipe's reference has been dropped, and that
       happens after the stream has been dropped *)
    all: on @w_ctx_dead (intros _; unfold desync_alive in Hal; by destruct (strong_held s)).
    all: on @w_takefn
           (intros Hd' _; destruct (inv_chute_live _ Hch Hd') as [_ Hsh]; rewrite Ew in *;
            first [by rewrite (Htakec eq_refl) in Hsh | by rewrite (Htakee eq_refl) in Hsh]).
  Qed.

  Lemma reach_inv_closed inputs sl ext tr s : run F f (init_slow F inputs sl ext) tr = Some s -> inv_closed s.
  Proof.
    apply (run_invariant_from F f (fun s => inv_data f inputs s /\ inv_chute s)); [|apply inv_closed_init|].
    - intros tr' s' Hr. split; [by eapply reach_inv_data|by eapply reach_inv_chute].
    - intros s0 a s' []. by eapply step_inv_closed.
  Qed.
End Closed.
