(* Pipe layer, C12 part 3: back-pressure release / the producer never goes to sleep without a way to be woken.
   [inv_fresh]: jobs run in the order of their ids; wakers stored anywhere belong to jobs that ran before; the waker
   of the running job is live until the job registers it.
   [inv_token]: while the stream exists and poll_fn is Some there is always a "token": a queued or running job, a live
   waker registered with the input or in backpressure_release_notify, or a wake in flight. *)
From stdpp Require Import list numbers option.
From Pipe Require Import Model Base Step Notify.

(* jobs run in the order of their ids: the ids below [started s] have left the queue.  [bound s]: the ids whose PipeWaker may
   be stored somewhere (or have been called) lie below it - all jobs that ran before, and the running job once it has handed its
   waker to the input (l.341) *)
Definition started (s : state) : nat := s.(njobs) - length s.(jobq).
Definition bound (s : state) : nat :=
  match s.(running) with
  | Some (j, (JPendStore | JClear)) => S j
  | Some (j, _) => j
  | None => started s
  end.
Definition opt_lt (o : option nat) (b : nat) : Prop := match o with Some k => k < b | None => True end.
Definition wk_lt (w : wk) (b : nat) : Prop := match w with WCall k => k < b | _ => True end.

Lemma wk_lt_of o b : opt_lt o b -> wk_lt (wk_of o) b.
Proof. by destruct o. Qed.

Definition ids_lt (b : nat) (s : state) : Prop :=
  opt_lt s.(inp_waker) b /\ opt_lt s.(nsc) b /\ opt_lt s.(bp) b /\ wk_lt s.(cwk) b /\ wk_lt s.(ewk) b /\
  Forall (fun k => k < b) s.(wtaken).

Lemma ids_lt_mono b b' s : b <= b' -> ids_lt b s -> ids_lt b' s.
Proof.
  unfold ids_lt, opt_lt, wk_lt. intros Hb (P1 & P2 & P3 & P4 & P5 & P6).
  split_and!; [destruct (inp_waker s)|destruct (nsc s)|destruct (bp s)|destruct (cwk s)|destruct (ewk s)|]; try done; try lia.
  revert P6. apply Forall_impl. intros; lia.
Qed.

Section Token.
  Context (F : pfacts) (f : nat -> nat).

  Definition inv_fresh (s : state) : Prop :=
    length s.(jobq) <= s.(njobs) /\
    s.(jobq) = seq (started s) (length s.(jobq)) /\
    (forall j pc, s.(running) = Some (j, pc) -> S j = started s) /\
    opt_lt s.(inp_waker) (bound s) /\ opt_lt s.(nsc) (bound s) /\ opt_lt s.(bp) (bound s) /\
    wk_lt s.(cwk) (bound s) /\ wk_lt s.(ewk) (bound s) /\
    Forall (fun k => k < bound s) s.(wtaken).

  Lemma inv_fresh_init inputs sl ext : inv_fresh (init_slow F inputs sl ext).
  Proof. unfold inv_fresh, started, bound; cbn. split_and!; try done; lia. Qed.

  (* the part of [inv_fresh] about job ids; it alone determines how [bound] moves *)
  Definition inv_jobs (s : state) : Prop :=
    length s.(jobq) <= s.(njobs) /\ s.(jobq) = seq (started s) (length s.(jobq)) /\
    (forall j pc, s.(running) = Some (j, pc) -> S j = started s).

  Lemma inv_fresh_ids s : inv_fresh s <-> inv_jobs s /\ ids_lt (bound s) s.
  Proof. unfold inv_fresh, inv_jobs, ids_lt. tauto. Qed.

  Lemma step_bound s a s' : inv_jobs s -> step F f s a = Some s' -> inv_jobs s' /\ bound s <= bound s'.
  Proof.
    intros (H0 & H1 & H2) Hs. step_cases Hs.
    all: try specialize (H2 _ _ Er).
    all: unfold inv_jobs, bound, started in *; cbn; try done.
    (* the head of the queue starts: it is job [started s] *)
    all: on @s_start
           (rewrite Er, Eq in *; cbn in *; injection H1 as -> Hq;
            replace (njobs s - length q) with (S (njobs s - S (length q))) by lia;
            split; [split_and!; [lia|done|by intros ?? [= <- _]]|lia]).
    all: on @s_job (rewrite Er; cbn; split; [split_and!; [done|done|intros ?? [=]; by subst]|lia]).
    all: on @w_enq, @w_enq_last
           (rewrite app_length, Nat.add_1_r, seq_S; cbn; split; [split_and!; [lia|rewrite <- H1; do 2 f_equal; lia|done]|lia]).
  Qed.

  Lemma step_inv_fresh s a s' : inv_fresh s -> step F f s a = Some s' -> inv_fresh s'.
  Proof.
    rewrite !inv_fresh_ids. intros [Hj Hids] Hs. destruct (step_bound _ _ _ Hj Hs) as [Hj' Hb]. split; [done|].
    apply (ids_lt_mono _ _ _ Hb) in Hids. destruct Hj as (_ & _ & Hr). clear Hj' Hb.
    destruct Hids as (P1 & P2 & P3 & P4 & P5 & P6). step_cases Hs.
    all: match goal with |- ids_lt ?b _ => set (b' := b) in * end.
    all: unfold ids_lt; cbn; split_and!; try assumption; try done.
    (* the job stores its waker: the bound moves past its id *)
    all: on @j_full, @j_pend_store (specialize (Hr _ _ Er); unfold started in Hr; lia).
    all: on @j_input_pend lia.
    all: on @s_poll, @s_drop (by apply wk_lt_of).
    all: on @s_item, @s_end (by apply wk_lt_of).
    all: on @w_call (rewrite Ew in *; by apply Forall_cons).
  Qed.

  Lemma reach_inv_fresh inputs sl ext tr s : run F f (init_slow F inputs sl ext) tr = Some s -> inv_fresh s.
  Proof. apply run_invariant_all; [apply inv_fresh_init|apply step_inv_fresh]. Qed.

  (* the running job will wake the producer again or register a waker - unless all it has left to do is to store its
     waker in notify_stream_closed (l.349), which wakes nobody *)
  Definition running_token (s : state) : bool :=
    match s.(running) with Some (_, JPendStore) => false | Some _ => true | None => false end.
  Definition tokens (s : state) : bool :=
    match s.(jobq) with [] => false | _ => true end || running_token s
    || live_opt s s.(inp_waker) || live_opt s s.(bp) || wk_tok s s.(cwk) || wk_tok s s.(ewk).
  Definition inv_token (s : state) : Prop :=
    s.(poll_fn) = true -> dropped s = false -> tokens s = true.

  Lemma inv_token_init inputs sl ext : inv_token (init_slow F inputs sl ext).
  Proof. done. Qed.

  Lemma fresh_live (wt : list nat) b j : Forall (fun k => k < b) wt -> b <= j -> live_in wt j = true.
  Proof.
    intros Hf Hb. apply negb_true_iff, bool_decide_eq_false. intros Hin.
    rewrite Forall_forall in Hf. apply elem_of_list_In in Hin. specialize (Hf _ Hin). lia.
  Qed.

  Lemma wk_tokw_of wt o : wk_tokw wt (wk_of o) = live_optw wt o.
  Proof. by destruct o. Qed.

  Lemma step_inv_token s a s' : inv_fresh s -> inv_shape s -> inv_token s -> step F f s a = Some s' -> inv_token s'.
  Proof.
    intros (_ & _ & _ & _ & _ & _ & _ & _ & Hf) Hsh Ht Hs. step_cases Hs.
    all: unfold inv_token, tokens, running_token, dropped, wk_tok, live_opt, is_live, bound in *; cbn.
    all: try (rewrite Er in *; cbn in * ).
    all: try (rewrite Ew in Ht; cbn in Ht).
    all: try assumption; try done.
    (* a queued or running job, or a wake that has got past the waker, is a token *)
    all: try (intros _ _; by rewrite ?orb_true_r).
    all: on @j_start_none (intros Hp; congruence).
    (* the job registers its own waker, which nobody has called yet *)
    all: on @j_full, @j_input_pend (intros _ _; by rewrite (fresh_live _ _ _ Hf (le_n _)), ?orb_true_r).
    (* the token moves from [bp] into the consumer's slot, which was idle *)
    all: on @p_item, @p_pend
           (intros Hp _; specialize (Ht Hp (outside_not_dropped _ Ho)); rewrite (inv_shape_outside _ Hsh Ho) in Ht;
            rewrite wk_tokw_of; destruct (live_optw _ (bp s)); [by rewrite ?orb_true_r|exact Ht]).
    all: on @p_end (intros Hp _; exact (Ht Hp (outside_not_dropped _ Ho))).
    all: on @s_ret (rewrite Ew; rewrite Ec in Ht; by destruct b).
    all: on @s_item, @s_end
           (rewrite wk_tokw_of; destruct (live_optw _ (inp_waker s)); [intros _ _; by rewrite ?orb_true_r|exact Ht]).
    all: on @w_call_dead (by rewrite Hl in Ht).
    all: on @w_enq, @w_enq_last (intros _ _; by destruct (jobq s)).
  Qed.

  Lemma reach_inv_token inputs sl ext tr s : run F f (init_slow F inputs sl ext) tr = Some s -> inv_token s.
  Proof.
    apply (run_invariant_from F f (fun s => inv_fresh s /\ inv_shape s)); [|apply inv_token_init|].
    - intros tr' s' Hr. split; [by eapply reach_inv_fresh|by eapply reach_inv_shape].
    - intros s0 a s' []. by apply step_inv_token.
  Qed.

  (* C12.3 (a): the producer can always be woken *)
  Theorem backpressure_release inputs sl ext tr s :
    run F f (init_slow F inputs sl ext) tr = Some s ->
    s.(jobq) = [] -> s.(running) = None -> dropped s = false -> s.(poll_fn) = true ->
    live_opt s s.(inp_waker) = true \/ live_opt s s.(bp) = true \/ wk_tok s s.(cwk) = true \/ wk_tok s s.(ewk) = true.
  Proof.
    intros Hr Hq Hrun Hd Hp. pose proof (reach_inv_token _ _ _ _ _ Hr Hp Hd) as Ht.
    unfold tokens, running_token in Ht. rewrite Hq, Hrun in Ht. cbn in Ht.
    repeat match type of Ht with (_ || _) = true => apply orb_prop in Ht as [Ht|Ht] end; auto.
  Qed.

  (* C12.3 (b): every consumer poll that does not end the stream takes backpressure_release_notify, in the same
     critical section in which it pops / registers; the taken waker goes into the consumer's wake slot *)
  Theorem consumer_poll_takes_backpressure s a s' :
    a = ACPoll \/ a = ACProbe ->
    step F f s a = Some s' -> s'.(cst) <> CDone -> s'.(bp) = None /\ s'.(cwk) = wk_of s.(bp).
  Proof.
    intros Ha Hs. assert (Hp : poll_step F s = Some s').
    { destruct Ha as [-> | ->]; cbn in Hs; [destruct (pollable s)|destruct (probe_pollable s)]; done. }
    unfold poll_step in Hp. destruct (pending s); [destruct (closed s)|].
    all: injection Hp as <-; cbn; try done.
  Qed.
End Token.
