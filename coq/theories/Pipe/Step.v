(* Pipe layer: [step] as a relation.  One constructor per control-flow path, the tests that select the path as
   hypotheses, the successor state written as an update of [s].  The step lemmas of the invariants go by cases on
   this relation and never look inside [s].  The hypotheses of the constructors carry names ([Er] for the running
   job, [Ec] for [cst], [Ew] for the wake slot, ...): [destruct] introduces them under these names, and the step
   lemmas refer to them. *)
From stdpp Require Import list numbers option.
From RecordUpdate Require Import RecordUpdate.
From Pipe Require Import Model Base.

Lemma wk_idle_true w : wk_idle w = true -> w = WIdle.
Proof. by destruct w. Qed.

(* turn the boolean tests of [step] into propositions *)
Ltac bool_hyps :=
  repeat match goal with
  | H : _ && _ = true |- _ => apply andb_prop in H as [? ?]
  | H : _ && _ = false |- _ => apply andb_false_iff in H
  | H : wk_idle _ = true |- _ => apply wk_idle_true in H
  | H : negb _ = true |- _ => apply negb_true_iff in H
  | H : (_ <? _) = true |- _ => apply Nat.ltb_lt in H
  | H : (_ <=? _) = true |- _ => apply Nat.leb_le in H
  | H : (_ <=? _) = false |- _ => apply Nat.leb_gt in H
  | H : (_ =? _) = true |- _ => apply Nat.eqb_eq in H
  | H : (_ =? _) = false |- _ => apply Nat.eqb_neq in H
  | H : bool_decide _ = true |- _ => apply bool_decide_eq_true in H
  | H : bool_decide _ = false |- _ => apply bool_decide_eq_false in H
  end.

Lemma wk_of_false (P : wk -> bool) o : P WIdle = false -> (forall j, P (WCall j) = false) -> P (wk_of o) = false.
Proof. destruct o; cbn; auto. Qed.

Lemma outside_not_dropped s : outside_poll s = true -> dropped s = false.
Proof. unfold outside_poll, dropped. by destruct (cst s). Qed.

Section Step.
  Context (F : pfacts) (f : nat -> nat).

  Inductive jstep (s : state) (j : nat) : jpc -> state -> Prop :=
  | j_start_none (Hpf : poll_fn s = false) : jstep s j JStart (s <| running := None |>)
  | j_start_gone (Hpf : poll_fn s = true) (Ec : cst s = CGone) : jstep s j JStart (s <| running := Some (j, JClear) |>)
  | j_start (Hpf : poll_fn s = true) (Ec : cst s <> CGone) : jstep s j JStart (s <| running := Some (j, JFull) |>)
  | j_full (Hlk : core_locked s = false) (Hd : depth s <= length (pending s)) :
      jstep s j JFull (s <| bp := Some j |> <| running := None |>)
  | j_full_closed (Hlk : core_locked s = false) (Hd : length (pending s) < depth s) (Hcl : closed s = true) :
      jstep s j JFull (s <| running := Some (j, JClosedTake) |>)
  | j_full_open (Hlk : core_locked s = false) (Hd : length (pending s) < depth s) (Hcl : closed s = false) :
      jstep s j JFull (s <| running := Some (j, JLoop) |>)
  | j_closed_take (Hlk : core_locked s = false) :
      jstep s j JClosedTake (s <| notify := None |> <| running := Some (j, JWake (notify s) KRet) |>)
  | j_loop (Hlk : core_locked s = false) : jstep s j JLoop (s <| nsc := None |> <| running := Some (j, JInput) |>)
  | j_input_item x r n (Ei : inp_rest s = x :: r) (Ea : inp_avail s = S n) :
      jstep s j JInput (s <| inp_rest := r |> <| inp_avail := n |> <| taken := taken s ++ [x] |>
                          <| running := Some (j, JProc x) |>)
  | j_input_end (Ei : inp_rest s = [] \/ inp_avail s = 0) (He : inp_ended s = true) :
      jstep s j JInput (s <| running := Some (j, JEndClose) |>)
  | j_input_pend (Ei : inp_rest s = [] \/ inp_avail s = 0) (He : inp_ended s = false) :
      jstep s j JInput (s <| inp_waker := Some j |> <| running := Some (j, JPendStore) |>)
  | j_pend_closed (Hlk : core_locked s = false) (Hre : f_pending_recheck F = true) (Hcl : closed s = true) :
      jstep s j JPendStore (s <| running := Some (j, JClear) |>)
  | j_pend_store (Hlk : core_locked s = false) (Hre : f_pending_recheck F = false \/ closed s = false) :
      jstep s j JPendStore (s <| nsc := Some j |> <| running := None |>)
  | j_end_close (Hlk : core_locked s = false) :
      jstep s j JEndClose (s <| closed := true |> <| notify := None |> <| running := Some (j, JWake (notify s) KRet) |>)
  | j_proc_slow x (Hsl : x ∈ slow s) : jstep s j (JProc x) (s <| running := Some (j, JSusp x) |>)
  | j_proc x (Hsl : x ∉ slow s) : jstep s j (JProc x) (s <| running := Some (j, JPush (f x)) |>)
  | j_susp x : jstep s j (JSusp x) (s <| running := Some (j, JPush (f x)) |>)
  | j_push v (Hlk : core_locked s = false) :
      jstep s j (JPush v) (s <| pending := pending s ++ [v] |> <| notify := None |>
                             <| running := Some (j, JWake (notify s) KLoop) |>)
  | j_wake_loop : jstep s j (JWake (Some (clatest s)) KLoop) (s <| cwoken := true |> <| running := Some (j, JLoop) |>)
  | j_wake_ret : jstep s j (JWake (Some (clatest s)) KRet) (s <| cwoken := true |> <| running := Some (j, JClear) |>)
  | j_nowake_loop n (Hn : n <> Some (clatest s)) : jstep s j (JWake n KLoop) (s <| running := Some (j, JLoop) |>)
  | j_nowake_ret n (Hn : n <> Some (clatest s)) : jstep s j (JWake n KRet) (s <| running := Some (j, JClear) |>)
  | j_clear : jstep s j JClear (s <| poll_fn := false |> <| running := None |>).

  Lemma job_step_spec s j pc s' : job_step F f s j pc = Some s' -> jstep s j pc s'.
  Proof.
    unfold job_step, core_gone. destruct pc; repeat case_match; intros [= <-]; bool_hyps; subst.
    all: by econstructor; eauto; congruence.
  Qed.

  (* [o]: some strong reference to the Desync exists besides this thread's temporary one *)
  Inductive wstep (s : state) (o : bool) : wk -> wk -> state -> Prop :=
  | w_call j (Hl : is_live s j = true) : wstep s o (WCall j) WCtx (s <| wtaken := j :: wtaken s |>)
  | w_call_dead j (Hl : is_live s j = false) : wstep s o (WCall j) WIdle s
  | w_ctx (Hal : desync_alive s = true) : wstep s o WCtx WEnq s
  | w_ctx_dead (Hal : desync_alive s = false) : wstep s o WCtx WTakeFn s
  | w_enq (Ho : o = true) : wstep s o WEnq WIdle (s <| jobq := jobq s ++ [njobs s] |> <| njobs := S (njobs s) |>)
  | w_enq_last (Ho : o = false) : wstep s o WEnq WSync (s <| jobq := jobq s ++ [njobs s] |> <| njobs := S (njobs s) |>)
  | w_takefn : wstep s o WTakeFn WIdle (s <| poll_fn := false |>)
  | w_sync (Hdr : drained s = true) : wstep s o WSync WIdle (s <| freed := S (freed s) |>).

  Lemma wake_step_spec s o w w' s1 : wake_step s o w = Some (w', s1) -> wstep s o w w' s1.
  Proof. destruct w, o; cbn; repeat case_match; intros [= <- <-]; by constructor. Qed.

  Inductive pollstep (s : state) : state -> Prop :=
  | p_item v p (Ep : pending s = v :: p) :
      pollstep s (s <| pending := p |> <| delivered := delivered s ++ [v] |> <| bp := None |> <| cwk := wk_of (bp s) |>
                    <| cst := CRun false |>)
  | p_end (Ep : pending s = []) (Hcl : closed s = true) : pollstep s (s <| cst := CDone |> <| got_end := true |>)
  | p_pend (Ep : pending s = []) (Hcl : closed s = false) :
      pollstep s (s <| bp := None |> <| cwk := wk_of (bp s) |>
                    <| notify := match notify s with
                                 | Some w0 => if f_poll_next_replaces_waker F then Some (cw_next s) else Some w0
                                 | None => Some (cw_next s)
                                 end |>
                    <| cw_next := S (cw_next s) |> <| clatest := cw_next s |> <| cwoken := false |> <| cst := CRun true |>).

  Lemma poll_step_spec s s' : poll_step F s = Some s' -> pollstep s s'.
  Proof.
    unfold poll_step. destruct (pending s) eqn:?; [destruct (closed s) eqn:?|]; intros [= <-].
    - by apply p_end.
    - by apply p_pend.
    - by eapply p_item.
  Qed.

  Inductive pstep (s : state) : actor -> state -> Prop :=
  | s_start j q (Er : running s = None) (Eq : jobq s = j :: q) :
      pstep s AProd (s <| jobq := q |> <| running := Some (j, JStart) |>)
  | s_job j pc s' (Er : running s = Some (j, pc)) (Hj : jstep s j pc s') : pstep s AProd s'
  | s_poll a s' (Ha : a = ACPoll \/ a = ACProbe) (Ho : outside_poll s = true) (Hp : pollstep s s') : pstep s a s'
  | s_ret b (Ew : cwk s = WIdle) (Ec : cst s = CRun b) : pstep s ACons (s <| cst := if b then CPend else CIdle |>)
  | s_drop1 (Ew : cwk s = WIdle) (Ec : cst s = CDrop1) :
      pstep s ACons (s <| chute := if f_drop_wakes_before_dispose F then ChQueued else chute s |> <| cst := CDrop2 |>)
  | s_drop2 (Ew : cwk s = WIdle) (Ec : cst s = CDrop2) : pstep s ACons (s <| cst := CGone |>)
  | s_cons_wake w w' s1 (Ew : cwk s = w) (Hw : wstep s (strong_held s || ext_owner s || is_enq (ewk s)) w w' s1) :
      pstep s ACons (s1 <| cwk := w' |>)
  | s_drop (Ho : outside_poll s = true) :
      pstep s ACDrop (s <| pending := [] |> <| closed := true |> <| nsc := None |> <| cwk := wk_of (nsc s) |>
                        <| chute := if f_drop_wakes_before_dispose F then chute s else ChQueued |> <| cst := CDrop1 |>)
  | s_depth d (Ho : outside_poll s = true) : pstep s (ACSetDepth d) (s <| depth := d |>)
  | s_item (Ew : ewk s = WIdle) (He : inp_ended s = false) (Ea : inp_avail s < length (inp_rest s)) :
      pstep s AItem (s <| inp_avail := S (inp_avail s) |> <| inp_waker := None |> <| ewk := wk_of (inp_waker s) |>)
  | s_end (Ew : ewk s = WIdle) (He : inp_ended s = false) (Ea : inp_avail s = length (inp_rest s)) :
      pstep s AEnd (s <| inp_ended := true |> <| inp_waker := None |> <| ewk := wk_of (inp_waker s) |>)
  | s_env_wake w w' s1 (Ew : ewk s = w) (Hw : wstep s (strong_held s || ext_owner s || is_enq (cwk s)) w w' s1) :
      pstep s AEnv (s1 <| ewk := w' |>)
  | s_dispose (Ech : chute s = ChQueued) :
      pstep s ADispose (s <| strong_held := false |>
                          <| chute := if ext_owner s || is_enq (cwk s) || is_enq (ewk s) then ChIdle else ChSync |>)
  | s_dispose_sync (Ech : chute s = ChSync) (Hdr : drained s = true) :
      pstep s ADispose (s <| chute := ChIdle |> <| freed := S (freed s) |>)
  | s_ext_drop (Hx : ext_owner s = true) :
      pstep s AExtDrop (s <| ext_owner := false |> <| xsync := negb (strong_held s || is_enq (cwk s) || is_enq (ewk s)) |>)
  | s_ext_sync (Hx : xsync s = true) (Hdr : drained s = true) :
      pstep s AExtSync (s <| xsync := false |> <| freed := S (freed s) |>).

  Lemma step_spec s a s' : step F f s a = Some s' -> pstep s a s'.
  Proof.
    assert (Hpoll : forall b, b = ACPoll \/ b = ACProbe -> pollable s || probe_pollable s = true ->
                              poll_step F s = Some s' -> pstep s b s').
    { intros b Hb Hc Hp. apply s_poll; [done| |by apply poll_step_spec].
      unfold pollable, probe_pollable, outside_poll in *. by destruct (cst s). }
    destruct a; cbn [step].
    - destruct (running s) as [[j pc]|] eqn:Hr.
      + intros Hj. eapply s_job; [done|by apply job_step_spec].
      + destruct (jobq s) eqn:Hq; intros [= <-]. by apply s_start.
    - destruct (pollable s) eqn:Hc; [|done]. by apply Hpoll; [left|].
    - destruct (probe_pollable s) eqn:Hc; [|done]. apply Hpoll; [by right|by rewrite orb_true_r].
    - destruct (wk_idle (cwk s)) eqn:Hi.
      + apply wk_idle_true in Hi. destruct (cst s) eqn:Hc; intros [= <-]; by constructor.
      + destruct (wake_step _ _ _) as [[w' s1]|] eqn:Hw; cbn; intros [= <-]. eapply s_cons_wake; [done|by apply wake_step_spec].
    - destruct (outside_poll s) eqn:Hc; intros [= <-]. by apply s_drop.
    - destruct (outside_poll s) eqn:Hc; intros [= <-]. by apply s_depth.
    - case_match; intros [= <-]. bool_hyps. by apply s_item.
    - case_match; intros [= <-]. bool_hyps. by apply s_end.
    - destruct (wake_step _ _ _) as [[w' s1]|] eqn:Hw; cbn; intros [= <-]. eapply s_env_wake; [done|by apply wake_step_spec].
    - destruct (chute s) eqn:Hc; [done|intros [= <-]; by apply s_dispose|].
      destruct (drained s) eqn:Hd; intros [= <-]. by apply s_dispose_sync.
    - destruct (ext_owner s) eqn:He; intros [= <-]. by apply s_ext_drop.
    - case_match; intros [= <-]. bool_hyps. by apply s_ext_sync.
  Qed.
End Step.

(* [Hs : step F f s a = Some s']: one goal per control-flow path of the step.  Each goal carries a hypothesis
   [step_is c] for the constructor [c] of its path (and for the constructor of [pstep] above it), so that a proof can
   say which step a piece of reasoning is about: [all: on @j_push (tac)] runs [tac] in the goals of that step only
   ([on @c, @c' (tac)]: of either step).
   The lists below follow the order of the constructors. *)
Definition step_is {T} (c : T) : Prop := True.
Ltac tag c := pose proof (I : step_is c).
Tactic Notation "on" constr(c) tactic3(t) := lazymatch goal with _ : step_is c |- _ => t | _ => idtac end.
Tactic Notation "on" constr(c) "," constr(c') tactic3(t) := on c t; on c' t.
Tactic Notation "on" constr(c) "," constr(c') "," constr(c'') tactic3(t) := on c t; on c' t; on c'' t.

Ltac job_cases :=
  match goal with H : jstep _ _ _ _ _ _ |- _ => destruct H end;
  [ tag @j_start_none | tag @j_start_gone | tag @j_start | tag @j_full | tag @j_full_closed | tag @j_full_open
  | tag @j_closed_take | tag @j_loop | tag @j_input_item | tag @j_input_end | tag @j_input_pend | tag @j_pend_closed
  | tag @j_pend_store | tag @j_end_close | tag @j_proc_slow | tag @j_proc | tag @j_susp | tag @j_push | tag @j_wake_loop
  | tag @j_wake_ret | tag @j_nowake_loop | tag @j_nowake_ret | tag @j_clear ].
Ltac poll_cases :=
  match goal with H : pollstep _ _ _ |- _ => destruct H end; [ tag @p_item | tag @p_end | tag @p_pend ].
Ltac wake_cases :=
  match goal with H : wstep _ _ _ _ _ |- _ => destruct H end;
  [ tag @w_call | tag @w_call_dead | tag @w_ctx | tag @w_ctx_dead | tag @w_enq | tag @w_enq_last | tag @w_takefn | tag @w_sync ].
Ltac step_cases Hs :=
  apply step_spec in Hs; destruct Hs;
  [ tag @s_start | tag @s_job; job_cases | tag @s_poll; poll_cases | tag @s_ret | tag @s_drop1 | tag @s_drop2
  | tag @s_cons_wake; wake_cases | tag @s_drop | tag @s_depth | tag @s_item | tag @s_end | tag @s_env_wake; wake_cases
  | tag @s_dispose | tag @s_dispose_sync | tag @s_ext_drop | tag @s_ext_sync ].
