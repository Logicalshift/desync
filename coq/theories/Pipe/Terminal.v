(* Pipe layer, C12 part 4: terminal completeness.  In every reachable state in which no mandatory actor can move and the
   consumer has not dropped the stream, the consumer has received [f <$> inputs] followed by end-of-stream.
   Unbounded in the input and in the depth (>= 1, also when changed by set_backpressure_depth). *)
From stdpp Require Import list numbers option.
From Pipe Require Import Model Base Step Data Notify Token Closed.

Section Terminal.
  Context (F : pfacts) (f : nat -> nat).
  Context (Hrep : F.(f_poll_next_replaces_waker) = true).

  Definition depth_ok (a : actor) : Prop := a <> ACSetDepth 0.

  Lemma prod_disabled s : step F f s AProd = None -> core_locked s = false -> s.(running) = None /\ s.(jobq) = [].
  Proof.
    destruct s; unfold core_locked; cbn. intros H Hl.
    destruct running as [[j pc]|]; [exfalso|by destruct jobq].
    unfold job_step, core_locked, core_gone in H; cbn in H. rewrite ?Hl in H.
    destruct pc; cbn in H; rewrite ?Hl in H; repeat case_match; discriminate.
  Qed.

  Lemma poll_step_some s : poll_step F s <> None.
  Proof. unfold poll_step. destruct (pending s); [destruct (closed s)|]; done. Qed.

  (* a thread calling a PipeWaker can always move, unless it is inside Desync::drop waiting for the queue to drain *)
  Lemma wake_disabled s o w : wake_step s o w = None -> w = WIdle \/ (w = WSync /\ drained s = false).
  Proof. destruct w; cbn; repeat case_match; try done; auto. Qed.

  Lemma env_disabled s : step F f s AEnv = None -> s.(ewk) = WIdle \/ (s.(ewk) = WSync /\ drained s = false).
  Proof. cbn. destruct (wake_step _ _ _) as [[]|] eqn:E; [done|]. intros _. exact (wake_disabled _ _ _ E). Qed.

  Lemma cons_disabled s : step F f s ACons = None ->
    (s.(cwk) = WIdle /\ match s.(cst) with CRun _ | CDrop1 | CDrop2 => False | _ => True end) \/
    (s.(cwk) = WSync /\ drained s = false).
  Proof.
    cbn. destruct (wk_idle (cwk s)) eqn:Ei.
    - apply wk_idle_true in Ei. intros H. left. split; [done|]. by destruct (cst s).
    - destruct (wake_step _ _ _) as [[]|] eqn:E; [done|]. intros _.
      destruct (wake_disabled _ _ _ E) as [Hw|?]; [|by right]. by rewrite Hw in Ei.
  Qed.

  Lemma input_finished s :
    s.(inp_avail) <= length s.(inp_rest) -> s.(ewk) = WIdle ->
    step F f s AItem = None -> step F f s AEnd = None -> s.(inp_ended) = true.
  Proof.
    intros Hle He H1 H2. unfold step in H1, H2. rewrite He in H1, H2.
    destruct (inp_ended s); [done|exfalso].
    destruct (decide (inp_avail s < length (inp_rest s))) as [Hlt|Hge].
    - apply Nat.ltb_lt in Hlt. rewrite Hlt in H1. cbn in H1. done.
    - assert (Heq : inp_avail s = length (inp_rest s)) by lia.
      apply Nat.eqb_eq in Heq. rewrite Heq in H2. cbn in H2. done.
  Qed.

  (* C12.4 *)
  Theorem terminal_complete inputs sl ext tr s :
    1 <= F.(f_default_depth) -> Forall depth_ok tr ->
    run F f (init_slow F inputs sl ext) tr = Some s ->
    terminal F f s -> dropped s = false ->
    s.(delivered) = f <$> inputs /\ s.(got_end) = true /\ s.(cst) = CDone.
  Proof.
    intros Hd Hok Hr Hterm Hnd.
    destruct (reach_inv_data F f _ _ _ _ _ Hr) as (Hin & Havail & _ & Hwaker & Hout & _).
    destruct (reach_inv_notify F f Hrep _ _ _ _ _ Hr) as [Hna Hnb].
    destruct (reach_inv_closed F f _ _ _ _ _ Hr) as (_ & _ & Hfn & Hclosed & _ & _ & Hdone').
    pose proof (reach_inv_bp F f Hrep _ _ _ _ _ Hd Hok Hr) as Hbp.
    assert (Hlk : core_locked s = false) by (unfold core_locked, dropped in *; destruct (cst s); done).
    destruct (prod_disabled s (Hterm AProd eq_refl) Hlk) as [Hrun Hq].
    assert (Hdr : drained s = true) by (unfold drained; rewrite Hq, Hrun; done).
    assert (Hew : ewk s = WIdle) by (destruct (env_disabled s (Hterm AEnv eq_refl)) as [?|[_ ?]]; [done|congruence]).
    destruct (cons_disabled s (Hterm ACons eq_refl)) as [[Hcw Hcst]|[_ ?]]; [|congruence].
    pose proof (input_finished s Havail Hew (Hterm AItem eq_refl) (Hterm AEnd eq_refl)) as Hend.
    pose proof (Hterm ACPoll eq_refl) as Hpoll.
    assert (Hdone : cst s = CDone).
    { pose proof Hnd as Hnd'. unfold dropped in Hnd'.
      destruct (cst s) eqn:Ec; try done.
      - (* CIdle: the consumer could poll *)
        exfalso. cbn in Hpoll. unfold pollable in Hpoll. rewrite Ec in Hpoll. by apply (poll_step_some s).
      - (* CPend *)
        exfalso. destruct (cwoken s) eqn:Ew.
        { cbn in Hpoll. unfold pollable in Hpoll. rewrite Ec, Ew in Hpoll. by apply (poll_step_some s). }
        assert (Hw : cons_waiting s = true) by (unfold cons_waiting; rewrite Ec, Ew; done).
        destruct (Hnb Hw) as [Hn|Hi]; [|unfold cons_wake_inflight in Hi; rewrite Hrun in Hi; done].
        assert (Hn' : is_Some (notify s)) by (rewrite Hn; eauto).
        destruct (Hna Hnd Hn') as [Hp Hcl].
        specialize (Hbp Hnd Hn').
        destruct (poll_fn s) eqn:Epf; [|specialize (Hfn Hnd eq_refl); congruence].
        (* some waker can still wake the producer (C12.3): only the input's is left, but the input has ended *)
        destruct (backpressure_release F f _ _ _ _ _ Hr Hq Hrun Hnd Epf) as [Hl|[Hl|[Hl|Hl]]];
          [|by rewrite Hbp in Hl|by rewrite Hcw in Hl|by rewrite Hew in Hl].
        destruct (inp_waker s) eqn:Ei; [|done].
        destruct (Hwaker (ltac:(eauto))) as [_ ?]. congruence. }
    split_and!; [|by apply Hdone'|done].
    destruct (Hdone' Hdone) as (Hcl & Hp & _). destruct (Hclosed Hnd Hcl) as [Hrest _].
    specialize (Hout Hnd). unfold job_inflight in Hout. rewrite Hrun, Hp, !app_nil_r in Hout.
    rewrite Hin, Hrest, app_nil_r. done.
  Qed.
End Terminal.
