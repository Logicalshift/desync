From stdpp Require Import list numbers option.
From Pipe Require Import Model.

Section Run.
  Context (F : pfacts) (f : nat -> nat).

  Lemma run_nil s : run F f s [] = Some s.
  Proof. done. Qed.

  Lemma run_none tr : foldl (fun os a => o ← os; step F f o a) None tr = None.
  Proof. induction tr as [|a tr IH]; cbn; [done|exact IH]. Qed.

  Lemma run_cons s a tr : run F f s (a :: tr) = s1 ← step F f s a; run F f s1 tr.
  Proof.
    unfold run; cbn. destruct (step F f s a) as [s1|]; cbn; [done|apply run_none].
  Qed.

  Lemma run_snoc s tr a : run F f s (tr ++ [a]) = s1 ← run F f s tr; step F f s1 a.
  Proof. unfold run. rewrite foldl_app. cbn. done. Qed.

  Lemma run_app s tr1 tr2 : run F f s (tr1 ++ tr2) = s1 ← run F f s tr1; run F f s1 tr2.
  Proof.
    unfold run. rewrite foldl_app. destruct (foldl _ (Some s) tr1) as [s1|]; cbn; [done|apply run_none].
  Qed.

  (* [Q]: an invariant already known of every reachable state, available at the source of each step *)
  Lemma run_invariant (ok : actor -> Prop) (Q P : state -> Prop) s0 :
    (forall tr s, Forall ok tr -> run F f s0 tr = Some s -> Q s) ->
    P s0 ->
    (forall s a s', ok a -> Q s -> P s -> step F f s a = Some s' -> P s') ->
    forall tr s, Forall ok tr -> run F f s0 tr = Some s -> P s.
  Proof.
    intros HQ H0 Hstep tr. induction tr as [|a tr IH] using rev_ind; intros s Hok.
    - cbn. intros [= <-]. done.
    - rewrite run_snoc. apply Forall_app in Hok as [Hok1 Hok2]. apply Forall_cons_1 in Hok2 as [Hok2 _].
      destruct (run F f s0 tr) as [s1|] eqn:E; cbn; [|done].
      apply Hstep; [exact Hok2|by apply (HQ tr)|by apply IH].
  Qed.

  Lemma run_invariant_from (Q P : state -> Prop) s0 :
    (forall tr s, run F f s0 tr = Some s -> Q s) ->
    P s0 ->
    (forall s a s', Q s -> P s -> step F f s a = Some s' -> P s') ->
    forall tr s, run F f s0 tr = Some s -> P s.
  Proof.
    intros HQ H0 Hstep tr s Hr.
    apply (run_invariant (fun _ => True) Q P s0 (fun tr s _ => HQ tr s) H0 (fun s a s' _ => Hstep s a s') tr s); [|done].
    by apply Forall_true.
  Qed.

  Lemma run_invariant_all (P : state -> Prop) s0 :
    P s0 ->
    (forall s a s', P s -> step F f s a = Some s' -> P s') ->
    forall tr s, run F f s0 tr = Some s -> P s.
  Proof. intros H0 Hstep. apply (run_invariant_from (fun _ => True)); [done|done|]. intros s a s' _. apply Hstep. Qed.
End Run.
