(* Pipe layer, C12 part 2: the consumer is always woken.
   [inv_notify]: (a) while the stream exists, the consumer's waker is never left in `notify` when there is something
   to read; (b) a consumer that returned Pending and has not been woken has its waker in `notify` or in flight. *)
From stdpp Require Import list numbers option.
From Pipe Require Import Model Base Step.

Section Notify.
  Context (F : pfacts) (f : nat -> nat).

  (* the consumer's wake slot is only busy inside poll_next (after the lock section) and inside Drop *)
  Definition inv_shape (s : state) : Prop :=
    match s.(cst) with CRun _ | CDrop1 => True | _ => s.(cwk) = WIdle end.

  Lemma inv_shape_init inputs sl ext : inv_shape (init_slow F inputs sl ext).
  Proof. done. Qed.

  Lemma inv_shape_outside s : inv_shape s -> outside_poll s = true -> s.(cwk) = WIdle.
  Proof. unfold inv_shape, outside_poll. by destruct (cst s). Qed.

  Lemma step_inv_shape s a s' : inv_shape s -> step F f s a = Some s' -> inv_shape s'.
  Proof.
    intros H Hs. step_cases Hs.
    all: unfold inv_shape in *; cbn; try assumption; try done.
    all: on @p_end (exact (inv_shape_outside _ H Ho)).
    all: on @s_ret (by destruct b).
    all: on @s_cons_wake (rewrite Ew in H; by destruct (cst s)).
  Qed.

  Lemma reach_inv_shape inputs sl ext tr s : run F f (init_slow F inputs sl ext) tr = Some s -> inv_shape s.
  Proof. apply run_invariant_all; [apply inv_shape_init|apply step_inv_shape]. Qed.

  (* from here on: poll_next REPLACES the stored waker (the code, l.504) *)
  Context (Hrep : F.(f_poll_next_replaces_waker) = true).

  Definition inv_notify (s : state) : Prop :=
    (dropped s = false -> is_Some s.(notify) -> s.(pending) = [] /\ s.(closed) = false) /\
    (cons_waiting s = true -> s.(notify) = Some s.(clatest) \/ cons_wake_inflight s = true).

  Lemma inv_notify_init inputs sl ext : inv_notify (init_slow F inputs sl ext).
  Proof. split; cbn; [by intros _ [? [=]]|done]. Qed.

  Lemma step_inv_notify s a s' : inv_notify s -> step F f s a = Some s' -> inv_notify s'.
  Proof.
    intros (Ha & Hb) Hs. step_cases Hs.
    all: unfold inv_notify, dropped, cons_waiting, cons_wake_inflight in *; cbn.
    all: try (rewrite Er in Hb; cbn in Hb).
    all: split; try assumption; try done; try (by intros _ [? [=]]).
    (* the job takes the waker out of [notify]: it is in flight *)
    all: on @j_closed_take, @j_end_close, @j_push
           (intros Hw; destruct (Hb Hw) as [->|?]; [right; apply Nat.eqb_refl|done]).
    all: on @j_wake_loop, @j_wake_ret (by destruct (cst s) as [|[]| | | | |]).
    all: on @j_nowake_loop, @j_nowake_ret
           (intros Hw; destruct (Hb Hw) as [?|Hi]; [by left|]; destruct n; [apply Nat.eqb_eq in Hi; congruence|done]).
    all: on @p_item, @p_end (intros _ Hn; destruct (Ha (outside_not_dropped _ Ho) Hn); congruence).
    (* the new waker replaces the stored one: this is where [Hrep] is needed *)
    all: on @p_pend (rewrite Hrep; left; by destruct (notify s)).
    all: on @s_ret (rewrite Ec in Ha, Hb; by destruct b).
  Qed.

  Lemma reach_inv_notify inputs sl ext tr s : run F f (init_slow F inputs sl ext) tr = Some s -> inv_notify s.
  Proof. apply run_invariant_all; [apply inv_notify_init|apply step_inv_notify]. Qed.

  (* C12.2, for the LATEST waker *)
  Theorem consumer_always_woken inputs sl ext tr s :
    run F f (init_slow F inputs sl ext) tr = Some s ->
    (s.(cst) = CPend \/ s.(cst) = CRun true) -> (s.(pending) <> [] \/ s.(closed) = true) ->
    s.(notify) = None /\ (s.(cwoken) = true \/ cons_wake_inflight s = true).
  Proof.
    intros Hr Hc Hp. destruct (reach_inv_notify _ _ _ _ _ Hr) as (Ha & Hb).
    assert (Hd : dropped s = false) by (unfold dropped; destruct Hc as [-> | ->]; done).
    assert (Hn : notify s = None).
    { destruct (notify s) eqn:E; [|done]. destruct (Ha Hd ltac:(eauto)) as [H1 H2]. destruct Hp; congruence. }
    split; [done|].
    destruct (cwoken s) eqn:Ew; [by left|right].
    assert (Hw : cons_waiting s = true) by (unfold cons_waiting; destruct Hc as [-> | ->]; rewrite Ew; done).
    destruct (Hb Hw); congruence.
  Qed.

  Definition inv_depth (s : state) : Prop := 1 <= s.(depth).
  Lemma step_inv_depth s a s' : a <> ACSetDepth 0 -> inv_depth s -> step F f s a = Some s' -> inv_depth s'.
  Proof.
    intros Ha H Hs. step_cases Hs; unfold inv_depth in *; cbn; try assumption.
    all: on @s_depth (destruct d; [done|lia]).
  Qed.

  Lemma reach_inv_depth inputs sl ext tr s :
    1 <= F.(f_default_depth) -> Forall (fun a => a <> ACSetDepth 0) tr ->
    run F f (init_slow F inputs sl ext) tr = Some s -> inv_depth s.
  Proof.
    intros Hd. apply (run_invariant F f _ (fun _ => True)); [done|exact Hd|].
    intros s0 a s' Ha _. by apply step_inv_depth.
  Qed.

  Definition inv_bp (s : state) : Prop := dropped s = false -> is_Some s.(notify) -> s.(bp) = None.
  Lemma inv_bp_init inputs sl ext : inv_bp (init_slow F inputs sl ext).
  Proof. by intros _ [? [=]]. Qed.
  Lemma step_inv_bp s a s' :
    inv_depth s -> inv_notify s -> inv_bp s -> step F f s a = Some s' -> inv_bp s'.
  Proof.
    intros Hdp (Hn & _) Hb Hs. step_cases Hs.
    all: unfold inv_bp, inv_depth, dropped in *; cbn; try assumption; try done; try (by intros _ [? [=]]).
    (* the job registers for back-pressure release: the buffer is full, so no consumer waker is stored *)
    all: on @j_full (intros Hd' Hs; destruct (Hn Hd' Hs) as [Hp _]; rewrite Hp in Hd; cbn in Hd; lia).
    all: on @p_end (intros _; exact (Hb (outside_not_dropped _ Ho))).
    all: on @s_ret (rewrite Ec in Hb; by destruct b).
  Qed.

  Lemma reach_inv_bp inputs sl ext tr s :
    1 <= F.(f_default_depth) -> Forall (fun a => a <> ACSetDepth 0) tr ->
    run F f (init_slow F inputs sl ext) tr = Some s -> inv_bp s.
  Proof.
    intros Hd. apply (run_invariant F f _ (fun s => inv_depth s /\ inv_notify s)); [|apply inv_bp_init|].
    - intros tr' s' Hok Hr. split; [by eapply reach_inv_depth|by eapply reach_inv_notify].
    - intros s0 a s' _ []. by apply step_inv_bp.
  Qed.
End Notify.
