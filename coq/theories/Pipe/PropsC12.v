(* C12 - "pipe yields one output per input, in order, then ends; consumers always wake" (Pipe layer).
   C12.1 and C12.3 hold for every value of the facts, C12.2 and C12.4 for those in which poll_next replaces the stored waker;
   so all four hold also for the code before the repair of finding F4, [facts_unrepaired].
   [init_slow F inputs sl ext]: the items listed in [sl] are SLOW (their processing future returns Pending once in the middle,
   the poll job is suspended holding the object: Model.JSusp); every theorem holds for every such list. *)
From stdpp Require Import list numbers option.
From Pipe Require Import Model Base Data Notify Token Closed Terminal Scenarios Refute.

(* C12.1 order / no loss / no duplication: what the consumer got, what is buffered and what the running job holds is
   exactly the image of the inputs taken from the input stream so far (while the stream exists); what the consumer got
   is always a prefix of it *)
Theorem C12_order :
  forall (F : pfacts) (f : nat -> nat) inputs sl ext tr s,
    run F f (init_slow F inputs sl ext) tr = Some s ->
    inputs = s.(taken) ++ s.(inp_rest) /\
    (dropped s = false -> s.(delivered) ++ s.(pending) ++ job_inflight s f = f <$> s.(taken)) /\
    (exists l, s.(delivered) ++ l = f <$> s.(taken)).
Proof. exact pipe_order. Qed.
Print Assumptions C12_order.

Example C12_order_nonvacuous :
  let '(s, tr) := phases F_depth1 [[AProd; AEnv; AItem; AEnd]; [ACPoll]] (init F_depth1 [1;2;3;4] true) in
  run F_depth1 f100 (init F_depth1 [1;2;3;4] true) tr = Some s /\
  (s.(delivered), s.(pending), s.(taken), s.(inp_rest)) = ([101], [], [1], [2;3;4]).
Proof. vm_compute. split; reflexivity. Qed.

(* C12.2 the consumer is always woken, for a consumer that may poll at ANY time, each poll with a fresh waker: provided
   poll_next replaces the stored waker (the code, l.504; fact f_poll_next_replaces_waker), a consumer that returned
   Pending never has a waker sitting in `notify` while there is something to read, and the waker of its MOST RECENT
   Pending poll ([clatest]) has been called ([cwoken]) or has been taken and is about to be called
   ([cons_wake_inflight]: the running job is at l.331/l.362/l.380 with that waker).  Wakes of older wakers are no-ops. *)
Theorem C12_consumer_always_woken :
  forall (F : pfacts) (f : nat -> nat), F.(f_poll_next_replaces_waker) = true ->
  forall inputs sl ext tr s,
    run F f (init_slow F inputs sl ext) tr = Some s ->
    (s.(cst) = CPend \/ s.(cst) = CRun true) -> (s.(pending) <> [] \/ s.(closed) = true) ->
    s.(notify) = None /\ (s.(cwoken) = true \/ cons_wake_inflight s = true).
Proof. exact consumer_always_woken. Qed.
Print Assumptions C12_consumer_always_woken.

(* a poll_next that stores the waker only when none is stored keeps a stale waker: the consumer that is actually waiting
   is never woken (Scenarios.stale_waker_trace: probe, real poll, an item arrives, the input ends; terminal state with the
   consumer asleep, pending = [101], closed) *)
Theorem C12_consumer_always_woken_refuted : ~ C12_woken_statement facts_stale_waker.
Proof. exact C12_woken_refuted_stale_waker. Qed.
Print Assumptions C12_consumer_always_woken_refuted.
Theorem C12_terminal_complete_refuted : ~ C12_terminal_statement facts_stale_waker.
Proof. exact C12_terminal_refuted_stale_waker. Qed.
Print Assumptions C12_terminal_complete_refuted.
Theorem C12_stale_waker_witness :
  exists s, run facts_stale_waker f100 (init facts_stale_waker [1] true) stale_waker_trace = Some s /\
            s.(cst) = CPend /\ s.(pending) = [101] /\ s.(closed) = true /\ s.(cwoken) = false /\
            cons_wake_inflight s = false /\ s.(delivered) = [] /\ dropped s = false /\
            terminal facts_stale_waker f100 s.
Proof. exact stale_waker_state. Qed.
Print Assumptions C12_stale_waker_witness.

Example C12_consumer_always_woken_nonvacuous :
  match run facts_unrepaired f100 (init facts_unrepaired [1;2] true)
          (replicate 6 AProd ++ [ACPoll; ACons; AItem; AEnv; AEnv; AEnv] ++ replicate 7 AProd) with
  | Some s => (s.(cst), s.(pending), s.(cwoken), cons_wake_inflight s) = (CPend, [101], false, true)
  | None => False
  end.
Proof. vm_compute. reflexivity. Qed.
(* with a spurious poll in between: the waker of the probe is replaced, the in-flight wake is that of the latest waker *)
Example C12_consumer_always_woken_nonvacuous_probe :
  match run facts_repaired f100 (init facts_repaired [1;2] true)
          (replicate 6 AProd ++ [ACPoll; ACons; ACProbe; ACons; AItem; AEnv; AEnv; AEnv] ++ replicate 7 AProd) with
  | Some s => (s.(cst), s.(pending), s.(cwoken), s.(clatest), s.(running), cons_wake_inflight s)
              = (CPend, [101], false, 1, Some (1, JWake (Some 1) KLoop), true)
  | None => False
  end.
Proof. vm_compute. reflexivity. Qed.

(* C12.3 back-pressure release.  (a) Whenever no poll job is queued or running, the stream exists and poll_fn is still
   Some, a live PipeWaker is registered with the input or sits in backpressure_release_notify, or a wake is in flight
   (in the consumer's or the environment's thread).  [This does not even need the hypothesis "the input has an item
   available / has ended".]  (b) Every consumer poll (that does not return end-of-stream) takes
   backpressure_release_notify in the same critical section and calls it afterwards.
   The case "consumer polls while the producer is between 'buffer full' and 'register'" does not exist: in pipe.rs
   l.313-322 the test `pending.len() >= max_pipe_depth` and the store into backpressure_release_notify happen under ONE
   acquisition of the core mutex, which is the single model step [JFull]. *)
Theorem C12_backpressure_release :
  forall (F : pfacts) (f : nat -> nat) inputs sl ext tr s,
    run F f (init_slow F inputs sl ext) tr = Some s ->
    s.(jobq) = [] -> s.(running) = None -> dropped s = false -> s.(poll_fn) = true ->
    live_opt s s.(inp_waker) = true \/ live_opt s s.(bp) = true \/ wk_tok s s.(cwk) = true \/ wk_tok s s.(ewk) = true.
Proof. exact backpressure_release. Qed.
Print Assumptions C12_backpressure_release.

Theorem C12_consumer_poll_takes_backpressure :
  forall (F : pfacts) (f : nat -> nat) s a s',
    a = ACPoll \/ a = ACProbe ->
    step F f s a = Some s' -> s'.(cst) <> CDone -> s'.(bp) = None /\ s'.(cwk) = wk_of s.(bp).
Proof. exact consumer_poll_takes_backpressure. Qed.
Print Assumptions C12_consumer_poll_takes_backpressure.

Example C12_backpressure_release_nonvacuous :
  (* the throttled producer of Scenarios.backpressure_throttles: items available, the only live waker is in bp *)
  let '(s, tr) := phases F_depth1 [[AProd; AEnv; AItem; AEnd]] (init F_depth1 [1;2;3;4] true) in
  run F_depth1 f100 (init F_depth1 [1;2;3;4] true) tr = Some s /\
  (s.(jobq), s.(running), dropped s, s.(poll_fn), s.(inp_avail), live_opt s s.(inp_waker), live_opt s s.(bp))
  = ([], None, false, true, 3, false, true).
Proof. vm_compute. split; reflexivity. Qed.

(* C12.4 terminal completeness, for every input and every depth >= 1 (default and set_backpressure_depth): when no
   mandatory actor can move (the environment has made every item available and ended the input; the consumer polls
   whenever it owes a poll: it is idle or its latest waker has been called; spurious polls [ACProbe] are optional) and
   the consumer has not dropped the stream, it has received [f <$> inputs] and then None.  Needs the replace fact. *)
Theorem C12_terminal_complete :
  forall (F : pfacts) (f : nat -> nat), F.(f_poll_next_replaces_waker) = true ->
  forall inputs sl ext tr s,
    1 <= F.(f_default_depth) -> Forall (fun a => a <> ACSetDepth 0) tr ->
    run F f (init_slow F inputs sl ext) tr = Some s ->
    terminal F f s -> dropped s = false ->
    s.(delivered) = f <$> inputs /\ s.(got_end) = true /\ s.(cst) = CDone.
Proof. exact terminal_complete. Qed.
Print Assumptions C12_terminal_complete.

Example C12_terminal_complete_nonvacuous :
  let '(s, tr) := phases F_depth1 [[AProd; AEnv; AItem; AEnd]; [ACSetDepth 2]; everyone] (init F_depth1 [1;2;3;4] true) in
  run F_depth1 f100 (init F_depth1 [1;2;3;4] true) tr = Some s /\
  terminalb F_depth1 f100 s = true /\ dropped s = false /\ s.(depth) = 2 /\
  forallb (fun a => negb (bool_decide (a = ACSetDepth 0))) tr = true.
Proof. vm_compute. split_and!; reflexivity. Qed.
Check terminalb_sound : forall F f s, terminalb F f s = true -> terminal F f s.

(* with slow items: the run of Scenarios.slow_items_complete, and a consumer polling while an item is suspended *)
Example C12_slow_items_nonvacuous :
  let '(s, tr) := phases facts_repaired [everyone] (init_slow facts_repaired [1;2;3] [2;3] true) in
  run facts_repaired f100 (init_slow facts_repaired [1;2;3] [2;3] true) tr = Some s /\
  terminalb facts_repaired f100 s = true /\ dropped s = false /\ s.(delivered) = [101;102;103] /\
  existsb (fun a => bool_decide (a = AProd)) tr = true.
Proof. vm_compute. split_and!; reflexivity. Qed.
