(* Pipe layer, C12 part 1: order / no loss / no duplication, and the bookkeeping of the input stream. *)
From stdpp Require Import list numbers option.
From Pipe Require Import Model Base Step.

Section Data.
  Context (F : pfacts) (f : nat -> nat).

  Definition inv_data (inputs : list nat) (s : state) : Prop :=
    inputs = s.(taken) ++ s.(inp_rest) /\
    s.(inp_avail) <= length s.(inp_rest) /\
    (s.(inp_ended) = true -> s.(inp_avail) = length s.(inp_rest)) /\
    (is_Some s.(inp_waker) -> s.(inp_avail) = 0 /\ s.(inp_ended) = false) /\
    (dropped s = false -> s.(delivered) ++ s.(pending) ++ job_inflight s f = f <$> s.(taken)) /\
    (exists l, s.(delivered) ++ l = f <$> s.(taken)).

  Lemma inv_data_init inputs sl ext : inv_data inputs (init_slow F inputs sl ext).
  Proof. unfold inv_data; cbn. repeat split; try done; try lia; try (by intros [? [=]]). by exists []. Qed.

  Lemma step_inv_data inputs s a s' : inv_data inputs s -> step F f s a = Some s' -> inv_data inputs s'.
  Proof.
    intros (H1 & H2 & H3 & H4 & H5 & H6) Hs. step_cases Hs.
    all: unfold inv_data, dropped, job_inflight in *; cbn.
    all: try (rewrite Er in H5; cbn in H5).
    all: on @j_input_item
           (rewrite Ei in H1, H2, H3; cbn in H2, H3; destruct H6 as [l H6]; split_and!;
            [ by rewrite H1, <- (assoc_L (++)) | lia | intros He; specialize (H3 He); lia | intros Hw; destruct (H4 Hw); lia
            | intros Hd; rewrite fmap_app, <- (H5 Hd), app_nil_r; by rewrite <- !(assoc_L (++))
            | exists (l ++ [f x]); by rewrite fmap_app, <- H6, (assoc_L (++)) ]).
    all: split_and!; try assumption; try done; try (by intros [? [=]]).
    all: on @j_input_pend (intros _; split; [|done]; destruct Ei as [Ei|Ei]; [|done]; rewrite Ei in H2; cbn in H2; lia).
    all: on @j_push (intros Hd; by rewrite <- (H5 Hd), app_nil_r).
    all: on @p_item
           (try exists (p ++ job_inflight s f); intros; by rewrite <- (H5 (outside_not_dropped _ Ho)), Ep, <- (assoc_L (++))).
    all: on @p_end, @p_pend (intros _; exact (H5 (outside_not_dropped _ Ho))).
    all: on @s_ret (intros _; rewrite Ec in H5; exact (H5 eq_refl)).
    all: on @s_item (intros He'; congruence).
  Qed.

  Lemma reach_inv_data inputs sl ext tr s : run F f (init_slow F inputs sl ext) tr = Some s -> inv_data inputs s.
  Proof. apply run_invariant_all; [apply inv_data_init|apply step_inv_data]. Qed.

  (* C12.1: outputs are the images of the inputs taken so far, in order, without loss or duplication *)
  Theorem pipe_order inputs sl ext tr s :
    run F f (init_slow F inputs sl ext) tr = Some s ->
    inputs = s.(taken) ++ s.(inp_rest) /\
    (dropped s = false -> s.(delivered) ++ s.(pending) ++ job_inflight s f = f <$> s.(taken)) /\
    (exists l, s.(delivered) ++ l = f <$> s.(taken)).
  Proof.
    intros Hr. destruct (reach_inv_data _ _ _ _ _ Hr) as (H1 & _ & _ & _ & H5 & H6).
    done.
  Qed.
End Data.
