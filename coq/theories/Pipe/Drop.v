(* Pipe layer, C16: dropping the output stream shuts the pipe down.
   Proved for [f_pending_recheck F = true] (the repair of finding F4, which the code now carries).  For the code before
   the repair ([facts_unrepaired]) see the refutation witness in Scenarios.v / PropsC16.v.

   NOTE on the statement.  "poll_fn = None" is NOT what holds in general, even with the repair: when the drop lands while
   the producer is throttled (its waker sits only in backpressure_release_notify) nobody calls the poll function again,
   and poll_fn stays Some; the input stream and the closure are then released by reference counting when the core (and
   with it the last live waker, hence the last Arc<PipeContext>) is dropped.  The theorem therefore uses
   [released s] = poll_fn is None, or nothing references the PipeContext any more (no queued/running job, no wake in
   flight, no live waker in a core that still exists, and - the cycle - no live waker registered with the input). *)
From stdpp Require Import list numbers option.
From Pipe Require Import Model Base Step Notify Closed Terminal.

Lemma live_in_cons j wt k : live_in (j :: wt) k = true -> live_in wt k = true /\ k <> j.
Proof.
  unfold live_in. rewrite !negb_true_iff, !bool_decide_eq_false, elem_of_cons. intros H. split; [tauto|]. intros ->. tauto.
Qed.

(* no poll job runs, or the running one has not yet reached the loop that clears notify_stream_closed (l.338) *)
Definition before_loop (r : option (nat * jpc)) : bool :=
  match r with None | Some (_, (JStart | JFull)) => true | _ => false end.

Section Drop.
  Context (F : pfacts) (f : nat -> nat).

  Definition b2n (b : bool) : nat := if b then 1 else 0.
  Definition syncers (s : state) : nat :=
    b2n (is_sync s.(cwk)) + b2n (is_sync s.(ewk)) + b2n (ch_sync s.(chute)) + b2n s.(xsync).
  (* exactly one of: a strong reference exists / one thread is inside Desync::drop / the object has been freed *)
  Definition inv_ref (s : state) : Prop := b2n (desync_alive s) + syncers s + s.(freed) = 1.

  Lemma inv_ref_init inputs sl ext : inv_ref (init_slow F inputs sl ext).
  Proof. unfold inv_ref, syncers, desync_alive; cbn. done. Qed.

  Lemma step_inv_ref s a s' : inv_shape s -> inv_chute F s -> inv_ref s -> step F f s a = Some s' -> inv_ref s'.
  Proof.
    intros Hsh Hch H Hs. step_cases Hs.
    all: unfold inv_ref, syncers, desync_alive in *; cbn; try assumption.
    all: rewrite ?(wk_of_false is_enq), ?(wk_of_false is_sync) by done.
    all: try (rewrite Ew in *; cbn in H |- * ).
    all: try assumption.
    all: on @s_poll (by rewrite (inv_shape_outside _ Hsh Ho) in H).
    all: on @s_drop
           (destruct (inv_chute_live F s Hch (outside_not_dropped _ Ho)) as [Hc _];
            rewrite (inv_shape_outside _ Hsh Ho) in H; rewrite Hc in *; by destruct (f_drop_wakes_before_dispose F)).
    all: on @s_drop1
           (destruct (f_drop_wakes_before_dispose F) eqn:Eo; [|exact H];
            unfold inv_chute, handed_over in Hch; rewrite Ec, Eo in Hch; destruct Hch as [Hc _]; by rewrite Hc in H).
    (* upgrade: a reference exists, one more changes nothing *)
    all: on @w_ctx (cbn in Hal; rewrite Hal in H; by rewrite orb_true_r).
    (* the temporary reference is dropped: another one exists, or this was the last and the thread starts the final sync *)
    all: on @w_enq (by destruct (strong_held s), (ext_owner s), (is_enq (ewk s)), (is_enq (cwk s))).
    all: on @w_enq_last (destruct (strong_held s), (ext_owner s), (is_enq (ewk s)), (is_enq (cwk s)); cbn in *; lia).
    all: on @w_sync lia.
    (* the disposal queue drops the pipe's reference: another one exists, or it was the last and the queue starts the
       final sync *)
    all: on @s_dispose
           (unfold inv_chute in Hch; rewrite Ech in *;
            assert (Hsh' : strong_held s = true) by (destruct (handed_over F s); [done|by destruct Hch]);
            rewrite Hsh' in H; cbn in H; destruct (ext_owner s || _ || _); cbn; lia).
    all: on @s_dispose_sync (rewrite Ech in H; cbn in H; lia).
    all: on @s_ext_drop (rewrite Hx in H; destruct (strong_held s), (is_enq (cwk s)), (is_enq (ewk s)); cbn in *; lia).
    all: on @s_ext_sync (rewrite Hx in H; cbn in H; lia).
  Qed.

  Lemma reach_inv_ref inputs sl ext tr s : run F f (init_slow F inputs sl ext) tr = Some s -> inv_ref s.
  Proof.
    apply (run_invariant_from F f (fun s => inv_shape s /\ inv_chute F s)); [|apply inv_ref_init|].
    - intros tr' s' Hr. split; [by eapply reach_inv_shape|by eapply reach_inv_chute].
    - intros s0 a s' []. by apply step_inv_ref.
  Qed.

  Theorem freed_at_most_once inputs sl ext tr s :
    run F f (init_slow F inputs sl ext) tr = Some s -> s.(freed) <= 1.
  Proof. intros Hr. pose proof (reach_inv_ref _ _ _ _ _ Hr) as H. unfold inv_ref in H. lia. Qed.

  (* while poll_fn is Some: a live waker registered with the input is also in notify_stream_closed, or the dropping consumer
     is calling it - except while the job is between clearing notify_stream_closed (l.338) and storing its own waker
     there (l.349); at the store, the registered waker is the job's own *)
  Definition inv_inp_waker (s : state) : Prop :=
    forall k, s.(poll_fn) = true -> s.(inp_waker) = Some k ->
      (before_loop s.(running) = true -> live_in s.(wtaken) k = true -> s.(nsc) = Some k \/ s.(cwk) = WCall k) /\
      (forall j, s.(running) = Some (j, JPendStore) -> k = j).

  Lemma step_inv_inp_waker s a s' : inv_shape s -> inv_inp_waker s -> step F f s a = Some s' -> inv_inp_waker s'.
  Proof.
    intros Hsh H Hs. step_cases Hs.
    all: unfold inv_inp_waker in *; cbn.
    all: try (rewrite Er in H; cbn in H).
    all: try assumption; try done.
    all: intros k Hp Hi; try (destruct (H k Hp Hi) as [Hnsc Hown]; split; try assumption; try done).
    all: on @j_input_pend (injection Hi as <-; split; [done|by intros ? [= <-]]).
    all: on @j_pend_store (intros _ _; left; by rewrite (Hown j eq_refl)).
    all: on @s_poll (intros Hn Hk; destruct (Hnsc Hn Hk) as [?|Hw]; [by left|]; by rewrite (inv_shape_outside _ Hsh Ho) in Hw).
    all: on @s_drop (intros Hn Hk; destruct (Hnsc Hn Hk) as [->|Hw]; [by right|]; by rewrite (inv_shape_outside _ Hsh Ho) in Hw).
    all: on @w_call
           (intros Hn Hk; apply live_in_cons in Hk as [Hk Hne]; destruct (Hnsc Hn Hk) as [?|Hw]; [by left|];
            first [rewrite Ew in Hw; congruence | by right]).
    all: on @s_cons_wake (intros Hn Hk; destruct (Hnsc Hn Hk) as [?|Hw]; [by left|]; try unfold is_live in Hl; congruence).
  Qed.

  Lemma reach_inv_inp_waker inputs sl ext tr s : run F f (init_slow F inputs sl ext) tr = Some s -> inv_inp_waker s.
  Proof.
    apply (run_invariant_from F f inv_shape); [intros tr' s'; apply reach_inv_shape|by intros k _ [=]|].
    intros s0 a s'. apply step_inv_inp_waker.
  Qed.

  Context (Hrecheck : F.(f_pending_recheck) = true).

  Definition inv_drop (s : state) : Prop := dropped s = true -> s.(closed) = true /\ s.(nsc) = None.

  Lemma step_inv_drop s a s' : inv_drop s -> step F f s a = Some s' -> inv_drop s'.
  Proof.
    intros H Hs. step_cases Hs.
    all: unfold inv_drop, dropped in *; cbn; try assumption; try done.
    all: on @j_loop, @j_end_close (intros Hd; by destruct (H Hd)).
    (* the Pending arm stores the waker only after it has seen the stream open *)
    all: on @j_pend_store (intros Hd; destruct (H Hd) as [Hc _]; destruct Hre; congruence).
    all: on @s_ret (rewrite Ec in H; by destruct b).
    all: on @s_drop1, @s_drop2 (by rewrite Ec in H).
  Qed.

  Lemma reach_inv_drop inputs sl ext tr s : run F f (init_slow F inputs sl ext) tr = Some s -> inv_drop s.
  Proof. apply run_invariant_all; [done|apply step_inv_drop]. Qed.

  Context (Horder : F.(f_drop_wakes_before_dispose) = true).

  (* With the code's order (wake notify_stream_closed, then hand on_drop to the disposal queue) the thread inside Drop::drop
     never runs the final sync under the core lock: while the consumer's slot is busy the pipe's own reference exists, and a
     final sync on top of it would count two. *)
  Lemma no_sync_in_drop s : inv_shape s -> inv_chute F s -> inv_ref s -> is_sync s.(cwk) = false.
  Proof.
    unfold inv_shape, inv_chute, handed_over, inv_ref, syncers, desync_alive. rewrite Horder.
    destruct (cwk s); try done. destruct (cst s); try done; intros _ [_ ->] H; cbn in H; lia.
  Qed.

  Lemma terminal_after_drop inputs sl ext tr s :
    run F f (init_slow F inputs sl ext) tr = Some s ->
    dropped s = true -> terminal_silent F f s ->
    s.(cst) = CGone /\ s.(cwk) = WIdle /\ s.(ewk) = WIdle /\ s.(running) = None /\ s.(jobq) = [] /\
    s.(chute) = ChIdle /\ s.(xsync) = false /\ s.(strong_held) = false.
  Proof.
    intros Hr Hd Hterm. pose proof (reach_inv_chute F f _ _ _ _ _ Hr) as Hch.
    pose proof (no_sync_in_drop s (reach_inv_shape F f _ _ _ _ _ Hr) Hch (reach_inv_ref _ _ _ _ _ Hr)) as Hns.
    destruct (cons_disabled F f s (Hterm ACons eq_refl eq_refl)) as [[Hcw Hcst]|[Hcw _]]; [|rewrite Hcw in Hns; done].
    assert (Hg : cst s = CGone) by (unfold dropped in Hd; destruct (cst s); done).
    assert (Hlk : core_locked s = false) by (unfold core_locked; rewrite Hg; done).
    destruct (prod_disabled F f s (Hterm AProd eq_refl eq_refl) Hlk) as [Hrun Hq].
    assert (Hdr : drained s = true) by (unfold drained; rewrite Hq, Hrun; done).
    assert (Hew : ewk s = WIdle).
    { destruct (env_disabled F f s (Hterm AEnv eq_refl eq_refl)) as [?|[_ ?]]; [done|congruence]. }
    pose proof (Hterm ADispose eq_refl eq_refl) as Hdis. cbn in Hdis. rewrite Hdr in Hdis.
    pose proof (Hterm AExtSync eq_refl eq_refl) as Hxs. cbn in Hxs. rewrite Hdr in Hxs.
    unfold inv_chute, handed_over in Hch. rewrite Hg in Hch.
    destruct (chute s) eqn:Ech; try done. destruct (xsync s) eqn:Ex; done.
  Qed.

  (* C16 (repaired Pending arm, the code's order in Drop::drop) *)
  Theorem drop_shuts_down inputs sl ext tr s :
    run F f (init_slow F inputs sl ext) tr = Some s ->
    dropped s = true -> terminal_silent F f s ->
    s.(strong_held) = false /\ released s = true /\ s.(cst) = CGone.
  Proof.
    intros Hr Hd Hterm.
    destruct (terminal_after_drop _ _ _ _ _ Hr Hd Hterm) as (Hg & Hcw & Hew & Hrun & Hq & _ & _ & Hsh').
    pose proof (reach_inv_drop _ _ _ _ _ Hr Hd) as [_ Hnsc].
    split_and!; [done| |done].
    unfold released, ctx_referenced, core_gone, wk_tok, live_opt. rewrite Hq, Hrun, Hcw, Hew, Hg. cbn.
    destruct (poll_fn s) eqn:Ep; [cbn|done].
    destruct (inp_waker s) as [k|] eqn:Ei; [cbn|done].
    destruct (live_in (wtaken s) k) eqn:El; [|done].
    destruct (reach_inv_inp_waker _ _ _ _ _ Hr k Ep Ei) as [Hk _]. rewrite Hrun in Hk.
    destruct (Hk eq_refl El); congruence.
  Qed.

  (* C16, the pipe as last owner: once nobody else owns the Desync, every terminal state after the drop has freed the object
     (exactly once, see freed_at_most_once), nobody is left inside Desync::drop, and the core lock is free ([cst = CGone];
     the dropping thread is not blocked inside its critical section) *)
  Theorem last_owner_drop inputs sl ext tr s :
    run F f (init_slow F inputs sl ext) tr = Some s ->
    dropped s = true -> terminal_silent F f s -> s.(ext_owner) = false ->
    s.(freed) = 1 /\ s.(cst) = CGone /\ core_locked s = false /\ syncers s = 0 /\ desync_alive s = false.
  Proof.
    intros Hr Hd Hterm Hext.
    destruct (terminal_after_drop _ _ _ _ _ Hr Hd Hterm) as (Hg & Hcw & Hew & Hrun & Hq & Hch & Hx & Hsh').
    pose proof (reach_inv_ref _ _ _ _ _ Hr) as Href.
    unfold inv_ref, syncers, desync_alive, core_locked in *.
    rewrite Hcw, Hew, Hch, Hx, Hsh', Hext, Hg in *. cbn in *. split_and!; try done; lia.
  Qed.
End Drop.
