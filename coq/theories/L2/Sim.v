(* pseudo-random runs of the model, evaluated in the kernel (statements [sim_*], [see_*]), and the scheduler they are evaluated with *)
From stdpp Require Import list numbers option.
From RecordUpdate Require Import RecordUpdate.
From L2 Require Import Model GenTables.

Definition G := gen_ftables.
Definition nact (s : state) := length s.(actors).
Definition enabled_list (s : state) : list nat := filter (fun a => enabled G s a = true) (seq 0 (nact s)).

(* pseudo-random scheduler: linear congruential choice among the enabled actors; returns the final state and the trace *)
Fixpoint rrun (fuel : nat) (seed : N) (s : state) (acc : list nat) : state * list nat * bool :=
  match fuel with
  | 0 => (s, rev acc, false)
  | S n => match enabled_list s with
           | [] => (s, rev acc, true)
           | en => let seed' := ((seed * 1103 + 12345) mod 65521)%N in
                   let a := default 0 (en !! (N.to_nat ((seed' / 7) mod N.of_nat (length en))%N)) in
                   match step G s a with
                   | Some s' => rrun n seed' s' (a :: acc)
                   | None => (s, rev acc, false)
                   end
           end
  end.
Definition final (scripts : list (list cop)) npool nev (seed : nat) := rrun 2000 (N.of_nat seed) (init scripts npool nev) [].
Definition complete (s : state) : bool :=
  bool_decide (s.(qs) = Idle) && bool_decide (s.(jobs) = []) &&
  forallb (fun ac => match ac.(stack) with [FTop []] | [FPIdle] => true | _ => false end) s.(actors).
Definition ok (scripts : list (list cop)) npool nev seed : bool :=
  let '(s, _, term) := final scripts npool nev seed in term && complete s.
Definition all_ok scripts npool nev (n : nat) : bool := forallb (ok scripts npool nev) (seq 0 n).

(* ---------- the same scheduler with cheap arithmetic ----------
   The independent checker re-evaluates the runs below with the kernel's lazy machine.  There the library's division by 65521
   costs about seven times the model step it schedules, so the runs are evaluated with [rrun'], which draws the same numbers
   by shifts: 2^16 = 65521 + 15, hence x mod 65521 = (15 * hi + lo) mod 65521 for x = 2^16 * hi + lo. *)
Definition fmod (x : N) : N :=
  let hi := N.shiftr x 16 in
  let r := (N.shiftl hi 4 - hi + N.land x 65535)%N in
  match (r ?= 65521)%N with Lt => r | _ => (r - 65521)%N end.
Definition next (seed : N) : N := fmod (N.shiftl seed 10 + N.shiftl seed 6 + N.shiftl seed 4 - seed + 12345).
Definition pick (seed' : N) (k : nat) : nat :=
  match k with
  | 1 => 0
  | 2 => match (seed' / 7)%N with N0 | Npos (xO _) => 0 | _ => 1 end
  | _ => N.to_nat ((seed' / 7) mod N.of_nat k)%N
  end.

(* 134217728 = 2^27: then hi < 2^11 and 15 * hi + lo < 2 * 65521, so one subtraction is enough *)
Lemma fmod_spec x : (x < 134217728)%N -> fmod x = (x mod 65521)%N.
Proof.
  intros Hx. unfold fmod. set (hi := N.shiftr x 16). set (lo := N.land x 65535).
  assert (Hhi : hi = (x / 65536)%N) by (subst hi; by rewrite N.shiftr_div_pow2).
  assert (Hlo : lo = (x mod 65536)%N) by (subst lo; change 65535%N with (N.ones 16); by rewrite N.land_ones).
  assert (Hdm := N.div_mod x 65536 ltac:(done)). rewrite <- Hhi, <- Hlo in Hdm.
  assert (Hlt : (lo < 65536)%N) by (rewrite Hlo; by apply N.mod_lt).
  assert (Hh : (hi < 2048)%N) by (rewrite Hhi; apply N.div_lt_upper_bound; [done|lia]).
  rewrite N.shiftl_mul_pow2. change (2 ^ 4)%N with 16%N. clearbody hi lo.
  destruct (N.compare_spec (hi * 16 - hi + lo) 65521) as [He|Hl|Hg].
  - apply (N.mod_unique _ _ (hi + 1)); lia.
  - apply (N.mod_unique _ _ hi); lia.
  - apply (N.mod_unique _ _ (hi + 1)); lia.
Qed.
Lemma next_spec seed : (seed < 65536)%N -> next seed = ((seed * 1103 + 12345) mod 65521)%N.
Proof.
  intros H. unfold next. rewrite !N.shiftl_mul_pow2. change (2 ^ 10)%N with 1024%N. change (2 ^ 6)%N with 64%N. change (2 ^ 4)%N with 16%N.
  rewrite fmod_spec by lia. f_equal. lia.
Qed.
Lemma pick_spec s k : pick s k = N.to_nat ((s / 7) mod N.of_nat k)%N.
Proof.
  destruct k as [|[|[|k]]]; try done; cbn [pick].
  - by rewrite N.mod_1_r.
  - change (N.of_nat 2) with 2%N. destruct (s / 7)%N as [|[p|p|]]; try done.
    + by rewrite <- (N.mod_unique (N.pos p~1) 2 (N.pos p) 1).
    + by rewrite <- (N.mod_unique (N.pos p~0) 2 (N.pos p) 0).
Qed.

Fixpoint rrun' (fuel : nat) (seed : N) (s : state) (acc : list nat) : state * list nat * bool :=
  match fuel with
  | 0 => (s, rev acc, false)
  | S n => match enabled_list s with
           | [] => (s, rev acc, true)
           | en => let seed' := next seed in
                   let a := default 0 (en !! pick seed' (length en)) in
                   match step G s a with
                   | Some s' => rrun' n seed' s' (a :: acc)
                   | None => (s, rev acc, false)
                   end
           end
  end.
Lemma rrun_fast fuel : forall seed s acc, (seed < 65536)%N -> rrun fuel seed s acc = rrun' fuel seed s acc.
Proof.
  induction fuel as [|n IH]; intros seed s acc Hs; cbn [rrun rrun']; [done|].
  destruct (enabled_list s) as [|a0 en]; [done|]. cbv zeta. rewrite pick_spec, next_spec by done.
  destruct (step G s _); [|done]. apply IH.
  pose proof (N.mod_lt (seed * 1103 + 12345) 65521 ltac:(done)). lia.
Qed.
Lemma all_ok_fast scripts npool nev n : (N.of_nat n <=? 65536)%N = true ->
  forallb (fun seed => let '(s, _, term) := rrun' 2000 (N.of_nat seed) (init scripts npool nev) [] in term && complete s) (seq 0 n) = true ->
  all_ok scripts npool nev n = true.
Proof.
  intros Hn%N.leb_le. unfold all_ok. rewrite !forallb_forall. intros H x Hx. specialize (H x Hx).
  apply in_seq in Hx. unfold ok, final. by rewrite rrun_fast by lia.
Qed.
Definition starts (s : state) : list nat := omap (fun e => match e with GStart o => Some o | _ => None end) (rev s.(log)).

(* 1. pool context: future job awaits event 0, fired by a second caller at an arbitrary moment; a desync behind it *)
Definition P1 := [[OFuture [PTouch; PAwait 0; PTouch] UDetach; ODesync]; [OFire 0]].
Example sim_pool : all_ok P1 1 1 200 = true. Proof. apply all_ok_fast; [done|]. vm_compute. reflexivity. Qed.
(* 2. sync context: the sync caller drains the queue (no pool runner at all) and parks in WaitingForUnpark *)
Definition P2 := [[OFuture [PAwait 0] UDetach; OSync]; [OFire 0]].
Example sim_sync : all_ok P2 0 1 200 = true. Proof. apply all_ok_fast; [done|]. vm_compute. reflexivity. Qed.
(* 3. poll context: the awaiting task drains the queue itself (no pool runner) *)
Definition P3 := [[OFuture [PAwait 0; PTouch] UAwait]; [OFire 0]].
Example sim_poll : all_ok P3 0 1 200 = true. Proof. apply all_ok_fast; [done|]. vm_compute. reflexivity. Qed.

(* did some state along the run satisfy p? *)
Fixpoint rsee (p : state -> bool) (fuel : nat) (seed : N) (s : state) : bool :=
  p s || match fuel with
  | 0 => false
  | S n => match enabled_list s with
           | [] => false
           | en => let seed' := ((seed * 1103 + 12345) mod 65521)%N in
                   let a := default 0 (en !! (N.to_nat ((seed' / 7) mod N.of_nat (length en))%N)) in
                   match step G s a with Some s' => rsee p n seed' s' | None => false end
           end
  end.
Definition sees p scripts npool nev (n : nat) : bool :=
  existsb (fun seed => rsee p 2000 (N.of_nat seed) (init scripts npool nev)) (seq 0 n).
Fixpoint rsee' (p : state -> bool) (fuel : nat) (seed : N) (s : state) : bool :=
  p s || match fuel with
  | 0 => false
  | S n => match enabled_list s with
           | [] => false
           | en => let seed' := next seed in
                   let a := default 0 (en !! pick seed' (length en)) in
                   match step G s a with Some s' => rsee' p n seed' s' | None => false end
           end
  end.
Lemma rsee_fast p fuel : forall seed s, (seed < 65536)%N -> rsee p fuel seed s = rsee' p fuel seed s.
Proof.
  induction fuel as [|n IH]; intros seed s Hs; cbn [rsee rsee']; [done|]. f_equal.
  destruct (enabled_list s) as [|a0 en]; [done|]. cbv zeta. rewrite pick_spec, next_spec by done.
  destruct (step G s _); [|done]. apply IH.
  pose proof (N.mod_lt (seed * 1103 + 12345) 65521 ltac:(done)). lia.
Qed.
Lemma sees_fast p scripts npool nev n : (N.of_nat n <=? 65536)%N = true ->
  existsb (fun seed => rsee' p 2000 (N.of_nat seed) (init scripts npool nev)) (seq 0 n) = true -> sees p scripts npool nev n = true.
Proof.
  intros Hn%N.leb_le. unfold sees. rewrite !existsb_exists. intros (x & Hx & H). exists x. split; [done|].
  apply in_seq in Hx. by rewrite rsee_fast by lia.
Qed.
Definition q_is (st : qstate) (s : state) : bool := bool_decide (s.(qs) = st).
Definition dw_is (st : dwstate) (s : state) : bool := existsb (fun c => bool_decide (c.1 = st)) s.(dws).

(* the wake arrives during the poll / while parking (latched) / after parking, in each context *)
Example see_pool_awoken : sees (q_is AwokenWhileRunning) P1 1 1 200 = true. Proof. apply sees_fast; [done|]. vm_compute. reflexivity. Qed.
Example see_pool_parked : sees (q_is WaitingForWake) P1 1 1 200 = true. Proof. apply sees_fast; [done|]. vm_compute. reflexivity. Qed.
Example see_sync_awoken : sees (q_is AwokenWhileRunning) P2 0 1 200 = true. Proof. apply sees_fast; [done|]. vm_compute. reflexivity. Qed.
Example see_sync_parked : sees (q_is WaitingForUnpark) P2 0 1 200 = true. Proof. apply sees_fast; [done|]. vm_compute. reflexivity. Qed.
Example see_poll_woken_early : sees (dw_is DWWoken) P3 0 1 200 = true. Proof. apply sees_fast; [done|]. vm_compute. reflexivity. Qed.
Example see_poll_willwake : sees (dw_is DWWillWake) P3 0 1 200 = true. Proof. apply sees_fast; [done|]. vm_compute. reflexivity. Qed.
Example see_poll_parked : sees (q_is (WaitingForPoll 0)) P3 0 1 200 = true. Proof. apply sees_fast; [done|]. vm_compute. reflexivity. Qed.

(* 4. two futures on one queue awaited by two tasks, two events, a pool runner racing the pollers *)
Definition P4 := [[OFuture [PAwait 0] UAwait]; [OFuture [PAwait 1; PTouch] UAwait]; [OFire 1; OFire 0]].
Example sim_two_futures : all_ok P4 1 2 300 = true. Proof. apply all_ok_fast; [done|]. vm_compute. reflexivity. Qed.
(* 5. stale wakers: the job is first polled by the polling task (DrainWaker registered with event 0), the task drops the future,
      the pool runner re-polls the job and registers WakeQueue as well; both wakers are called when the event fires *)
Definition P5 := [[OFuture [PAwait 0; PAwait 1] (UDropAfter 2); ODesync]; [OFire 0; OFire 1]].
Example sim_stale : all_ok P5 1 2 300 = true. Proof. apply all_ok_fast; [done|]. vm_compute. reflexivity. Qed.
(* 6. suspend / resume: a sync issued during the suspension, resumed by firing event 0 *)
Definition P6 := [[ODesync; OSuspend 0 UAwait; OFire 0]; [OSync]].
Example sim_suspend : all_ok P6 1 1 300 = true. Proof. apply all_ok_fast; [done|]. vm_compute. reflexivity. Qed.
(* 7. SchedulerFuture::sync() *)
Definition P7 := [[OFuture [PAwait 0] USync; ODesync]; [OFire 0]].
Example sim_fsync : all_ok P7 1 1 300 = true. Proof. apply all_ok_fast; [done|]. vm_compute. reflexivity. Qed.
