(* C01 part 1: at most one actor runs the queue.  Counting formulation: every runner episode keeps exactly ONE marker frame
   on its actor's stack from the step that claims the queue to the step that gives it up. *)
From stdpp Require Import list numbers option.
From RecordUpdate Require Import RecordUpdate.
From L2 Require Import Model Base Arm.
#[global] Unset Lia Cache.

Definition marker (fr : frame) : bool :=
  match fr with
  | FDRdeq | FDRrequeue _ | FDRpend | FDRfin
  | FClosure _ _ | FSIidle | FSDpush _ _ | FSDloop | FSDidle | FROdeq | FROpend _ | FROcheck _ | FROpark _
  | FDQtake _ | FDQdeq _ | FDQrequeue _ _ _ | FDQtake2 _ _ | FDQwfw _ _ | FDQstore _ _ | FDQwfp _ _
  | FDQempty1 _ | FDQempty2 _ | FDQidle _
  | FJob _ _ _ => true
  | _ => false
  end.
Definition parkfr (fr : frame) : bool := match fr with FROcheck _ | FROpark _ => true | _ => false end.
Definition owned (st : qstate) : bool := match st with Running | AwokenWhileRunning | WaitingForUnpark => true | _ => false end.
Definition b2n (b : bool) : nat := if b then 1 else 0.

Definition keeps (st st' : qstate) : Prop :=
  owned st' = owned st /\ (st' = WaitingForUnpark -> st = WaitingForUnpark) /\ (st' = Panicked -> st = Panicked).

Record own_cond (T : ftables) : Prop := {
  oc_desync : forall st st' act, T.(ft_base).(t_desync) st = (st', act) -> keeps st st' /\ (act = DAPanic -> st = Panicked);
  oc_resched : forall st ne st' p, T.(ft_base).(t_resched) st ne = (st', p) -> keeps st st';
  oc_wq : forall st st' c, T.(t_wake_queue) st = (st', c) -> keeps st st';
  oc_wt : forall st, keeps st (T.(t_wake_thread) st);
  oc_sync : forall st e st' act, T.(ft_base).(t_sync) st e = (st', act) ->
     match act with SAImmediate | SADrain => owned st = false /\ st <> Panicked /\ st' = Running
                  | SABackground => st' = st | SAPanic => st' = st /\ st = Panicked end;
  oc_poll : forall f st st' act, T.(t_poll) f st = (st', act) ->
     match act with PADrain => owned st = false /\ st <> Panicked /\ st' = Running | PAWait => st' = st | PAPanic => st' = st /\ st = Panicked end;
  oc_next : forall st st', T.(ft_base).(t_next) st = Some st' -> owned st = false /\ st <> Panicked /\ st' = Running;
  oc_claim : forall st st', T.(ft_base).(t_claim) st = Some st' -> owned st = false /\ st <> Panicked /\ st' = Running;
  oc_drain_pend : forall st, owned st = true -> st <> WaitingForUnpark ->
     let st' := T.(t_drain_pend) st in st' = WaitingForWake \/ (owned st' = true /\ st' <> WaitingForUnpark);
  oc_drain_fin : forall st e st' d, owned st = true -> st <> WaitingForUnpark -> T.(ft_base).(t_drain_fin) st e = (st', d) ->
     if d then owned st' = false /\ st' <> Panicked else owned st' = true /\ st' <> WaitingForUnpark;
  oc_roj_pend : forall st, owned st = true -> st <> WaitingForUnpark -> exists st', T.(t_roj_pend) st = Some st' /\ owned st' = true;
  oc_roj_park : forall st, owned st = true -> T.(t_roj_park) st <> PKPanic;
  oc_roj_break : forall st, T.(t_roj_park) st = PKBreak -> st <> WaitingForUnpark;
}.

Record Inv_own (s : state) : Prop := {
  io_cnt : np marker s = b2n (owned s.(qs));
  io_park : s.(qs) = WaitingForUnpark -> np parkfr s = 1;
  io_nopanic : s.(qs) <> Panicked;
}.

Lemma np_upd P s s' a old new :
  stacks s !! a = Some old -> stacks s' = <[a := new]> (stacks s) -> np P s' + cntf P old = np P s + cntf P new.
Proof. intros H E. unfold np. rewrite E. by apply npl_insert. Qed.

Lemma cntf_le P Q st : (forall fr, P fr = true -> Q fr = true) -> cntf P st <= cntf Q st.
Proof. intros H. induction st as [|x st IH]; cbn; [lia|]. destruct (P x) eqn:E; [rewrite (H _ E); lia|destruct (Q x); lia]. Qed.
Lemma npl_le P Q L : (forall fr, P fr = true -> Q fr = true) -> npl P L <= npl Q L.
Proof. intros H. induction L as [|x L IH]; cbn; [lia|]. pose proof (cntf_le P Q x H). lia. Qed.
Lemma park_le_marker s : np parkfr s <= np marker s.
Proof. apply npl_le. by intros []. Qed.

Lemma own_update s s' a old new :
  Inv_own s -> stacks s !! a = Some old -> stacks s' = <[a := new]> (stacks s) ->
  b2n (owned s'.(qs)) + cntf marker old = b2n (owned s.(qs)) + cntf marker new ->
  (s'.(qs) = WaitingForUnpark -> (s.(qs) = WaitingForUnpark /\ cntf parkfr new = cntf parkfr old) \/ cntf parkfr new >= 1) ->
  s'.(qs) <> Panicked ->
  Inv_own s'.
Proof.
  intros [I1 I2 I3] Ha Hs Hm Hp Hn.
  pose proof (np_upd marker s s' a old new Ha Hs) as E1.
  pose proof (np_upd parkfr s s' a old new Ha Hs) as E2.
  assert (Hc : np marker s' = b2n (owned (qs s'))) by lia.
  split; [done| |done].
  intros Hw. pose proof (park_le_marker s'). rewrite Hc, Hw in H. cbn in H.
  pose proof (npl_ge parkfr _ _ _ Ha) as Hge0. fold (np parkfr s) in Hge0.
  destruct (Hp Hw) as [[Hw0 Heq]|Hge]; [specialize (I2 Hw0); lia|lia].
Qed.

Definition workfr (fr : frame) : bool := marker fr && negb (parkfr fr).
Lemma cntf_split st : cntf marker st = cntf parkfr st + cntf workfr st.
Proof. induction st as [|x st IH]; cbn; [done|]. rewrite IH. unfold workfr. destruct x; cbn; lia. Qed.
Lemma npl_split L : npl marker L = npl parkfr L + npl workfr L.
Proof. induction L as [|x L IH]; cbn; [done|]. rewrite IH, cntf_split. lia. Qed.

Lemma b2n_owned_le st : b2n (owned st) <= 1. Proof. destruct (owned st); cbn; lia. Qed.

Lemma runner_owned s a st : Inv_own s -> stacks s !! a = Some st -> cntf marker st >= 1 -> owned s.(qs) = true.
Proof.
  intros [I1 _ _] Ha Hm. pose proof (npl_ge marker _ _ _ Ha) as H. fold (np marker s) in H. rewrite I1 in H.
  destruct (owned (qs s)); [done|cbn in H; lia].
Qed.
Lemma runner_working s a st : Inv_own s -> stacks s !! a = Some st -> cntf workfr st >= 1 ->
  owned s.(qs) = true /\ s.(qs) <> WaitingForUnpark.
Proof.
  intros HI Ha Hw. assert (Hm : cntf marker st >= 1) by (rewrite cntf_split; lia).
  split; [by eapply runner_owned|]. intros Hq. destruct HI as [I1 I2 _]. specialize (I2 Hq).
  pose proof (npl_ge workfr _ _ _ Ha) as H. unfold np in *. rewrite npl_split, Hq in I1. cbn in I1. lia.
Qed.
Lemma not_owned_no_marker s a st : Inv_own s -> stacks s !! a = Some st -> owned s.(qs) = false -> cntf marker st = 0.
Proof.
  intros HI Ha Ho. destruct (decide (cntf marker st = 0)); [done|].
  assert (owned (qs s) = true) by (eapply runner_owned; [done..|lia]). congruence.
Qed.

Lemma runner_once s a st : Inv_own s -> stacks s !! a = Some st -> cntf marker st <= 1.
Proof.
  intros [I1 _ _] Ha. pose proof (npl_ge marker _ _ _ Ha) as H. fold (np marker s) in H. pose proof (b2n_owned_le (qs s)). lia.
Qed.
Lemma runner_alone s a st b sb :
  Inv_own s -> stacks s !! a = Some st -> cntf marker st >= 1 -> stacks s !! b = Some sb -> b <> a -> cntf marker sb = 0.
Proof.
  intros [I1 _ _] Ha Hm Hb Hne. pose proof (b2n_owned_le (qs s)) as Hle. rewrite <- I1 in Hle.
  assert (H2 := npl_insert marker (stacks s) a st [] Ha). cbn in H2.
  assert (Hb' : <[a := []]> (stacks s) !! b = Some sb) by (by rewrite list_lookup_insert_ne).
  pose proof (npl_ge marker _ _ _ Hb') as H3. unfold np in *. lia.
Qed.

Lemma cntf_wake_frames P ws : (forall w, P (FWake w) = false) -> cntf P (wake_frames ws) = 0.
Proof. intros H. induction ws as [|w ws IH]; [done|]. change (cntf P (FWake w :: wake_frames ws) = 0). cbn [cntf]. by rewrite H, IH. Qed.
Lemma cntf_opt_wake P ow : (forall w, P (FWake w) = false) -> cntf P (opt_wake ow) = 0.
Proof. intros H. destruct ow; cbn; [by rewrite H|done]. Qed.

Lemma cntf_fired_frames P s e : (forall w, P (FWake w) = false) -> cntf P (fired_frames s e) = 0.
Proof. apply cntf_wake_frames. Qed.
Lemma cntf_cont_fr P c :
  (forall f, P (FAwRet f) = false) -> (forall f k, P (FDropRet f k) = false) -> (forall y st u, P (FY YPsfret y st u) = false) ->
  cntf P (cont_fr c) = 0.
Proof. intros H1 H2 H3. destruct c; cbn; by rewrite ?H1, ?H2, ?H3. Qed.
Lemma marker_ret_ready k : marker (ret_ready k) = true. Proof. by destruct k. Qed.
Lemma marker_ret_pending k j : marker (ret_pending k j) = true. Proof. by destruct k. Qed.
Lemma parkfr_ret_ready k : parkfr (ret_ready k) = false. Proof. by destruct k. Qed.
Lemma parkfr_ret_pending k j : parkfr (ret_pending k j) = false. Proof. by destruct k. Qed.

Ltac tbl_facts HT :=
  repeat match goal with
  | E : t_desync _ _ = (_, _) |- _ => apply (oc_desync _ HT) in E; destruct E as [E ?]
  | E : t_resched _ _ _ = (_, _) |- _ => apply (oc_resched _ HT) in E
  | E : t_wake_queue _ _ = (_, _) |- _ => apply (oc_wq _ HT) in E
  | E : t_sync _ _ _ = (_, _) |- _ => apply (oc_sync _ HT) in E; cbn in E
  | E : t_poll _ _ _ = (_, _) |- _ => apply (oc_poll _ HT) in E; cbn in E
  | E : t_next _ _ = Some _ |- _ => apply (oc_next _ HT) in E
  | E : t_claim _ _ = Some _ |- _ => apply (oc_claim _ HT) in E
  end.

Section Pres.
  Context (T : ftables) (HT : own_cond T).

  Lemma step_own s a s' : Inv_own s -> step T s a = Some s' -> Inv_own s'.
  Proof.
    intros HI (l & rest & Hst & Hs' & Hg & He)%step_arm.
    pose proof (io_nopanic _ HI) as Hnp.
    pose proof (runner_working s a _ HI Hst) as Hw. pose proof (runner_owned s a _ HI Hst) as Hm. rewrite cntf_app in Hw, Hm.
    eapply (own_update s s' a _ _ HI Hst Hs'); rewrite (e_qs _ _ _ _ _ He), ?cntf_app; clear Hst Hs' He.
    all: destruct l; cbn in Hg, Hw, Hm |- *.
    all: rewrite ?cntf_app, ?cntf_cont_fr, ?cntf_wake_frames, ?cntf_fired_frames, ?cntf_opt_wake,
           ?marker_ret_ready, ?marker_ret_pending, ?parkfr_ret_ready, ?parkfr_ret_pending by done; cbn.
    (* the arms that leave the queue state alone and replace a marker by a marker, a plain frame by plain frames *)
    all: try (first [lia | congruence | tauto]; fail).
    (* the others consult a table or write a constant: what the table may answer, given that the actor is (not) the runner *)
    all: try (destruct Hw as [Hrun Hnw]; [lia|]).
    all: try (assert (Hrun := Hm ltac:(lia))).
    all: lazymatch type of Hg with
         | t_desync _ _ = _ => apply (oc_desync _ HT) in Hg as [Hg _]
         | t_resched _ _ _ = _ => apply (oc_resched _ HT) in Hg
         | t_wake_queue _ _ = _ => apply (oc_wq _ HT) in Hg
         | t_sync _ _ _ = _ => apply (oc_sync _ HT) in Hg; cbn in Hg
         | _ /\ t_poll _ _ _ = _ => destruct Hg as [_ Hg]; apply (oc_poll _ HT) in Hg; cbn in Hg
         | _ /\ t_next _ _ = _ => destruct Hg as [_ Hg]; apply (oc_next _ HT) in Hg
         | t_claim _ _ = _ => apply (oc_claim _ HT) in Hg
         | t_drain_fin _ _ _ = _ => apply (oc_drain_fin _ HT _ _ _ _ Hrun Hnw) in Hg
         | t_roj_pend _ _ = _ /\ _ => destruct Hg as [Hg Hu], (oc_roj_pend _ HT _ Hrun Hnw) as (? & Hrp & ?); rewrite Hrp in Hg; injection Hg as <-
         | t_roj_park _ _ = PKBreak => apply (oc_roj_break _ HT) in Hg
         | is_wfw _ = _ => pose proof (oc_drain_pend _ HT _ Hrun Hnw) as Hdp; cbn zeta in Hdp
         | _ => try pose proof (oc_wt _ HT (qs s)) as Hwt
         end.
    all: unfold keeps in *.
    all: repeat match goal with H : _ /\ _ |- _ => destruct H end; subst.
    all: repeat match goal with H : owned _ = _ |- _ => rewrite H in * end; cbn in *.
    all: try (first [lia | congruence | intuition congruence]; fail).
    (* left: an answer that is only known to be owned, or not WaitingForWake *)
    all: lazymatch goal with q : qstate |- _ => destruct q | _ => destruct (t_drain_pend T (qs s)) end.
    all: cbn in *; intuition (try congruence; try lia).
  Qed.
End Pres.

Lemma np_init P scripts npool nev : (forall sc, P (FTop sc) = false) -> P FPIdle = false -> np P (init scripts npool nev) = 0.
Proof.
  intros H1 H2. unfold np, stacks, init; cbn. rewrite fmap_app, <- list_fmap_compose, fmap_replicate. cbn.
  induction scripts as [|sc scripts IH]; cbn.
  - induction npool as [|n IHn]; cbn; [done|]. by rewrite H2, IHn.
  - by rewrite H1, IH.
Qed.
Lemma init_own scripts npool nev : Inv_own (init scripts npool nev).
Proof. split; [by rewrite np_init|done|done]. Qed.

Lemma run_inv (I : state -> Prop) T : (forall s a s', I s -> step T s a = Some s' -> I s') ->
  forall tr s s', I s -> run T s tr = Some s' -> I s'.
Proof.
  intros Hstep tr. unfold run. induction tr as [|a tr IH]; intros s s' HI; cbn.
  - by intros [= <-].
  - destruct (step T s a) as [s1|] eqn:E; cbn.
    + apply IH. by eapply Hstep.
    + clear. induction tr; cbn; [done|done].
Qed.

Section Reach.
  Context (T : ftables) (HT : own_cond T).
  Theorem reachable_own scripts npool nev tr s : run T (init scripts npool nev) tr = Some s -> Inv_own s.
  Proof. apply (run_inv Inv_own T); [intros; by eapply step_own|apply init_own]. Qed.

  (* at most one marker frame in the whole system: two different actors never both run the queue,
     and an actor never runs it twice (no nested claim) *)
  Corollary exclusive scripts npool nev tr s a b sa sb :
    run T (init scripts npool nev) tr = Some s ->
    stacks s !! a = Some sa -> stacks s !! b = Some sb -> cntf marker sa >= 1 -> cntf marker sb >= 1 ->
    a = b /\ cntf marker sa = 1.
  Proof.
    intros Hr Ha Hb Hca Hcb. apply reachable_own in Hr. pose proof (runner_once s a sa Hr Ha).
    split; [|lia]. destruct (decide (b = a)) as [|Hne]; [done|]. pose proof (runner_alone s a sa b sb Hr Ha Hca Hb Hne). lia.
  Qed.
End Reach.
