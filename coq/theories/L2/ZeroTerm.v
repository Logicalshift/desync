(* Zero pool: in a terminal state with all events fired the awaiting caller has finished *)
From stdpp Require Import list numbers option.
From RecordUpdate Require Import RecordUpdate.
From L2 Require Import Model Base Own Jobs Shape OpShape DwInv Pool Fut Wake WakeInv WakeLem Term Task TaskInv Effect CoverStep Complete Zero ZeroInv ZeroCover ZeroTz.
#[global] Unset Lia Cache.

Record Inv_zero (s : state) : Prop := {
  iz_all2 : Inv_all2 s;
  iz_zp : Inv_zp s;
  iz_rn2 : forall c st fr, stacks s !! c = Some st -> fr ∈ st -> rn2_ok s fr = true;
  iz_zq : Inv_zq s;
  iz_tz : Inv_tz s }.

Lemma init_stacks0 scripts nev : stacks (init scripts 0 nev) = (fun sc => [FTop sc]) <$> scripts.
Proof. unfold stacks, init; cbn. rewrite app_nil_r, <- list_fmap_compose. done. Qed.

Lemma init_zero sc0 others nev : forallb awaitb sc0 = true -> Forall (fun sc => forallb fireb sc = true) others ->
  Inv_zero (init (sc0 :: others) 0 nev).
Proof.
  intros H0 Ho.
  assert (Hst : forall c st, stacks (init (sc0 :: others) 0 nev) !! c = Some st ->
            (c = 0 /\ st = [FTop sc0]) \/ (c <> 0 /\ exists sc, st = [FTop sc] /\ forallb fireb sc = true)).
  { intros c st. rewrite init_stacks0. destruct c as [|c]; [cbn; intros [= <-]; by left|].
    rewrite fmap_cons, lookup_cons. rewrite list_lookup_fmap. destruct (others !! c) as [sc|] eqn:E; [|done]. cbn. intros [= <-]. right. split; [done|].
    exists sc. split; [done|]. eapply (Forall_lookup_1 _ _ _ _ Ho E). }
  split.
  - apply init_all2.
  - split; [|done]. intros c st Hc. destruct (Hst c st Hc) as [[-> ->]|(Hne & sc & -> & Hf)]; unfold stk_ok.
    + cbn. by rewrite H0.
    + rewrite bool_decide_false by done. cbn. by rewrite Hf.
  - intros c st fr Hc Hin. destruct (Hst c st Hc) as [[-> ->]|(Hne & sc & -> & Hf)]; by apply elem_of_list_singleton in Hin as ->.
  - split; [done|]. intros f Hq. discriminate Hq.
  - intros st0 f Hc Haw. destruct (Hst 0 st0 Hc) as [[_ ->]|[? _]]; [|done].
    destruct Haw as [H|H]; by apply elem_of_list_singleton in H.
Qed.

Section Reach0.
  Context (T : ftables) (HA : all_cond T) (HZ : zero_cond T).
  Lemma step_zero s a s' : Inv_zero s -> step T s a = Some s' -> Inv_zero s'.
  Proof.
    intros [H2 HZP I2 HQ I] Hs. pose proof (i2_all _ H2) as HI.
    pose proof (ac_own _ HA) as HTo. pose proof (ac_wake _ HA) as HW.
    split.
    - by eapply step_all2.
    - by eapply step_zp.
    - eapply (step_rn2 T); try eassumption; [apply (ia_own _ HI)|apply (ia_shape _ HI)|apply (ia_fut _ HI)|apply (i2_task _ H2)].
    - eapply (step_zq T); try eassumption; [apply (ia_own _ HI)|apply (i2_op _ H2)|apply (ia_fut _ HI)].
    - eapply (step_tz T); try eassumption;
        [apply (ia_own _ HI)|apply (ia_shape _ HI)|apply (i2_op _ H2)|apply (ia_dw _ HI)|apply (ia_fut _ HI)|apply (ia_wake _ HI)].
  Qed.
  Theorem reachable_zero sc0 others nev tr s : forallb awaitb sc0 = true -> Forall (fun sc => forallb fireb sc = true) others ->
    run T (init (sc0 :: others) 0 nev) tr = Some s -> Inv_zero s.
  Proof. intros H0 Ho. apply (run_inv Inv_zero T); [intros; by eapply step_zero|by apply init_zero]. Qed.
End Reach0.

Lemma poll_needs_cont st x g : pollall st = true -> x ∈ st -> pollfam x = Some g -> cntf opfr st > 0.
Proof.
  induction st as [|y r IH]; [by intros _ ?%elem_of_nil|]. cbn. intros [Hy Hr]%andb_true_iff Hin Hp.
  apply elem_of_cons in Hin as [<-|Hin].
  - unfold adjok in Hy. rewrite Hp in Hy. destruct r as [|z r2]; [done|]. cbn. destruct z; try done; cbn; lia.
  - specialize (IH Hr Hin Hp). lia.
Qed.
Lemma pollprog2_fam x g : pollprog2 x = Some g -> pollfam x = Some g.
Proof. destruct x; try done. Qed.

Section Terminal0.
  Context (T : ftables) (HA : all_cond T).
  Context (s : state) (HZ0 : Inv_zero s) (Hterm : terminal T s) (Hfired : all_fired s).
  Let H2 := iz_all2 _ HZ0.
  Let HI := i2_all _ H2.
  Let Hnp : no_panic T s := fun a => fut_no_panic T s a (ac_own _ HA) (ia_own _ HI) (ia_fut _ HI).

  (* nothing is left that could wake the caller: no token, no unpark or waker call in flight, no unfired event *)
  Lemma term_tzP f : tokb s 0 = false -> ~ tzP s f.
  Proof.
    intros Htk [Ht|[Hu|(_ & e & He)]]; [congruence| |].
    - rewrite (term_quiet T s HI Hterm Hnp (is_unpark 0)) in Hu; [lia|]. intros []; try done. by left.
    - rewrite tcover_g in He. apply coverg_iff in He as [(Hf & _)|[(c & w & Hf & _)|(c & d & w & Hf & _)]].
      + by rewrite Hfired in Hf.
      + pose proof (np_pos_wake s c w Hf) as H. by rewrite (term_npwake T s HI Hterm Hnp) in H.
      + assert (Hq : np toponly s > 0) by (apply np_pos_fsat; exists c, (FWakeWith d w); split; [done|done]).
        rewrite (term_quiet T s HI Hterm Hnp toponly) in Hq; [lia|]. intros ? ?. by right.
  Qed.

  Theorem zero_terminal st : stacks s !! 0 = Some st -> st = [FTop []].
  Proof.
    intros Hc. destruct (term_top T s HI Hterm Hnp 0 st Hc) as (fr & rest & -> & Hb).
    destruct (stacks_actor s 0 _ Hc) as (ac & Ea & Est).
    pose proof (Hterm 0) as Hs. unfold step in Hs. rewrite Ea in Hs. cbn in Hs. rewrite Est in Hs.
    pose proof (zp_stacks _ (iz_zp _ HZ0) 0 _ Hc) as Hk. unfold stk_ok in Hk. cbn in Hk.
    destruct fr; try done; cbn in Hs.
    - (* FTop [] *) destruct script; [|done]. by rewrite (op_bot_alone s 0 _ rest (i2_op _ H2) Hc eq_refl).
    - (* FPark f *) exfalso. destruct (token ac) eqn:Etok; [done|].
      assert (Htk : tokb s 0 = false) by (unfold tokb; by rewrite (toks_lookup _ _ _ Ea), Etok).
      destruct (iz_tz _ HZ0 _ f Hc ltac:(right; left)) as [(x & Hx & Hp)|Htz]; [|by apply (term_tzP f Htk)].
      apply elem_of_cons in Hx as [->|Hx]; [discriminate Hp|].
      pose proof (if_poll _ (ia_fut _ HI) _ _ Hc) as Hpo. cbn in Hpo.
      pose proof (poll_needs_cont rest x f Hpo Hx (pollprog2_fam _ _ Hp)) as Hn.
      rewrite (op_top_only s 0 _ rest (i2_op _ H2) Hc eq_refl) in Hn. lia.
  Qed.
End Terminal0.

Lemma step_stacks_len T s a s' : step T s a = Some s' -> length (stacks s') = length (stacks s).
Proof. intros (fr & rest & _ & E)%step_eff. by eapply eff_len. Qed.
Lemma run_stacks_len T tr : forall s s', run T s tr = Some s' -> length (stacks s') = length (stacks s).
Proof.
  unfold run. induction tr as [|a tr IH]; intros s s'; cbn; [by intros [= <-]|].
  destruct (step T s a) as [s1|] eqn:E; cbn.
  - intros H. rewrite (IH _ _ H). by eapply step_stacks_len.
  - intros H. exfalso. clear -H. induction tr; cbn in H; [done|auto].
Qed.

(* C06, zero pool runners: the awaiting caller finishes its script *)
Theorem C06_zero_pool T (HA : all_cond T) (HZ : zero_cond T) sc0 others nev tr s :
  forallb awaitb sc0 = true -> Forall (fun sc => forallb fireb sc = true) others ->
  run T (init (sc0 :: others) 0 nev) tr = Some s -> terminal T s -> all_fired s -> stacks s !! 0 = Some [FTop []].
Proof.
  intros H0 Ho Hr Ht Hf. pose proof (reachable_zero T HA HZ _ _ _ _ _ H0 Ho Hr) as HZ0.
  destruct (stacks s !! 0) as [st|] eqn:E.
  - by rewrite (zero_terminal T HA s HZ0 Ht Hf st E).
  - exfalso. apply lookup_ge_None_1 in E. rewrite (run_stacks_len _ _ _ _ Hr), init_stacks0 in E. cbn in E. lia.
Qed.
Print Assumptions C06_zero_pool.
