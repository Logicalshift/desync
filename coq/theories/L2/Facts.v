(* The order facts of Model.v ([ffacts], [stepF]): with the code's facts the parametrised model IS the model every theorem of this
   layer is about. *)
From stdpp Require Import list numbers option.
From RecordUpdate Require Import RecordUpdate.
From L2 Require Import Model.

Lemma stepF_code T s a : stepF code_ffacts T s a = step T s a.
Proof.
  unfold stepF. destruct (actors s !! a) as [ac|] eqn:Ea; [|unfold step; by rewrite Ea].
  destruct (stack ac) as [|fr rest] eqn:Est; [done|]. destruct fr; try done; [by destruct w|by destruct pc].
Qed.
Lemma runF_code T tr : forall s, runF code_ffacts T s tr = run T s tr.
Proof.
  unfold runF, run. assert (H : forall os, foldl (fun os a => o ← os; stepF code_ffacts T o a) os tr = foldl (fun os a => o ← os; step T o a) os tr).
  { induction tr as [|a tr IH]; [done|]. intros os. cbn. rewrite <- IH. f_equal. destruct os as [o|]; cbn; [apply stepF_code|done]. }
  intros s. apply H.
Qed.
Lemma terminalF_code T s : terminalF code_ffacts T s <-> terminal T s.
Proof. unfold terminalF, terminal. split; intros H a; [rewrite <- stepF_code|rewrite stepF_code]; apply H. Qed.

(* a state in which the enabled-actor filter finds nobody is terminal (for tests on concrete states) *)
Lemma step_oob T s a : length s.(actors) <= a -> step T s a = None.
Proof. intros H. unfold step. by rewrite lookup_ge_None_2. Qed.
Lemma stepF_oob F T s a : length s.(actors) <= a -> stepF F T s a = None.
Proof. intros H. unfold stepF. by rewrite lookup_ge_None_2. Qed.
Lemma no_enabled_none (stp : nat -> option state) n : (forall a, n <= a -> stp a = None) ->
  filter (fun a => bool_decide (is_Some (stp a)) = true) (seq 0 n) = [] -> forall a, stp a = None.
Proof.
  intros Ho H a. destruct (decide (a < n)) as [Hlt|Hge]; [|apply Ho; lia].
  destruct (stp a) eqn:E; [|done]. exfalso.
  assert (Hin : a ∈ filter (fun a => bool_decide (is_Some (stp a)) = true) (seq 0 n)).
  { apply elem_of_list_filter. split; [rewrite E; by apply bool_decide_eq_true|apply elem_of_list_In, in_seq; lia]. }
  rewrite H in Hin. by apply elem_of_nil in Hin.
Qed.
Print Assumptions stepF_code.
Print Assumptions runF_code.
Print Assumptions terminalF_code.
