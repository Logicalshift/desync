(* C06: the wake invariant across the schedule push, pushes onto an idle queue,
   reschedule_queue, unpark and the return from park *)
From stdpp Require Import list numbers option.
From RecordUpdate Require Import RecordUpdate.
From L2 Require Import Model Base Arm Own Jobs Shape Wake WakeInv WakeLem.
#[global] Unset Lia Cache.

Section Steps.
  Context (T : ftables) (HT : own_cond T) (HC : jobs_cond T) (HW : wake_cond T).

  (* FD2 / FRQ2: the schedule push *)
  Lemma ws_push s s' a l r : l = AD2 \/ l = ARQ2 -> astep T s a l r s' -> Inv_own s -> Inv_wake s -> Inv_wake s'.
  Proof.
    intros Hl A HO HI. destruct Hl as [-> | ->]; astep_open A.
    all: assert (Hpush : np is_push s' + 1 = np is_push s) by (pose proof (np_upd is_push s s' a _ _ Hst Hs) as H; cbn in H; lia).
    all: eapply (wake_mono s s' a _ [] r HO HI Hst Hs); try done; [by intros ? ?%elem_of_nil| | | |lia].
    all: try (intros _; apply tview_grow; try done; intros ?; intros; (eapply np_mono; [exact Hst|exact Hs|cnt_le])).
    all: try (intros e; by rewrite (cover_same s s' a _ _ e Hst Hs)).
    all: by erewrite (np_same is_rq1 s s'); [|exact Hst|exact Hs|].
  Qed.

  (* schedule_job_desync on an Idle queue *)
  Lemma ws_fd1_sched s s' a j q r : astep T s a (AD1sched j q) r s' -> Inv_own s -> Inv_wake s -> Inv_wake s'.
  Proof.
    intros A HO [IF IQ]. astep_open A. apply (wc_desync_sched _ HW) in Hg as [Hq ->]. split.
    - eapply (frames_other_arm s s' a _ _ r HO IF Hst Hs); [by intros fr ->%elem_of_list_singleton|intros Hown; by rewrite Hq in Hown].
    - pose proof (np_upd is_push s s' a _ _ Hst Hs) as H. unfold queue_ok. rewrite Eq. cbn [cntf is_push app] in H.
      destruct (np is_push s'); [lia|done].
  Qed.

  (* sync_background pushing onto an Idle queue: reschedule_queue follows *)
  Lemma ws_sbpush_idle s s' a op tk r : astep T s a (ASBpushIdle op tk) r s' -> Inv_own s -> Inv_wake s -> Inv_wake s'.
  Proof.
    intros A HO [IF IQ]. astep_open A. split.
    - eapply (frames_other_arm s s' a _ _ r HO IF Hst Hs); [|intros Hown; by rewrite Hg in Hown].
      intros fr [->|[->|[]%elem_of_nil]%elem_of_cons]%elem_of_cons; done.
    - pose proof (np_upd is_rq1 s s' a _ _ Hst Hs) as H. unfold queue_ok. rewrite Eq, Ej, Hg. cbn [cntf is_rq1 app] in H.
      destruct (jobs s ++ _) eqn:E; [by destruct (app_cons_not_nil _ _ _ (eq_sym E))|]. destruct (np is_rq1 s'); [lia|done].
  Qed.

  (* reschedule_queue, first section *)
  Lemma ws_rq1 s s' a q (push : bool) r : Inv_own s -> Inv_wake s ->
    stacks s !! a = Some ([FRQ1] ++ r) -> stacks s' = <[a := (if push then [FRQ2] else []) ++ r]> (stacks s) ->
    t_resched (ft_base T) (qs s) (negb (bool_decide (jobs s = []))) = (q, push) ->
    s'.(qs) = q -> s'.(jobs) = s.(jobs) -> s'.(insched) = s.(insched) -> s'.(evs) = s.(evs) -> s'.(dws) = s.(dws) -> s'.(dbl) = s.(dbl) ->
    toks s' = toks s -> Inv_wake s'.
  Proof.
    intros HO [IF IQ] Hst Hs Hg' Eq Ej' Ei' Ee' Ed' Eb' Et'. set (pre := if push then [FRQ2] else []) in *.
    assert (Hnew : forall fr, fr ∈ pre -> frame_ok s' a fr = true) by (subst pre; destruct push; [by intros fr ->%elem_of_list_singleton|by intros ? ?%elem_of_nil]).
    assert (Hc : forall e, cover s' e = cover s e).
    { intros e. eapply cover_same; [exact Hst|exact Hs| |done|done|done]. subst pre. by destruct push. }
    destruct (owned (qs s)) eqn:Ho.
    - assert (q = qs s) as -> by (eapply (wc_resched_other _ HW); [exact Hg'|by destruct (qs s)]).
      split; [|apply queue_ok_owned; by rewrite Eq].
      eapply (frames_other_arm s s' a _ _ r HO IF Hst Hs Hnew). intros _.
      apply tview_grow; try done; intros ?; intros; (eapply np_mono; [exact Hst|exact Hs|subst pre; destruct push; cnt_le]).
    - split; [eapply (frames_other_arm s s' a _ _ r HO IF Hst Hs Hnew); congruence|].
      pose proof (np_upd is_push s s' a _ _ Hst Hs) as Hp. pose proof (np_upd is_rq1 s s' a _ _ Hst Hs) as Hr.
      unfold queue_ok in *. rewrite Eq, Ej', Ei', (hsusp_jobs _ _ Ej').
      destruct (qs s) eqn:Eqs; try done.
      + rewrite (wc_resched_idle _ HW) in Hg'. destruct (jobs s) as [|j0 l0] eqn:Ejs; cbn in Hg'; injection Hg' as <- <-; [done|].
        subst pre. cbn [cntf is_push app] in Hp. destruct (np is_push s'); [lia|done].
      + assert (q = Pending) as -> by (eapply (wc_resched_other _ HW); [exact Hg'|done]).
        subst pre. destruct push; cbn [cntf is_push app] in Hp; eapply posb_mono; [|exact IQ| |exact IQ]; lia.
      + assert (q = WaitingForWake) as -> by (eapply (wc_resched_other _ HW); [exact Hg'|done]).
        destruct (hsusp s); [by rewrite Hc|done].
      + rewrite (wc_resched_wfp _ HW) in Hg'. injection Hg' as <- <-. destruct (hsusp s); [|done].
        subst pre. cbn [cntf is_push app] in Hp. destruct (np is_push s'); [lia|]. by rewrite orb_true_r.
      + assert (q = Panicked) as -> by (eapply (wc_resched_other _ HW); [exact Hg'|done]). done.
  Qed.

  (* thread.unpark() / the task waker *)
  Lemma ws_unpark s s' a c0 r : astep T s a (AUnpark c0) r s' -> Inv_own s -> Inv_wake s -> Inv_wake s'.
  Proof.
    intros A HO HI. astep_open A.
    eapply (wake_mono s s' a _ [] r HO HI Hst Hs); try done; [by intros ? ?%elem_of_nil| | | |].
    - intros _. apply tview_intro; [done|by rewrite (hsusp_jobs _ _ Ej)| | |].
      + intros e w _. apply reg_mono; [by rewrite (unfreg_evs s s')|]. eapply np_mono; [exact Hst|exact Hs|cnt_le].
      + intros c Hc. unfold unp. destruct (decide (c = c0)) as [->|Hne].
        * intros _. unfold tokb. rewrite Etk, list_lookup_insert; [done|]. apply isrunner_lt in Hc. unfold toks, stacks in *. rewrite fmap_length in Hc. by rewrite fmap_length.
        * rewrite (tokb_insert_ne s s' c c0 true Etk Hne), (np_same (is_unpark c) s s' a _ _ Hst Hs); [done|]. cbn. by rewrite bool_decide_false by congruence.
      + intros e d _. apply gd_np; [done|done|]. eapply np_mono; [exact Hst|exact Hs|cnt_le].
    - intros e. by rewrite (cover_same s s' a _ _ e Hst Hs).
    - by rewrite (np_same is_rq1 s s' a _ _ Hst Hs).
    - rewrite (np_same is_push s s' a _ _ Hst Hs), Ei; done.
  Qed.

  (* the return from park of an actor that is not the runner: its own token is consumed, nothing else is read *)
  Lemma ws_unparked s s' a old new r :
    Inv_own s -> Inv_shape s -> Inv_wake s -> stacks s !! a = Some (old ++ r) -> stacks s' = <[a := new ++ r]> (stacks s) ->
    (exists fr0, old = [fr0] /\ chain fr0 = false /\ marker fr0 = false) -> List.filter relv new = List.filter relv old ->
    (forall fr, fr ∈ new -> frame_ok s' a fr = true) ->
    s'.(qs) = s.(qs) -> s'.(jobs) = s.(jobs) -> s'.(insched) = s.(insched) -> s'.(evs) = s.(evs) -> s'.(dws) = s.(dws) -> s'.(dbl) = s.(dbl) ->
    toks s' = <[a := false]> (toks s) -> Inv_wake s'.
  Proof.
    intros HO HS HI Hst Hs (fr0 & -> & Hc0 & Hm0) Hr Hnew Eq Ej Ei Eev Edw Edb Etk.
    pose proof (plain_top_not_runner s a _ _ HS Hst Hc0 Hm0) as Hna.
    assert (Hnp : forall P, (forall fr, P fr = true -> relv fr = true) -> np P s' = np P s).
    { intros P HP. eapply np_same; [exact Hst|exact Hs|]. rewrite !cntf_app, <- (cntf_filter P relv new HP), Hr, (cntf_filter P relv _ HP). done. }
    eapply (wake_mono s s' a _ new r HO HI Hst Hs Hnew); try done.
    - intros _. apply tview_intro; [done|by rewrite (hsusp_jobs _ _ Ej)| | |].
      + intros e w _. apply reg_mono; [by rewrite (unfreg_evs s s')|]. rewrite Hnp; [done|by intros []].
      + intros c Hc. unfold unp. rewrite (tokb_insert_ne s s' c a false Etk (Hna c Hc)), Hnp; [done|by intros []].
      + intros e d _. apply gd_np; [done|done|]. rewrite Hnp; [done|by intros []].
    - intros e. rewrite (cover_same s s' a _ _ e Hst Hs); [done| |done..].
      rewrite !filter_app. f_equal. clear -Hr. revert Hr. generalize [fr0]. intros old Hr.
      assert (H : forall st, List.filter relw st = List.filter relw (List.filter relv st)).
      { induction st as [|x st IH]; cbn; [done|]. destruct (relv x) eqn:E; cbn; [by rewrite IH|]. destruct x; try done. }
      by rewrite (H new), (H old), Hr.
    - rewrite Hnp; [done|by intros []].
    - rewrite Hnp, Ei; [done|by intros []].
  Qed.

  (* run_one_job_now: the parked sync caller returns from thread::park and re-checks the state *)
  Lemma ws_ropark s s' a j r : astep T s a (AROpark j) r s' -> Inv_own s -> Inv_wake s -> Inv_wake s'.
  Proof.
    intros A HO HI. pose proof HI as [IF IQ]. astep_open A.
    split; [|apply queue_ok_owned; rewrite Eq; by apply (runner_owned s a _ HO Hst); cbn; lia].
    eapply (frames_runner_arm s s' a _ _ r HO Hst ltac:(cbn; lia) Hs). intros fr ->%elem_of_list_singleton.
    pose proof (top_ok s a _ _ HI Hst) as Hok. cbn in Hok |- *. rewrite Eq.
    destruct (susp j) as [e|]; [|done].
    assert (Hgt : gt s' a e = gt s a e).
    { unfold gt. rewrite (unfreg_evs s s') by done. f_equal. f_equal. by eapply np_same; [exact Hst|exact Hs|]. }
    rewrite Hgt. by destruct (is_wfu (qs s)).
  Qed.
End Steps.
