(* sync_background, the waiter's loop (Model.v: FSBreg / FSBpush / FSBwait / FSBclaim): a waiter whose job has not run and whose
   `rescheduled` flag is clear is going to be kicked whenever the queue can be claimed. *)
From stdpp Require Import list numbers option.
From RecordUpdate Require Import RecordUpdate.
From L2 Require Import Model Base Arm Own Jobs Shape OpShape DwInv Wake WakeInv WakeLem WakeStep1 WakeStep2 WakeStep3 WakeStep4 Effect CoverStep WakeStep5 Task TaskInv.
#[global] Unset Lia Cache.

Definition kickb (s : state) (c : nat) : bool := default false (kicks s !! c).
Definition claimb (T : ftables) (st : qstate) : bool := match T.(ft_base).(t_claim) st with Some _ => true | None => false end.
Definition wakeq (s : state) : bool := match hsusp s with Some e => cover s e | None => false end.

(* claim_pending_queue accepts exactly the states in which nobody runs the queue and no WakeQueue wake-up alone restarts it; a
   WakeQueue wake-up that leaves the queue claimable goes on to reschedule_queue (which kicks the waiters) *)
Record claim_cond (T : ftables) : Prop := {
  cc_idle : claimb T Idle = true;
  cc_pending : claimb T Pending = true;
  cc_wfp : forall f, claimb T (WaitingForPoll f) = true;
  cc_wfw : claimb T WaitingForWake = false;
  cc_wq : forall st st' c, T.(t_wake_queue) st = (st', c) -> claimb T st' = true -> c = true;
}.
Lemma claimb_owned T (HT : own_cond T) st : claimb T st = true -> owned st = false /\ st <> Panicked.
Proof. unfold claimb. destruct (t_claim (ft_base T) st) eqn:E; [|done]. intros _. by destruct (oc_claim _ HT _ _ E) as (? & ? & _). Qed.

Definition notsync (j : job) : Prop := match j with JSync _ _ _ => False | _ => True end.
Record Inv_K (T : ftables) (s : state) : Prop := {
  k_wait : forall c st, stacks s !! c = Some st -> FSBwait ∈ st -> kickb s c = false -> sresb s c = false -> claimb T s.(qs) = true ->
             np is_rq1 s > 0 \/ wakeq s = true;
  k_push : forall c st op tk, stacks s !! c = Some st -> FSBpush op tk ∈ st -> kickb s c = true;
  k_fd1 : forall c st j, stacks s !! c = Some st -> FD1 j ∈ st -> notsync j }.

Ltac norm_stacks_in H :=
  rewrite ?stacks_setstack in H;
  rewrite ?stacks_addlog, ?stacks_setf, ?stacks_setev, ?stacks_setdw, ?stacks_setdbl, ?stacks_settoken, ?stacks_setsres, ?stacks_setkick, ?stacks_kickall in H;
  rewrite ?stacks_addlog, ?stacks_setf, ?stacks_setev, ?stacks_setdw, ?stacks_setdbl, ?stacks_settoken, ?stacks_setsres, ?stacks_setkick, ?stacks_kickall in H.

Section Flags.
  Context (s : state) (a : nat) (fr : frame) (rest : list frame) (s' : state) (E : eff s a fr rest s').
  Lemma eff_kickb c : c < length (stacks s) -> kickb s' c = false -> fr <> FRQ1 /\ (kickb s c = false \/ (c = a /\ fr = FSBwait)).
  Proof.
    intros Hlt. pose proof (ef_kicks _ _ _ _ _ E) as H. unfold kickb. intros Hk. destruct fr; lazy beta iota in H.
    all: try (rewrite H in Hk; split; [done|by left]).
    - (* FSBreg *) rewrite H in Hk. split; [done|]. left. by eapply flag_set_true.
    - (* FSBwait *) split; [done|]. destruct H as [H|H]; rewrite H in Hk; [by left|].
      destruct (decide (c = a)); [by right|left; by rewrite flag_set_ne in Hk].
    - (* FRQ1 *) rewrite <- kicks_length in Hlt. destruct (lookup_lt_is_Some_2 _ _ Hlt) as [b Hb]. by rewrite H, list_lookup_fmap, Hb in Hk.
  Qed.
  Lemma eff_sresb c : sresb s' c = false -> sresb s c = false \/ (c = a /\ match fr with FSDpush _ _ | FSBpush _ _ => True | _ => False end).
  Proof.
    pose proof (ef_sress _ _ _ _ _ E) as H. unfold sresb. rewrite H. intros Hk. destruct fr; try (by left).
    - destruct (decide (c = a)); [by right|left; by rewrite flag_set_ne in Hk].
    - destruct (decide (c = a)); [by right|left; by rewrite flag_set_ne in Hk].
    - destruct j; try (by left). left. by eapply flag_set_true.
  Qed.
End Flags.

Lemma succs_no_sbwait s a fr : match fr with FSBpush _ _ | FSBclaim => False | _ => True end -> FSBwait ∉ succs s a fr.
Proof.
  intros Hf Hin. refine (_ (succs_forallb (fun x => negb (bool_decide (x = FSBwait))) _ _ _ _ _ Hin)); [by rewrite bool_decide_true|].
  destruct fr; try done; succs_split; done.
Qed.

Lemma wakeq_jobs s s' : (jobs s' = jobs s \/ exists j, jobs s' = jobs s ++ [j]) -> (forall e, cover s e = true -> cover s' e = true) ->
  wakeq s = true -> wakeq s' = true.
Proof.
  unfold wakeq, hsusp. intros [->|[j ->]] H; destruct (jobs s) as [|j0 l]; try done; cbn; destruct (susp j0); try done; apply H.
Qed.

Lemma no_hands T s a fr0 rest c0 : Inv_own s -> Inv_K T s -> stacks s !! a = Some (fr0 :: rest) -> marker fr0 = true -> sbf c0 fr0 = false ->
  np (sbf c0) s = 0.
Proof.
  intros HO HK Hst Hm Hf. destruct (np (sbf c0) s) eqn:En; [done|]. exfalso.
  assert (Hp : np (sbf c0) s > 0) by lia. apply np_pos_fsat in Hp as (c & fr & Hfs & Hb).
  destruct (marker_unique s a fr0 rest HO Hst Hm) as [M1 M2].
  assert (Hmk : marker fr = true \/ exists j, fr = FD1 j) by (destruct fr; try discriminate Hb; (by left) || (right; by eexists)).
  destruct Hmk as [Hmk|[j ->]].
  - destruct (decide (c = a)) as [->|Hne]; [|by rewrite (M2 c fr Hne Hfs) in Hmk].
    destruct Hfs as (st & Hc & Hin). rewrite Hst in Hc. injection Hc as <-. apply elem_of_cons in Hin as [->|Hin]; [congruence|].
    by rewrite (M1 fr Hin) in Hmk.
  - destruct Hfs as (st & Hc & Hin). pose proof (k_fd1 _ _ HK c st j Hc Hin) as Hn. cbn in Hb. by destruct j.
Qed.

Section KW.
  Context (T : ftables) (HT : own_cond T) (HW : wake_cond T) (HC : claim_cond T).

  Lemma step_claimb s a s' fr rest : Inv_own s -> Inv_dw s -> Inv_wake s -> step T s a = Some s' -> stacks s !! a = Some (fr :: rest) ->
    fr <> FDRfin -> claimb T s'.(qs) = true -> claimb T s.(qs) = true \/ np is_rq1 s' > 0 \/ wakeq s' = true.
  Proof.
    intros HO HD HWk Hstep Hst Hfin Hcl. destruct (step_eff _ _ _ _ Hstep) as (fr0 & rest0 & Hst0 & E).
    rewrite Hst in Hst0. injection Hst0 as <- <-.
    destruct (w_qs fr) eqn:Eq; [|left; by rewrite <- (ef_qs _ _ _ _ _ E Eq)]. clear E.
    pose proof (io_nopanic _ HO) as Hnp.
    destruct fr; try discriminate Eq; step_at Hstep Hst.
    all: try discriminate Hstep. all: injection Hstep as <-. all: cbn in Hcl.
    all: try (by destruct Hfin).
    all: try (assert (Hrun := runner_owned s a _ HO Hst ltac:(cbn; lia))).
    all: try (lazymatch goal with E : t_desync _ _ = (_, _) |- _ => left;
       destruct (decide (qs s = Idle)) as [Hi|Hn]; [rewrite Hi; apply (cc_idle _ HC)|rewrite (wc_desync_other _ HW _ _ _ E Hn) in Hcl; exact Hcl] end).
    (* a WakeQueue wake-up that leaves a claimable state goes on to reschedule_queue *)
    all: try (lazymatch goal with E : t_wake_queue _ _ = (_, _) |- _ => pose proof (cc_wq _ HC _ _ _ E Hcl) as Hc;
       first [discriminate Hc|right; left; apply np_pos_fsat; eexists a, FRQ1; split; [eapply fsat_new; [exact Hst|solve_stacks|left]|done] ] end).
    all: try (tbl_facts HT; repeat match goal with H : _ /\ _ |- _ => destruct H end; subst;
       first [ left; exact Hcl | exfalso; apply (claimb_owned T HT) in Hcl as [Hcl _]; first [discriminate Hcl | congruence] ]).
    all: try (first [ left; exact Hcl
             | exfalso; apply (claimb_owned T HT) in Hcl as [Hcl _]; first [discriminate Hcl | congruence]
             | right; left; apply np_pos_fsat; eexists a, FRQ1; split; [eapply fsat_new; [exact Hst|solve_stacks|rewrite ?elem_of_cons; solve [auto] ]|done] ]).
    all: try (lazymatch goal with E : t_resched _ _ _ = (_, _) |- _ => left;
       destruct (decide (qs s = Idle)) as [Hi|Hn]; [rewrite Hi; apply (cc_idle _ HC)|rewrite (wc_resched_other _ HW _ _ _ _ E Hn) in Hcl; exact Hcl] end).
    (* FROpend, FDRpend: the runner goes on, or parks the queue in WaitingForWake *)
    all: try (lazymatch type of Hst with _ = Some (FROpend _ :: _) =>
       destruct (runner_working s a _ HO Hst ltac:(cbn; lia)) as [_ Hnw]; destruct (oc_roj_pend _ HT _ Hrun Hnw) as (q' & Hq & Ho);
       rewrite Hq in E; injection E as <-; apply (claimb_owned T HT) in Hcl as [Hcl _]; congruence end).
    all: try (lazymatch type of Hst with _ = Some (FDRpend :: _) =>
       destruct (runner_working s a _ HO Hst ltac:(cbn; lia)) as [_ Hnw]; destruct (oc_drain_pend _ HT _ Hrun Hnw) as [Hd|[Hd _] ]; cbn zeta in Hd;
       [rewrite Hd, (cc_wfw _ HC) in Hcl; discriminate Hcl|apply (claimb_owned T HT) in Hcl as [Hcl _]; congruence] end).
    - (* FDQwfw *) by rewrite (cc_wfw _ HC) in Hcl.
    - (* FDQwfp: the queue waits for the poll of f; the DoubleWaker about to be installed carries the queue waker *)
      right; right.
      pose proof (iw_frames _ HWk a (FDQwfp f d) ltac:(eexists; split; [exact Hst|left])) as Hok. cbn in Hok.
      unfold wakeq. change (hsusp (setstack _ _ _)) with (hsusp s). destruct (hsusp s) as [e|] eqn:Eh; [|discriminate Hok].
      apply cover_iff. right; right. exists a, d, (WDouble (length (dbl s))). split; [|split].
      + eapply fsat_new; [exact Hst|solve_stacks|left].
      + cbn. unfold dbl_q, getdbl. cbn. by rewrite list_lookup_middle.
      + eapply (gd_np s); [reflexivity|reflexivity| |exact Hok]. eapply np_mono; [exact Hst|solve_stacks|cnt_le].
    - (* WakeThread: only a queue parked in WaitingForWake may become claimable (Idle) - its WakeQueue wake-up is still to come *)
      destruct (qs s) eqn:Eqs.
      + left. apply (cc_idle _ HC).
      + left. apply (cc_pending _ HC).
      + rewrite (wc_wt_running _ HW) in Hcl by done. by apply (claimb_owned T HT) in Hcl as [Hcl _].
      + destruct (wc_wt_wfw _ HW) as [Hi|Hi]; rewrite Hi in Hcl; [|by rewrite (cc_wfw _ HC) in Hcl].
        right; right. pose proof (iw_queue _ HWk) as HQ. unfold queue_ok in HQ. rewrite Eqs in HQ.
        unfold wakeq. change (hsusp (setstack _ _ _)) with (hsusp s). destruct (hsusp s) as [e|]; [|done].
        rewrite cover_g in *. eapply (cg_plain _ _ s _ a _ _ e Hst); [solve_stacks| |by intros ? ? _|done|done|exact HQ].
        intros x [->|Hin]%elem_of_cons Hn; [done|by right].
      + rewrite (wc_wt_wfu _ HW) in Hcl. by apply (claimb_owned T HT) in Hcl as [Hcl _].
      + left. apply (cc_wfp _ HC).
      + rewrite (wc_wt_running _ HW) in Hcl by done. by apply (claimb_owned T HT) in Hcl as [Hcl _].
      + done.
  Qed.

  Lemma step_wakeq s a s' fr rest : Inv_dw s -> step T s a = Some s' -> stacks s !! a = Some (fr :: rest) -> marker fr = false ->
    wakeq s = true -> claimb T s'.(qs) = true -> wakeq s' = true \/ np is_rq1 s' > 0.
  Proof.
    intros HD Hstep Hst Hm Hw Hcl. destruct (step_eff _ _ _ _ Hstep) as (fr0 & rest0 & Hst0 & E).
    rewrite Hst in Hst0. injection Hst0 as <- <-.
    destruct (decide (fr = FWake WQueue)) as [->|Hne].
    - right. step_at Hstep Hst. all: injection Hstep as <-. all: cbn in Hcl. clear E.
      all: lazymatch goal with E : t_wake_queue _ _ = _ |- _ => pose proof (cc_wq _ HC _ _ _ E Hcl) as Hc end; try discriminate Hc.
      apply np_pos_fsat. eexists a, FRQ1. split; [eapply fsat_new; [exact Hst|solve_stacks|left]|done].
    - left. revert Hw. apply wakeq_jobs; [by apply (eff_jobs_push _ _ _ _ _ Hst E)|]. intros e. rewrite !cover_g. intros He.
      destruct (step_cover false WQueue ltac:(done) T s a s' fr rest e HW HD Hstep Hst) as [?|?]; [|done..].
      unfold lost. destruct fr; try done. cbn. by rewrite andb_false_r.
  Qed.

  Lemma step_kwait s a s' : Inv_own s -> Inv_op s -> Inv_dw s -> Inv_wake s ->
    (forall c st, stacks s !! c = Some st -> sb_ok s c st = true) -> Inv_K T s ->
    step T s a = Some s' ->
    forall c st, stacks s' !! c = Some st -> FSBwait ∈ st -> kickb s' c = false -> sresb s' c = false -> claimb T s'.(qs) = true ->
      np is_rq1 s' > 0 \/ wakeq s' = true.
  Proof.
    intros HO HP HD HWk HSB HK Hstep c st Hc Hin Hk Hsb Hcl.
    destruct (step_eff _ _ _ _ Hstep) as (fr & rest & Hst & E). destruct (eff_frames _ _ _ _ _ E) as (new & Hs & Hnew & _).
    assert (Hlt : c < length (stacks s)) by (rewrite <- (eff_len _ _ _ _ _ E); by eapply lookup_lt_Some).
    destruct (eff_kickb _ _ _ _ _ E c Hlt Hk) as [Hrq1 Hk0]. pose proof (eff_sresb _ _ _ _ _ E c Hsb) as Hsb0.
    (* the waiter was waiting before the step, with its flags clear *)
    assert (Hold : exists st0, stacks s !! c = Some st0 /\ FSBwait ∈ st0 /\ kickb s c = false /\ sresb s c = false).
    { rewrite Hs in Hc. destruct (decide (c = a)) as [->|Hne].
      - rewrite list_lookup_insert in Hc by (by eapply lookup_lt_Some). injection Hc as <-.
        exists (fr :: rest). split; [done|]. destruct (Hnew _ Hin) as [?|[Hsu|Hr]]; [done|exfalso|].
        + (* FSBwait is pushed on top of FSBpush (the new waiter starts out kicked) and by a failed claim (the state is not claimable) *)
          destruct fr; try (lazymatch type of Hsu with _ ∈ succs _ _ ?f => by destruct (succs_no_sbwait s a f I Hsu) end).
          * rewrite (k_push _ _ HK a _ op tk Hst ltac:(left)) in Hk0. by destruct Hk0 as [?|[_ ?]].
          * step_at Hstep Hst; injection Hstep as <-; cbn in Hcl; [|unfold claimb in Hcl; by rewrite E0 in Hcl].
            apply (claimb_owned T HT) in Hcl as [Hcl _]. apply (oc_claim _ HT) in E0 as (_ & _ & ->). done.
        + assert (Hno : opfr fr = false).
          { destruct (opfr fr) eqn:Eo; [|done]. by pose proof (op_below s a fr rest _ HP Hst Eo Hr). }
          split; [by right|]. split; [destruct Hk0 as [?|[_ ->]]; done|]. destruct Hsb0 as [?|[_ Hf]]; [done|]. by destruct fr.
      - rewrite list_lookup_insert_ne in Hc by done. exists st. split; [done|]. split; [done|].
        split; [by destruct Hk0 as [?|[? _]]|by destruct Hsb0 as [?|[? _]] ]. }
    destruct Hold as (st0 & Hc0 & Hin0 & Hk1 & Hsb1).
    destruct (decide (fr = FDRfin)) as [->|Hfin].
    { (* drain ends: with an empty queue every waiter's job has been run; otherwise the runner goes on *)
      exfalso. destruct (runner_working s a _ HO Hst ltac:(cbn; lia)) as [Hrun Hnw].
      step_at Hstep Hst; injection Hstep as <-; cbn in Hcl.
      - destruct (wc_drain_fin _ HW _ _ _ (owned_running _ Hrun Hnw) E0) as [-> Hem]. apply bool_decide_eq_true in Hem.
        pose proof (HSB c st0 Hc0) as Hs0. unfold sb_ok in Hs0.
        assert (Hw : cntf is_sbwait st0 > 0) by (apply cntf_pos; by exists FSBwait).
        destruct (cntf is_sbwait st0); [lia|]. rewrite Hsb1 in Hs0. cbn in Hs0. apply posb_true in Hs0. unfold nsb in Hs0.
        rewrite (no_hands T s a FDRfin rest c HO HK Hst eq_refl eq_refl), Hem in Hs0. cbn in Hs0. lia.
      - apply (oc_drain_fin _ HT _ _ _ _ Hrun Hnw) in E0 as [Ho _]. apply (claimb_owned T HT) in Hcl as [Hcl _]. congruence. }
    destruct (step_claimb s a s' fr rest HO HD HWk Hstep Hst Hfin Hcl) as [Hcl0|[?|?]]; [|by left|by right].
    destruct (k_wait _ _ HK c st0 Hc0 Hin0 Hk1 Hsb1 Hcl0) as [Hr|Hw].
    - left. eapply Nat.lt_le_trans; [exact Hr|]. apply (eff_np_mono _ _ _ _ _ Hst E); [by destruct fr|by intros []].
    - pose proof (not_owned_no_marker s a _ HO Hst (proj1 (claimb_owned T HT _ Hcl0))) as Hm. cbn in Hm.
      destruct (step_wakeq s a s' fr rest HD Hstep Hst) as [?|?]; [by destruct (marker fr)|done|done|by right|by left].
  Qed.
End KW.

Lemma succs_fd1 s a fr j : FD1 j ∈ succs s a fr -> notsync j.
Proof.
  intros Hin. refine (_ (succs_forallb (fun x => match x with FD1 (JSync _ _ _) => false | _ => true end) _ _ _ _ _ Hin)); [by destruct j|].
  destruct fr; try done; succs_split; done.
Qed.
Lemma succs_sbpush s a fr op tk : FSBpush op tk ∈ succs s a fr -> fr = FSBreg op tk.
Proof.
  intros Hin. refine (_ (succs_forallb (fun x => match x with FSBpush _ _ => bool_decide (fr = FSBreg op tk) | _ => true end) _ _ _ _ _ Hin)).
  { by intros ?%bool_decide_eq_true. }
  destruct fr; try done; succs_split; try done. apply elem_of_list_singleton in Hin as [= -> ->]. cbn. by rewrite bool_decide_true.
Qed.

Section KW2.
  Context (T : ftables).
  Lemma step_kfd1 s a s' : (forall c st j, stacks s !! c = Some st -> FD1 j ∈ st -> notsync j) -> step T s a = Some s' ->
    forall c st j, stacks s' !! c = Some st -> FD1 j ∈ st -> notsync j.
  Proof.
    intros HK Hstep. destruct (step_eff _ _ _ _ Hstep) as (fr & rest & Hst & E). destruct (eff_frames _ _ _ _ _ E) as (new & Hs & Hnew & _).
    intros c st j Hc. revert j. revert c st Hc.
    apply (allstk_update (fun st => forall j, FD1 j ∈ st -> notsync j) s s' a _ new (fun c st Hc j => HK c st j Hc) Hst Hs).
    intros Hold j Hin. destruct (Hnew _ Hin) as [?|[Hsu|Hr]]; [done|by eapply succs_fd1|]. apply Hold. by right.
  Qed.

  (* FSBpush is entered from FSBreg only, which sets the flag; only the waiter at the head of its loop clears it *)
  Lemma step_kpush s a s' : Inv_op s -> (forall c st op tk, stacks s !! c = Some st -> FSBpush op tk ∈ st -> kickb s c = true) ->
    step T s a = Some s' -> forall c st op tk, stacks s' !! c = Some st -> FSBpush op tk ∈ st -> kickb s' c = true.
  Proof.
    intros HP HK Hstep. destruct (step_eff _ _ _ _ Hstep) as (fr & rest & Hst & E). destruct (eff_frames _ _ _ _ _ E) as (new & Hs & Hnew & _).
    intros c st op tk Hc Hin. destruct (kickb s' c) eqn:Hk; [done|exfalso].
    assert (Hlt : c < length (stacks s)) by (rewrite <- (eff_len _ _ _ _ _ E); by eapply lookup_lt_Some).
    destruct (eff_kickb _ _ _ _ _ E c Hlt Hk) as [_ Hk0]. rewrite Hs in Hc. destruct (decide (c = a)) as [->|Hne].
    - rewrite list_lookup_insert in Hc by (by eapply lookup_lt_Some). injection Hc as <-.
      destruct (Hnew _ Hin) as [?|[->%succs_sbpush|Hr]]; [done| |].
      + pose proof (ef_kicks _ _ _ _ _ E) as H. cbn in H. unfold kickb in Hk. rewrite H, list_lookup_insert in Hk; [done|].
        by rewrite kicks_length.
      + rewrite (HK a _ op tk Hst ltac:(by right)) in Hk0. destruct Hk0 as [?|[_ ->]]; [done|].
        by pose proof (op_below s a _ rest _ HP Hst eq_refl Hr).
    - rewrite list_lookup_insert_ne in Hc by done. rewrite (HK c st op tk Hc Hin) in Hk0. by destruct Hk0 as [?|[? _]].
  Qed.
End KW2.

Section KAll.
  Context (T : ftables) (HT : own_cond T) (HW : wake_cond T) (HC : claim_cond T).
  Lemma step_K s a s' : Inv_own s -> Inv_op s -> Inv_dw s -> Inv_wake s -> Inv_task s -> Inv_K T s -> step T s a = Some s' -> Inv_K T s'.
  Proof.
    intros HO HP HD HWk HTk HK Hs. split.
    - eapply (step_kwait T HT HW HC s a s'); try done. apply (it_sb _ HTk).
    - eapply (step_kpush T s a s' HP); [apply (k_push _ _ HK)|exact Hs].
    - eapply (step_kfd1 T s a s'); [apply (k_fd1 _ _ HK)|exact Hs].
  Qed.
End KAll.
Lemma init_K T scripts npool nev : Inv_K T (init scripts npool nev).
Proof.
  assert (Hst : forall c st, stacks (init scripts npool nev) !! c = Some st -> st = [FPIdle] \/ exists sc, st = [FTop sc]).
  { intros c st Hc. unfold stacks, init in Hc; cbn in Hc. rewrite list_lookup_fmap in Hc.
    destruct ((((fun sc => mk_actor [FTop sc]) <$> scripts) ++ replicate npool (mk_actor [FPIdle])) !! c) as [ac|] eqn:E; [|done].
    cbn in Hc. injection Hc as <-. apply elem_of_list_lookup_2 in E. apply elem_of_app in E as [E|E].
    - apply elem_of_list_fmap in E as (sc & -> & _). right. by eexists.
    - apply elem_of_replicate in E as [-> _]. by left. }
  split.
  - intros c st Hc Hin. destruct (Hst c st Hc) as [->|[sc ->]]; by apply elem_of_list_singleton in Hin.
  - intros c st op tk Hc Hin. destruct (Hst c st Hc) as [->|[sc ->]]; by apply elem_of_list_singleton in Hin.
  - intros c st j Hc Hin. destruct (Hst c st Hc) as [->|[sc ->]]; by apply elem_of_list_singleton in Hin.
Qed.
