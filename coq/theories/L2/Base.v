From stdpp Require Import list numbers option.
From RecordUpdate Require Import RecordUpdate.
From L2 Require Import Model.
#[global] Unset Lia Cache. (* the .lia.cache of this directory is shared with concurrent builds *)

Definition stacks (s : state) : list (list frame) := stack <$> s.(actors).
Definition toks (s : state) : list bool := token <$> s.(actors).
Definition sress (s : state) : list bool := sres <$> s.(actors).

Lemma fmap_alter_same {A B} (f : A -> B) (g : A -> A) (i : nat) (l : list A) : (forall x, f (g x) = f x) -> f <$> alter g i l = f <$> l.
Proof. intros H. revert i; induction l as [|x l IH]; intros [|i]; cbn; try done; [by rewrite H|by rewrite IH]. Qed.
Lemma fmap_alter_const {A B} (f : A -> B) (g : A -> A) (v : B) (i : nat) (l : list A) : (forall x, f (g x) = v) -> f <$> alter g i l = alter (fun _ => v) i (f <$> l).
Proof. intros H. revert i; induction l as [|x l IH]; intros [|i]; cbn; try done; [by rewrite H|by rewrite IH]. Qed.
Lemma alter_const_insert {A} (v : A) (i : nat) (l : list A) : alter (fun _ => v) i l = <[i := v]> l.
Proof. revert i; induction l as [|x l IH]; intros [|i]; cbn; try done. by rewrite <- IH. Qed.

Lemma fmap_upda_same {B} (p : arec -> B) s a f : (forall x, p (f x) = p x) -> p <$> actors (upda s a f) = p <$> actors s.
Proof. apply fmap_alter_same. Qed.
Lemma fmap_upda_set {B} (p : arec -> B) s a f v : (forall x, p (f x) = v) -> p <$> actors (upda s a f) = <[a := v]> (p <$> actors s).
Proof. intros H. rewrite <- alter_const_insert. by apply fmap_alter_const. Qed.

Lemma stacks_setstack s a st : stacks (setstack s a st) = <[a := st]> (stacks s).
Proof. by apply fmap_upda_set. Qed.
Lemma stacks_settoken s c b : stacks (settoken s c b) = stacks s.
Proof. by apply fmap_upda_same. Qed.
Lemma stacks_setsres s c b : stacks (setsres s c b) = stacks s.
Proof. by apply fmap_upda_same. Qed.
Lemma toks_setstack s a st : toks (setstack s a st) = toks s.
Proof. by apply fmap_upda_same. Qed.
Lemma toks_setsres s c b : toks (setsres s c b) = toks s.
Proof. by apply fmap_upda_same. Qed.
Lemma toks_settoken s c b : toks (settoken s c b) = <[c := b]> (toks s).
Proof. by apply fmap_upda_set. Qed.
Lemma sress_setstack s a st : sress (setstack s a st) = sress s.
Proof. by apply fmap_upda_same. Qed.
Lemma sress_settoken s c b : sress (settoken s c b) = sress s.
Proof. by apply fmap_upda_same. Qed.
Lemma sress_setsres s c b : sress (setsres s c b) = <[c := b]> (sress s).
Proof. by apply fmap_upda_set. Qed.

Definition kicks (s : state) : list bool := kicked <$> s.(actors).
Lemma stacks_setkick s c b : stacks (setkick s c b) = stacks s.
Proof. by apply fmap_upda_same. Qed.
Lemma toks_setkick s c b : toks (setkick s c b) = toks s.
Proof. by apply fmap_upda_same. Qed.
Lemma sress_setkick s c b : sress (setkick s c b) = sress s.
Proof. by apply fmap_upda_same. Qed.
Lemma stacks_kickall s : stacks (kickall s) = stacks s.
Proof. unfold stacks, kickall; cbn. rewrite <- list_fmap_compose. by apply list_fmap_ext. Qed.
Lemma toks_kickall s : toks (kickall s) = toks s.
Proof. unfold toks, kickall; cbn. rewrite <- list_fmap_compose. by apply list_fmap_ext. Qed.
Lemma sress_kickall s : sress (kickall s) = sress s.
Proof. unfold sress, kickall; cbn. rewrite <- list_fmap_compose. by apply list_fmap_ext. Qed.
Lemma kicks_setstack s a st : kicks (setstack s a st) = kicks s.
Proof. by apply fmap_upda_same. Qed.
Lemma kicks_settoken s c b : kicks (settoken s c b) = kicks s.
Proof. by apply fmap_upda_same. Qed.
Lemma kicks_setsres s c b : kicks (setsres s c b) = kicks s.
Proof. by apply fmap_upda_same. Qed.
Lemma kicks_setkick s c b : kicks (setkick s c b) = <[c := b]> (kicks s).
Proof. by apply fmap_upda_set. Qed.
Lemma kicks_kickall s : kicks (kickall s) = (fun _ => true) <$> kicks s.
Proof. unfold kicks, kickall; cbn. rewrite <- !list_fmap_compose. by apply list_fmap_ext. Qed.
Lemma kicks_lookup s a ac : s.(actors) !! a = Some ac -> kicks s !! a = Some ac.(kicked).
Proof. intros H. unfold kicks. by rewrite list_lookup_fmap, H. Qed.
Lemma stacks_lookup s a ac : s.(actors) !! a = Some ac -> stacks s !! a = Some ac.(stack).
Proof. intros H. unfold stacks. by rewrite list_lookup_fmap, H. Qed.
Lemma toks_lookup s a ac : s.(actors) !! a = Some ac -> toks s !! a = Some ac.(token).
Proof. intros H. unfold toks. by rewrite list_lookup_fmap, H. Qed.
Lemma sress_lookup s a ac : s.(actors) !! a = Some ac -> sress s !! a = Some ac.(sres).
Proof. intros H. unfold sress. by rewrite list_lookup_fmap, H. Qed.

Lemma init_stacks scripts npool nev c st : stacks (init scripts npool nev) !! c = Some st -> st = [FPIdle] \/ exists sc, st = [FTop sc].
Proof.
  intros Hc. unfold stacks, init in Hc; cbn in Hc. rewrite list_lookup_fmap in Hc.
  destruct ((((fun sc => mk_actor [FTop sc]) <$> scripts) ++ replicate npool (mk_actor [FPIdle])) !! c) as [ac|] eqn:E; [|done].
  cbn in Hc. injection Hc as <-. apply elem_of_list_lookup_2 in E. apply elem_of_app in E as [E|E].
  - apply elem_of_list_fmap in E as (sc & -> & _). right. by exists sc.
  - apply elem_of_replicate in E as [-> _]. by left.
Qed.

Lemma stacks_update (Q : state -> nat -> list frame -> Prop) s s' a old new :
  stacks s !! a = Some old -> stacks s' = <[a := new]> (stacks s) ->
  Q s' a new ->
  (forall c st, c <> a -> stacks s !! c = Some st -> Q s c st -> Q s' c st) ->
  (forall c st, stacks s !! c = Some st -> Q s c st) ->
  forall c st, stacks s' !! c = Some st -> Q s' c st.
Proof.
  intros Ha Hs Hnew Hoth HI c st Hc. rewrite Hs in Hc. destruct (decide (c = a)) as [->|Hne].
  - rewrite list_lookup_insert in Hc by (by eapply lookup_lt_Some). by injection Hc as <-.
  - rewrite list_lookup_insert_ne in Hc by done. apply Hoth; [done|done|by apply HI].
Qed.
Lemma frames_update (Q : state -> nat -> frame -> Prop) s s' a old new :
  stacks s !! a = Some old -> stacks s' = <[a := new]> (stacks s) ->
  (forall fr, fr ∈ new -> fr ∈ old \/ Q s' a fr) ->
  (forall c st fr, stacks s !! c = Some st -> fr ∈ st -> (c = a -> fr ∈ new) -> Q s c fr -> Q s' c fr) ->
  (forall c st fr, stacks s !! c = Some st -> fr ∈ st -> Q s c fr) ->
  forall c st fr, stacks s' !! c = Some st -> fr ∈ st -> Q s' c fr.
Proof.
  intros Ha Hs Hnew Hoth HI c st fr Hc Hin.
  eapply (stacks_update (fun s c st => forall fr, fr ∈ st -> Q s c fr) s s' a old new Ha Hs); [ | | |exact Hc|exact Hin].
  - intros fr0 Hin0. destruct (Hnew fr0 Hin0) as [Ho|?]; [|done]. apply (Hoth a old fr0 Ha Ho); [done|by eapply HI].
  - intros c0 st0 Hne Hc0 H fr0 Hin0. apply (Hoth c0 st0 fr0 Hc0 Hin0); [done|by apply H].
  - intros c0 st0 Hc0 fr0 Hin0. by eapply HI.
Qed.

Fixpoint cntf (P : frame -> bool) (st : list frame) : nat :=
  match st with [] => 0 | fr :: r => (if P fr then 1 else 0) + cntf P r end.
Fixpoint npl (P : frame -> bool) (L : list (list frame)) : nat := match L with [] => 0 | st :: r => cntf P st + npl P r end.
Definition np (P : frame -> bool) (s : state) : nat := npl P (stacks s).

Lemma cntf_app P a b : cntf P (a ++ b) = cntf P a + cntf P b.
Proof. induction a; cbn; lia. Qed.
Lemma npl_insert P L a old new : L !! a = Some old -> npl P (<[a := new]> L) + cntf P old = npl P L + cntf P new.
Proof.
  revert a; induction L as [|x L IH]; intros [|a]; cbn; try done.
  - intros [= ->]. cbn. lia.
  - intros H. specialize (IH a H). change (cntf P x + npl P (<[a:=new]> L) + cntf P old = cntf P x + npl P L + cntf P new). lia.
Qed.
Lemma cntf_pos P st : cntf P st > 0 <-> exists fr, fr ∈ st /\ P fr = true.
Proof.
  induction st as [|x st IH]; cbn.
  - split; [lia|]. intros (fr & H & _). by apply elem_of_nil in H.
  - destruct (P x) eqn:E.
    + split; [|lia]. intros _. exists x. split; [left|done].
    + rewrite Nat.add_0_l, IH. split; intros (fr & H & HP).
      * exists fr. split; [by right|done].
      * apply elem_of_cons in H as [->|H]; [congruence|]. by exists fr.
Qed.
Lemma npl_pos P L : npl P L > 0 <-> exists a st, L !! a = Some st /\ cntf P st > 0.
Proof.
  induction L as [|x L IH]; cbn.
  - split; [lia|]. by intros (a & st & H & _).
  - split.
    + intros H. destruct (decide (0 < cntf P x)).
      * exists 0, x. split; [done|lia].
      * assert (H1 : npl P L > 0) by lia. apply IH in H1 as (a & st & H1 & H2). by exists (S a), st.
    + intros ([|a] & st & H1 & H2); cbn in H1.
      * injection H1 as ->. lia.
      * assert (npl P L > 0) by (apply IH; by exists a, st). lia.
Qed.
Lemma npl_zero P L a st : npl P L = 0 -> L !! a = Some st -> cntf P st = 0.
Proof.
  intros H0 H. destruct (decide (cntf P st = 0)); [done|]. exfalso.
  assert (npl P L > 0) by (apply npl_pos; exists a, st; split; [done|lia]). lia.
Qed.
Lemma npl_ge P L a st : L !! a = Some st -> cntf P st <= npl P L.
Proof. revert a; induction L as [|x L IH]; intros [|a]; cbn; try done; [intros [= ->]; lia|]. intros H. specialize (IH a H). lia. Qed.

Ltac step_unfold H :=
  unfold step_caller, step_y, fire_cell, step_fut, step_sync, step_pool, step_job, step_wake, step_wake_with, run_closure, take_f, take_res in H;
  cbn beta iota zeta in H.
Ltac step_destr H :=
  repeat (match type of H with
          | context [match ?x with _ => _ end] =>
              lazymatch x with context [match _ with _ => _ end] => fail | _ => idtac end;
              let E := fresh "E" in destruct x eqn:E
          end; cbn beta iota zeta in H; try discriminate H).
Ltac step_split Hstep Ea Est :=
  unfold step in Hstep;
  match type of Hstep with context [actors ?s !! ?a] =>
    let ac := fresh "ac" in destruct (actors s !! a) as [ac|] eqn:Ea; cbn [mbind option_bind] in Hstep; [|discriminate Hstep];
    let fr := fresh "fr" in let rest := fresh "rest" in
    destruct (stack ac) as [|fr rest] eqn:Est; [discriminate Hstep|];
    destruct fr; step_unfold Hstep; step_destr Hstep
  end.

Lemma stacks_addlog s l : stacks (addlog s l) = stacks s. Proof. done. Qed.
Lemma stacks_setf s f c : stacks (setf s f c) = stacks s. Proof. done. Qed.
Lemma stacks_setev s e c : stacks (setev s e c) = stacks s. Proof. done. Qed.
Lemma stacks_setdw s d c : stacks (setdw s d c) = stacks s. Proof. done. Qed.
Lemma stacks_setdbl s k c : stacks (setdbl s k c) = stacks s. Proof. done. Qed.
Lemma toks_addlog s l : toks (addlog s l) = toks s. Proof. done. Qed.
Lemma sress_addlog s l : sress (addlog s l) = sress s. Proof. done. Qed.
Lemma kicks_addlog s l : kicks (addlog s l) = kicks s. Proof. done. Qed.
Lemma toks_setf s f c : toks (setf s f c) = toks s. Proof. done. Qed.
Lemma toks_setev s e c : toks (setev s e c) = toks s. Proof. done. Qed.
Lemma toks_setdw s d c : toks (setdw s d c) = toks s. Proof. done. Qed.
Lemma toks_setdbl s k c : toks (setdbl s k c) = toks s. Proof. done. Qed.
(* addlog, setf, setev, setdw, setdbl and the updates of plain fields leave the actors alone up to conversion: in most steps
   nothing is left to rewrite once the outer setstack is gone *)
Ltac solve_stacks :=
  rewrite ?stacks_setstack;
  first [ reflexivity
        | rewrite ?stacks_addlog, ?stacks_setf, ?stacks_setev, ?stacks_setdw, ?stacks_setdbl, ?stacks_settoken, ?stacks_setsres, ?stacks_setkick, ?stacks_kickall;
          rewrite ?stacks_addlog, ?stacks_setf, ?stacks_setev, ?stacks_setdw, ?stacks_setdbl, ?stacks_settoken, ?stacks_setsres, ?stacks_setkick, ?stacks_kickall;
          reflexivity ].

(* the steps that end a poll with Ready also pop the await / drop continuation frame *)
Definition nocont (rest : list frame) : Prop := match rest with FAwRet _ :: _ | FDropRet _ _ :: _ | FY YPsfret _ _ _ :: _ => False | _ => True end.
Lemma pop_cont_cases rest : (pop_cont rest = rest /\ nocont rest) \/
  exists x r, rest = x :: r /\ pop_cont (x :: r) = r /\ ((exists f, x = FAwRet f) \/ (exists f k, x = FDropRet f k) \/ (exists y st u, x = FY YPsfret y st u)).
Proof.
  destruct rest as [|x r]; [by left|]. destruct x as [| | | | | | | | | | | | | | | | | | | | | | | | | | | | | | | | | | | | | | | | | | | | | | | pc y st u]; try (by left).
  all: try (right; eexists _, r; (split; [done|split; [done|] ]); first [left; eauto; fail | right; left; eauto; fail]).
  destruct pc; try (by left). right. eexists _, r. split; [done|]. split; [done|]. right; right. eauto.
Qed.
Ltac pop_cont_split :=
  try match goal with |- context [pop_cont ?r] =>
    let Hpc := fresh "Hpc" in let Hnc := fresh "Hnc" in
    destruct (pop_cont_cases r) as [[Hpc Hnc]|(?xc & ?rc & -> & Hpc & [[?fc ->]|[[?fc [?kc ->]]|[?yc [?stc [?uc ->]]]]])]; rewrite Hpc in *; clear Hpc end.
