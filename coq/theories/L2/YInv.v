(* C08: Inv_y is an invariant of the reachable states of well-formed programs *)
From stdpp Require Import list numbers option.
From RecordUpdate Require Import RecordUpdate.
From L2 Require Import Model Base Own Jobs Shape DwInv Pool Fut Sig Wake WakeInv Term YDefs YMono YStep1 YStep2 YStep3 YInv2.
#[global] Unset Lia Cache.

Record Inv_yall (nev : nat) (s : state) : Prop := { ya_all : Inv_all s; ya_sig : Inv_sig s; ya_y : Inv_y nev s; ya_y2 : Inv_y2 nev s }.

Lemma step_y nev T s a s' : Inv_own s -> Inv_jobs s -> Inv_jobs s' -> Inv_fut s -> Inv_sig s -> Inv_y nev s ->
  step T s a = Some s' -> Inv_y nev s'.
Proof.
  intros HO HJ HJ' HF HS HY Hstep.
  destruct (step_y_rng nev T _ _ _ HY Hstep) as (R1 & R2 & R3).
  destruct (step_y_fj nev T _ _ _ HF HY Hstep) as (F1 & F2).
  destruct (step_y_state nev T _ _ _ HO HJ HJ' HF HS HY Hstep) as (S1 & S2 & S3 & S4 & S5).
  by split.
Qed.
Lemma init_y nev scripts npool : ywf nev scripts -> Inv_y nev (init scripts npool nev).
Proof.
  intros Hwf. split.
  - cbn. by rewrite replicate_length.
  - intros o f r H. by apply elem_of_nil in H.
  - done.
  - intros c st fr Hc Hin. destruct (init_stacks _ _ _ _ _ Hc) as [->|[sc ->]].
    + by apply elem_of_list_singleton in Hin as ->.
    + apply elem_of_list_singleton in Hin as ->. cbn [frok].
      unfold stacks, init in Hc; cbn in Hc. rewrite list_lookup_fmap in Hc.
      destruct ((((fun sc => mk_actor [FTop sc]) <$> scripts) ++ replicate npool (mk_actor [FPIdle])) !! c) as [ac|] eqn:E; [|done].
      cbn in Hc. injection Hc as Hc. apply elem_of_list_lookup_2 in E. apply elem_of_app in E as [E|E].
      * apply elem_of_list_fmap in E as (sc' & -> & Hsc). cbn in Hc. injection Hc as ->.
        unfold ywf in Hwf. rewrite List.Forall_forall in Hwf. apply Hwf. by apply elem_of_list_In.
      * apply elem_of_replicate in E as [-> _]. done.
  - intros j H. by apply elem_of_nil in H.
  - intros o f r H. by apply elem_of_nil in H.
  - intros o f r v H. by apply elem_of_nil in H.
  - intros o f r H. by apply elem_of_nil in H.
  - intros f v H. by apply elem_of_nil in H.
  - done.
Qed.

Section Reach.
  Context (nev : nat) (T : ftables) (HA : all_cond T).
  Lemma step_yall s a s' : Inv_yall nev s -> step T s a = Some s' -> Inv_yall nev s'.
  Proof.
    intros [H1 H2 H3 H4] Hs. pose proof (step_all T HA _ _ _ H1 Hs) as H1'. split; [done|by eapply step_sig| |].
    - eapply step_y; [apply (ia_own _ H1)|apply (ia_jobs _ H1)|apply (ia_jobs _ H1')|apply (ia_fut _ H1)|done|done|done].
    - eapply step_y2; [apply (ia_fut _ H1)|done|done|done|done].
  Qed.
  Theorem reachable_yall scripts npool tr s : ywf nev scripts -> run T (init scripts npool nev) tr = Some s -> Inv_yall nev s.
  Proof.
    intros Hwf. apply (run_inv (Inv_yall nev) T); [intros; by eapply step_yall|].
    split; [apply init_all|apply init_sig|by apply init_y|apply init_y2].
  Qed.
End Reach.
