(* C13 (suspend): while the suspend job waits for its resumer, it is the open operation, everything scheduled before it has
   finished, nothing scheduled after it has started, and this persists until the resume event is fired *)
From stdpp Require Import list numbers option.
From RecordUpdate Require Import RecordUpdate.
From L2 Require Import Model Base Own Jobs Shape DwInv Pool Fut Wake WakeInv Effect Term.
#[global] Unset Lia Cache.

Definition parked_on (s : state) (os e : nat) : Prop :=
  exists r, held s = [JFut os Waiting (PAwait e :: r)] \/ (held s = [] /\ exists js, s.(jobs) = JFut os Waiting (PAwait e :: r) :: js).

Lemma wbn_last_start l : forall o, wbn l = Some (Some o) -> exists x, starts l = x ++ [o].
Proof.
  induction l as [|ev l IH]; intros o H; [done|]. cbn in H. destruct (wbn l) as [c0|] eqn:E; cbn in H; [|done].
  destruct ev; cbn in H |- *.
  all: try (injection H as ->; destruct (IH o eq_refl) as [x ->]; exists x; by rewrite app_nil_r).
  - destruct c0; [done|]. injection H as <-. by exists (starts l).
  - destruct c0 as [o'|]; [|done]. by destruct (decide (o0 = o')).
Qed.
Lemma starts_in l o : o ∈ starts l -> GStart o ∈ l.
Proof.
  induction l as [|ev l IH]; cbn; [by intros ?%elem_of_nil|]. intros [H|H]%elem_of_app; [right; by apply IH|].
  destruct ev; try (by apply elem_of_nil in H). apply elem_of_list_singleton in H as ->. left.
Qed.

Lemma parked_inprog s os e : parked_on s os e -> inprog s = Some os.
Proof. intros (r & [H|(H & js & Hj)]); unfold inprog; rewrite H; [done|]. by rewrite Hj. Qed.

Lemma parked_order s os e : Inv_jobs s -> parked_on s os e ->
  exists x, starts s.(log) = x ++ [os] /\ pushes s.(log) = x ++ os :: pend s /\ forall o, o ∈ x -> GFinish o ∈ s.(log) \/ o = os.
Proof.
  intros HJ Hp. pose proof (ij_log _ HJ) as Hw. rewrite (parked_inprog _ _ _ Hp) in Hw.
  destruct (wbn_last_start _ _ Hw) as [x Hx]. exists x. split; [done|]. split.
  - rewrite (ij_fifo _ HJ), Hx, <- app_assoc. done.
  - intros o Ho. assert (Hs : GStart o ∈ log s) by (apply starts_in; rewrite Hx; apply elem_of_app; by left).
    destruct (wbn_finished _ _ Hw o Hs) as [?|[= ->]]; [by left|by right].
Qed.

Lemma getev_same (s' s : state) e : s'.(evs) = s.(evs) -> getev s' e = getev s e.
Proof. intros H. unfold getev. by rewrite H. Qed.

Lemma succs_no_job s a fr x : marker fr = false -> (forall op tk, fr <> FS1 op tk) -> x ∈ succs s a fr -> hjob x = None.
Proof.
  intros Hm Hs Hin. refine (_ (succs_forallb (fun x => match hjob x with None => true | _ => false end) _ _ _ _ _ Hin)); [by destruct (hjob x)|].
  destruct fr; try done; try (by destruct (Hs _ _ eq_refl)); succs_split; done.
Qed.

Section Pres.
  Context (T : ftables) (HT : own_cond T) (HC : jobs_cond T).
  Lemma parked_stays s a s' os e : Inv_own s -> Inv_jobs s -> parked_on s os e ->
    step T s a = Some s' -> (getev s' e).(fired) = false -> parked_on s' os e.
  Proof.
    intros HO HJ (r & Hp) Hstep Hfe. exists r. destruct (step_eff _ _ _ _ Hstep) as (fr & rest & Hst & E).
    destruct (marker fr || match fr with FS1 _ _ => true | _ => false end) eqn:Em; cycle 1.
    { (* neither the runner nor FS1: the jobs in hand stay where they are; the queue is kept, or extended at its end *)
      apply orb_false_iff in Em as [Em Es]. destruct (ef_stack _ _ _ _ _ E) as (pre & rest' & Hs & Hb & _ & Hpu).
      assert (Hh : held s' = held s).
      { eapply held_other_step; [exact Hst|exact Hs|]. rewrite hjobs_app. cbn.
        assert (hjobs pre = []) as ->.
        { clear Hs. induction Hpu as [|x pre [Hw|Hsu] _ IH]; cbn; [done|by destruct x|].
          rewrite (succs_no_job s a fr x Em); [done| |done]. intros op tk ->. discriminate Es. }
        assert (hjob fr = None) as -> by (by destruct fr).
        destruct Hb as [->|(y & Hy & ->)]; [done|]. by destruct y. }
      rewrite Hh. destruct (eff_jobs_push _ _ _ _ _ Hst E Em) as [->|[j ->] ]; [done|].
      destruct Hp as [?|[? [js ->] ] ]; [by left|right]. split; [done|]. by eexists. }
    clear E. destruct fr; try discriminate Em; step_at Hstep Hst.
    all: try discriminate Hstep. all: injection Hstep as <-. all: pop_cont_split.
    all: try match goal with k : kont |- _ => destruct k end.
    all: match goal with |- held ?s' = _ \/ _ =>
           first [ destruct (held_runner_step s a _ _ HO Hst eq_refl) as (Hh0 & Hr & Hh1); specialize (Hh1 s' _ ltac:(solve_stacks))
                 | assert (Hno : owned (qs s) = false) by (tbl_facts HT; intuition);
                   destruct (held_acquire_step s a _ HO Hno Hst) as (Hh0 & Hr & Hh1); specialize (Hh1 s' _ ltac:(solve_stacks))
                 | assert (Hh1 : held s' = held s) by (eapply held_other_step; [exact Hst|solve_stacks|reflexivity]) ] end.
    all: rewrite ?Hh1; try rewrite Hh0 in *.
    all: cbn -[held getev] in *.
    all: rewrite ?hjobs_app, ?hjobs_opt_wake, ?hjobs_wake_frames; cbn -[held getev]; try rewrite Hr in *.
    all: try (exact Hp).
    all: try (match goal with E0 : jobs _ = _ :: _ |- _ => rewrite E0 in * end).
    all: destruct Hp as [Hp|[Hp [js Hj]]]; simplify_eq.
    all: try (by left).
    all: try (right; split; [done|]; eexists; first [eassumption|reflexivity|rewrite Hj; reflexivity]).
    all: try (left; reflexivity).
    all: try (match goal with E : fired (getev _ _) = true |- _ => rewrite (getev_same _ s e eq_refl) in Hfe; congruence end).
    all: try (lazymatch goal with E : t_sync _ _ _ = (_, SAImmediate) |- _ => apply (jc_sync_imm _ HC) in E; apply bool_decide_eq_true in E; congruence end).
    all: match type of Hfe with fired (getev ?s1 _) = _ => rewrite (getev_same s1 s e eq_refl) in Hfe end; congruence.
  Qed.
End Pres.
