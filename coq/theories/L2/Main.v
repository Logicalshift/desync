(* the property-level statements of layer L2 and their proofs from the layer's theorems (the Props*.v files only [exact] these) *)
From stdpp Require Import list numbers option.
From L2 Require Import Model Base Own Jobs Shape DwInv Pool OpShape Fut Sig Task TaskInv Wake WakeInv Term Complete Susp Zero ZeroInv ZeroTerm Facts Waiter WaiterTerm YDefs YInv YThm YThm1 YTerm YTerm0.

Definition C01_full : Prop :=
  forall (T : ftables), own_cond T -> jobs_cond T ->
  forall scripts npool nev tr s, run T (init scripts npool nev) tr = Some s ->
  (* (1) the ownership invariant: marker frames = runner episodes, exactly one iff the state is Running / AwokenWhileRunning /
         WaitingForUnpark; in WaitingForUnpark the runner is the parked sync caller *)
  Inv_own s /\
  (* (2) at most one actor runs the queue, and only once *)
  (forall a b sa sb, stacks s !! a = Some sa -> stacks s !! b = Some sb -> cntf marker sa >= 1 -> cntf marker sb >= 1 ->
     a = b /\ cntf marker sa = 1) /\
  (* (3) ghost log (newest first): between Start o and Finish o no other operation Starts *)
  (forall l1 l2 o, s.(log) = l1 ++ GStart o :: l2 -> GFinish o ∉ l1 -> forall o', GStart o' ∉ l1) /\
  (* (4) the started-and-unfinished operation is in the runner's hand, or at the head of the queue (requeue at front) *)
  (forall l1 l2 o, s.(log) = l1 ++ GStart o :: l2 -> GFinish o ∉ l1 ->
     (exists j r, held s = j :: r /\ wop j = Some o) \/ (held s = [] /\ exists j r, s.(jobs) = j :: r /\ wop j = Some o)).
Lemma C01_main : C01_full.
Proof.
  intros T HT HC scripts npool nev tr s Hr. split; [by eapply reachable_own|]. split; [|split].
  - intros a b sa sb. by eapply exclusive.
  - intros l1 l2 o. by eapply log_exclusive.
  - intros l1 l2 o. by eapply open_op_location.
Qed.

Definition C02_full : Prop :=
  forall (T : ftables), own_cond T -> jobs_cond T ->
  forall scripts npool nev tr s, run T (init scripts npool nev) tr = Some s ->
  (* pushes = starts ++ (not yet started operations: the one in the runner's hand, then the queue, in order) *)
  pushes s.(log) = starts s.(log) ++ pend s /\ starts s.(log) `prefix_of` pushes s.(log).
Lemma C02_main : C02_full.
Proof.
  intros T HT HC scripts npool nev tr s Hr. split; [|by eapply fifo].
  by destruct (reachable_jobs T HT HC _ _ _ _ _ Hr) as [_ [_ _ _ _ _ _ H]].
Qed.

(* the invariant: every frame of the runner and the queue state carry their wake-up guarantee (Wake.v: frame_ok, queue_ok) *)
Definition C06_invariant : Prop :=
  forall (T : ftables), all_cond T ->
  forall scripts npool nev tr s, run T (init scripts npool nev) tr = Some s ->
  (forall c st fr, stacks s !! c = Some st -> fr ∈ st -> frame_ok s c fr = true) /\ queue_ok s = true.
Lemma C06_invariant_main : C06_invariant.
Proof.
  intros T HA scripts npool nev tr s Hr. destruct (ia_wake _ (reachable_all T HA _ _ _ _ _ Hr)) as [H1 H2].
  split; [|done]. intros c st fr Hc Hin. apply H1. by exists st.
Qed.
(* the terminal theorem, at least one pool runner *)
Definition C06_terminal_pool : Prop :=
  forall (T : ftables), all_cond T ->
  forall scripts npool nev tr s, npool >= 1 -> run T (init scripts npool nev) tr = Some s ->
  terminal T s -> all_fired s ->
  s.(qs) = Idle /\ s.(jobs) = [] /\ held s = [] /\
  starts s.(log) = pushes s.(log) /\ (forall o, GPush o ∈ s.(log) -> GStart o ∈ s.(log) /\ GFinish o ∈ s.(log)).
Lemma C06_terminal_main : C06_terminal_pool.
Proof.
  intros T HA scripts npool nev tr s Hn Hr Ht Hf.
  destruct (C06_terminal T HA _ _ _ _ _ Hn Hr Ht Hf) as (H1 & H2 & H3).
  destruct (terminal_all_ran T HA _ _ _ _ _ Hn Hr Ht Hf) as (H4 & H5). done.
Qed.

Definition C07_safety : Prop :=
  forall (T : ftables), all_cond T ->
  forall scripts npool nev tr s, run T (init scripts npool nev) tr = Some s ->
  (* the result of a future is delivered at most once *)
  (forall f, nres f s.(log) <= 1) /\
  (* no thread is at a point where the code panics: second take of a result, Panic arms, unexpected state in run_one_job_now *)
  (forall a, would_panic T s a = false) /\
  (* one consumer per future until the result is taken; none afterwards *)
  (forall f, nres f s.(log) + tot f s <= 1) /\ (forall f, (getf s f).(res) = FReturned -> tot f s = 0).
Lemma C07_safety_main : C07_safety.
Proof.
  intros T HA scripts npool nev tr s Hr. pose proof (reachable_all T HA _ _ _ _ _ Hr) as HI.
  split; [intros f; by eapply resolve_at_most_once|]. split; [intros a; by eapply no_panic_reachable|].
  split; [apply (if_one _ (ia_fut _ HI))|apply (if_ret _ (ia_fut _ HI))].
Qed.

(* the value delivered is the value signalled: Resolve f v only after Sig f v (the model uses the signalling operation's id as value),
   for arbitrary tables *)
Definition C07_value : Prop :=
  forall (T : ftables) scripts npool nev tr s l1 f v l2,
  run T (init scripts npool nev) tr = Some s -> s.(log) = l1 ++ GResolve f v :: l2 -> GSig f v ∈ l2.
Lemma C07_value_main : C07_value.
Proof. intros T scripts npool nev tr s l1 f v l2. apply resolve_after_signal. Qed.

(* the waker mechanism, critical section by critical section *)
Definition C07_waker_steps : Prop :=
  (forall T s a ac f rest st', s.(actors) !! a = Some ac -> ac.(stack) = FSFpoll f :: rest -> f < length s.(futs) ->
     (getf s f).(res) = FNone -> T.(t_poll) f s.(qs) = (st', PAWait) ->
     exists s', step T s a = Some s' /\ stacks s' = <[a := rest]> (stacks s) /\
                (getf s' f).(res) = FNone /\ (getf s' f).(fwaker) = Some (WTask a)) /\
  (forall T s a ac op f l w k rest, s.(actors) !! a = Some ac ->
     ac.(stack) = FJob (JFut op Waiting (PSignal f :: l)) w k :: rest -> f < length s.(futs) ->
     exists s', step T s a = Some s' /\ (getf s' f).(res) = FSome op /\ (getf s' f).(fwaker) = None /\
                stacks s' = <[a := opt_wake (getf s f).(fwaker) ++ FJob (JFut op Waiting l) w k :: rest]> (stacks s) /\
                s'.(log) = GSig f op :: s.(log)).
Lemma C07_waker_steps_main : C07_waker_steps.
Proof. split; [apply poll_wait_stores_waker|apply signal_calls_stored_waker]. Qed.

(* two of the three clauses of the task-wake invariant: in drain_queue the result is known to be missing where the waker is
   stored (FDQdeq / FDQstore / FDQempty1), and a missing result still has its signalling job (in the queue or in a runner's hand) *)
Definition C07_task_parts : Prop :=
  forall (T : ftables), own_cond T -> forall scripts npool nev tr s, run T (init scripts npool nev) tr = Some s ->
  (forall c st fr, stacks s !! c = Some st -> fr ∈ st -> rn_ok s fr = true) /\
  (forall f, f < length s.(futs) -> (getf s f).(res) = FNone -> nsig f s >= 1).
Lemma C07_task_parts_main : C07_task_parts.
Proof. exact reachable_task_parts. Qed.

(* C07 / C06, complete form: with at least one pool runner, in a terminal state with all events fired every caller has finished its
   script: every task awaiting a future was woken and completed, every blocked sync caller was released *)
Definition done_actor (st : list frame) : Prop := st = [FTop []] \/ st = [FPIdle].
Definition C07_complete_full : Prop :=
  forall (T : ftables), all_cond T ->
  forall scripts npool nev tr s, npool >= 1 -> run T (init scripts npool nev) tr = Some s -> terminal T s -> all_fired s ->
  forall c st, stacks s !! c = Some st -> done_actor st.
Lemma C07_complete_main : C07_complete_full.
Proof. intros T HA scripts npool nev tr s Hn Hr Ht Hf c st Hc. by eapply C07_complete. Qed.
(* the task-wake invariant itself (Task.v): the first await frame of every stack carries its wake-up guarantee [tw]; a caller blocked
   in sync_background still has its job; the result is known missing where drain_queue stores the waker; a missing result still has
   its signalling job *)
Definition C07_task_invariant : Prop :=
  forall (T : ftables), all_cond T -> forall scripts npool nev tr s, run T (init scripts npool nev) tr = Some s -> Inv_task s.
Lemma C07_task_invariant_main : C07_task_invariant.
Proof. intros T HA scripts npool nev tr s Hr. apply (i2_task _ (reachable_all2 T HA _ _ _ _ _ Hr)). Qed.
(* everything of C07 that this layer states *)
Definition C07_full : Prop := C07_safety /\ C07_value /\ C07_waker_steps /\ C07_task_invariant /\ C07_complete_full.
Lemma C07_full_main : C07_full.
Proof. split; [apply C07_safety_main|]. split; [apply C07_value_main|]. split; [apply C07_waker_steps_main|]. split; [apply C07_task_invariant_main|apply C07_complete_main]. Qed.

(* C06 / C07 with ZERO pool runners: one caller that only schedules plain / future jobs and awaits (or detaches) its futures - no
   sync, no suspend - and any number of callers that only fire events: the awaiting caller finishes its script *)
Definition sigfree (body : list fprim) : Prop :=
  Forall (fun p => match p with PSignal _ | PSendReady _ | PAwaitDone _ => False | _ => True end) body.
Definition await_only (sc : list cop) : Prop :=
  Forall (fun o => match o with ODesync => True | OFuture body UAwait | OFuture body UDetach => sigfree body | _ => False end) sc.
Definition fire_only (sc : list cop) : Prop := Forall (fun o => match o with OFire _ => True | _ => False end) sc.
(* [zero_cond] (ZeroInv.v): three more facts about the generated tables - dequeue never refuses while the state is Running /
   AwokenWhileRunning; poll of f in WaitingForPoll f takes the queue over; poll answers "wait" only when the queue is owned, in
   WaitingForWake, or in WaitingForPoll of another future *)
Definition C06_zero_pool_full : Prop :=
  forall (T : ftables), all_cond T -> zero_cond T ->
  forall sc0 others nev tr s, await_only sc0 -> Forall fire_only others ->
  run T (init (sc0 :: others) 0 nev) tr = Some s -> terminal T s -> all_fired s ->
  stacks s !! 0 = Some [FTop []].
Lemma sigfree_b body : sigfree body -> sigfreeb body = true.
Proof. unfold sigfree, sigfreeb. induction 1 as [|p r Hp _ IH]; [done|]. cbn. rewrite IH. by destruct p. Qed.
Lemma await_only_b sc : await_only sc -> forallb awaitb sc = true.
Proof.
  unfold await_only. induction 1 as [|o r Ho _ IH]; [done|]. cbn. rewrite IH, andb_true_r.
  destruct o as [|body u| | | |]; try done. destruct u; try done; by apply sigfree_b.
Qed.
Lemma fire_only_b sc : fire_only sc -> forallb fireb sc = true.
Proof. unfold fire_only. induction 1 as [|o r Ho _ IH]; [done|]. cbn. rewrite IH. by destruct o. Qed.
Lemma C06_zero_pool_main : C06_zero_pool_full.
Proof.
  intros T HA HZ sc0 others nev tr s H0 Ho Hr Ht Hf.
  apply (C06_zero_pool T HA HZ sc0 others nev tr s); [by apply await_only_b| |done..].
  eapply Forall_impl; [|exact Ho]. intros sc. apply fire_only_b.
Qed.
(* the same WITHOUT the side condition on the awaiting caller (any script): refuted, see Examples.C06_zero_pool_needs_side_condition_refuted *)
Definition C06_zero_pool_any_script : Prop :=
  forall (T : ftables), all_cond T ->
  forall sc0 others nev tr s, Forall fire_only others ->
  run T (init (sc0 :: others) 0 nev) tr = Some s -> terminal T s -> all_fired s ->
  stacks s !! 0 = Some [FTop []].
(* C13 (suspend), state form.  After its first prim (signal finished_suspending) the suspend job is a started future operation whose
   next prim is [PAwait e_resume]: it is [parked_on s os e] (in the runner's hand, being polled or not, or at the head of the queue).
   While that is so: (1) the Starts so far are exactly the operations pushed up to and including os, all but os Finished, and the
   operations pushed after os ([pend s]) have not started; (2) this persists over every step as long as e_resume is not fired;
   (3) once it is fired, C06 applies (the job is re-polled and the operations behind it run, in order, C02). *)
Definition C13_full : Prop :=
  forall (T : ftables), all_cond T ->
  forall scripts npool nev tr s os e, run T (init scripts npool nev) tr = Some s -> parked_on s os e ->
  (exists x, starts s.(log) = x ++ [os] /\ pushes s.(log) = x ++ os :: pend s /\ forall o, o ∈ x -> GFinish o ∈ s.(log) \/ o = os) /\
  (forall a s', step T s a = Some s' -> (getev s' e).(fired) = false -> parked_on s' os e).
Lemma C13_main : C13_full.
Proof.
  intros T HA scripts npool nev tr s os e Hr Hp. pose proof (reachable_all T HA _ _ _ _ _ Hr) as HI. split.
  - apply (parked_order s os e); [apply (ia_jobs _ HI)|exact Hp].
  - intros a s' Hs Hf. eapply parked_stays; [apply (ac_own _ HA)|apply (ac_jobs _ HA)|apply (ia_own _ HI)|apply (ia_jobs _ HI)|exact Hp|exact Hs|exact Hf].
Qed.

(* ---------- the order facts (Model.ffacts / stepF) ----------
   Every statement above is about [run T] = [runF code_ffacts T] (Facts.runF_code).  The conclusions that the four order facts are
   needed for, with the facts as a parameter; proved for [code_ffacts] here, refuted for each single false fact in Refute.v. *)
Definition C01_exclusive_F (F : ffacts) : Prop :=
  forall (T : ftables), own_cond T -> jobs_cond T ->
  forall scripts npool nev tr s, runF F T (init scripts npool nev) tr = Some s ->
  (forall a b sa sb, stacks s !! a = Some sa -> stacks s !! b = Some sb -> cntf marker sa >= 1 -> cntf marker sb >= 1 -> a = b) /\
  (forall l1 l2 o, s.(log) = l1 ++ GStart o :: l2 -> GFinish o ∉ l1 -> forall o', GStart o' ∉ l1).
Definition C06_terminal_pool_F (F : ffacts) : Prop :=
  forall (T : ftables), all_cond T ->
  forall scripts npool nev tr s, npool >= 1 -> runF F T (init scripts npool nev) tr = Some s ->
  terminalF F T s -> all_fired s ->
  s.(qs) = Idle /\ s.(jobs) = [] /\ (forall o, GPush o ∈ s.(log) -> GStart o ∈ s.(log) /\ GFinish o ∈ s.(log)) /\
  (forall c st, stacks s !! c = Some st -> done_actor st).
Lemma C01_exclusive_code : C01_exclusive_F code_ffacts.
Proof.
  intros T HT HC scripts npool nev tr s Hr. rewrite runF_code in Hr.
  destruct (C01_main T HT HC _ _ _ _ _ Hr) as (_ & H2 & H3 & _). split; [|exact H3].
  intros a b sa sb Ha Hb Hma Hmb. by destruct (H2 a b sa sb Ha Hb Hma Hmb).
Qed.
Lemma C06_terminal_pool_code : C06_terminal_pool_F code_ffacts.
Proof.
  intros T HA scripts npool nev tr s Hn Hr Ht Hf. rewrite runF_code in Hr. apply terminalF_code in Ht.
  destruct (C06_terminal_main T HA _ _ _ _ _ Hn Hr Ht Hf) as (H1 & H2 & _ & _ & H5).
  split; [done|]. split; [done|]. split; [done|]. by eapply C07_complete_main.
Qed.

(* ---------- C04 for one queue with futures: sync returns (the waiter's loop of sync_background, finding F6) ----------
   [claim_cond] (Waiter.v): claim_pending_queue accepts Idle, Pending and WaitingForPoll, refuses WaitingForWake, and a WakeQueue
   wake-up that leaves the queue claimable goes on to reschedule_queue (which kicks the waiters). *)
(* the invariant: a waiter whose job has not run and whose `rescheduled` flag is clear is going to be kicked whenever the queue can
   be claimed: a reschedule_queue is in flight, or a wake-up that reaches WakeQueue is registered / in flight (Waiter.Inv_K) *)
Definition C04_waiter_invariant : Prop :=
  forall (T : ftables), all_cond T -> claim_cond T ->
  forall scripts npool nev tr s, run T (init scripts npool nev) tr = Some s -> Inv_K T s.
Lemma C04_waiter_invariant_main : C04_waiter_invariant.
Proof. intros T HA HC scripts npool nev tr s Hr. apply (i3_k _ _ (reachable_all3 T HA HC _ _ _ _ _ Hr)). Qed.
(* in a terminal state with all events fired every actor is done or is a task parked awaiting a SchedulerFuture: nobody is left
   inside sync (sync_immediate, sync_drain, sync_background) - any program, ANY number of pool runners, zero included *)
Definition C04_sync_returns_full : Prop :=
  forall (T : ftables), all_cond T -> claim_cond T ->
  forall scripts npool nev tr s, run T (init scripts npool nev) tr = Some s -> terminal T s -> all_fired s ->
  forall c st, stacks s !! c = Some st -> done_actor st \/ exists f rest, st = FPark f :: rest.
Lemma C04_sync_returns_main : C04_sync_returns_full.
Proof.
  intros T HA HC scripts npool nev tr s Hr Ht Hf c st Hc.
  destruct (C04_sync_returns T HA HC _ _ _ _ _ Hr Ht Hf c st Hc) as [?|[?|?]]; [left; by left|left; by right|by right].
Qed.
(* the same WITHOUT claim_cond: refuted (Refute.C04_needs_waiter_takeover_refuted: the claim table from before the repair of F6) *)
Definition C04_sync_returns_any_claim_table : Prop :=
  forall (T : ftables), all_cond T ->
  forall scripts npool nev tr s, run T (init scripts npool nev) tr = Some s -> terminal T s -> all_fired s ->
  forall c st, stacks s !! c = Some st -> st = [FTop []] \/ st = [FPIdle] \/ exists f rest, st = FPark f :: rest.
(* the state form of finding F6: no caller is left waiting in sync_background - in particular not while the queue is in
   WaitingForPoll f with f's future dropped and the queue woken (it is in the schedule, nobody takes it) *)
Definition C04_waiter_takes_over : Prop :=
  forall (T : ftables), all_cond T -> claim_cond T ->
  forall scripts npool nev tr s, run T (init scripts npool nev) tr = Some s -> terminal T s -> all_fired s ->
  forall c rest, stacks s !! c = Some (FSBwait :: rest) -> False.
Lemma C04_waiter_takes_over_main : C04_waiter_takes_over.
Proof.
  intros T HA HC scripts npool nev tr s Hr Ht Hf c rest Hc.
  destruct (C04_sync_returns T HA HC _ _ _ _ _ Hr Ht Hf c _ Hc) as [?|[?|(f & r & ?)]]; done.
Qed.
(* a caller that never awaits a future (desync, sync, SchedulerFuture::sync, poll a future n times and drop it, detach, fire)
   finishes its script: any position, any other callers, any pool size *)
Definition noawait (sc : list cop) : Prop :=
  Forall (fun o => match o with OFuture _ UAwait | OSuspend _ UAwait | OFutSync _ UAwait => False | _ => True end) sc.
Lemma noawait_b sc : noawait sc -> forallb noaw_op sc = true.
Proof. unfold noawait. induction 1 as [|o r Ho _ IH]; [done|]. cbn. rewrite IH, andb_true_r. destruct o as [|? u|? u| | |? u]; try done; by destruct u. Qed.
Definition C04_noawait_caller_finishes : Prop :=
  forall (T : ftables), all_cond T -> claim_cond T ->
  forall scripts npool nev tr s c sc, scripts !! c = Some sc -> noawait sc ->
  run T (init scripts npool nev) tr = Some s -> terminal T s -> all_fired s -> stacks s !! c = Some [FTop []].
Lemma C04_noawait_caller_finishes_main : C04_noawait_caller_finishes.
Proof. intros T HA HC scripts npool nev tr s c sc Hsc Hn. apply (noawait_caller_finishes T HA HC scripts npool nev tr s c sc); [done|by apply noawait_b]. Qed.
(* zero pool runners (extends C06_zero_pool_full to sync and poll-and-drop, for a caller that does not ALSO await futures): caller 0
   runs desync / sync / future operations that it detaches, syncs or polls n times and drops; the other callers are arbitrary *)
Definition C06_zero_pool_sync_full : Prop :=
  forall (T : ftables), all_cond T -> claim_cond T ->
  forall sc0 others nev tr s, noawait sc0 ->
  run T (init (sc0 :: others) 0 nev) tr = Some s -> terminal T s -> all_fired s -> stacks s !! 0 = Some [FTop []].
Lemma C06_zero_pool_sync_main : C06_zero_pool_sync_full.
Proof. intros T HA HC sc0 others nev tr s Hn. by apply (C04_noawait_caller_finishes_main T HA HC (sc0 :: others) 0 nev tr s 0 sc0). Qed.

(* ---------- C08: future_sync on the real queue machinery ----------
   [OFutSync body u]: one call of Desync::future_sync; the ghost events GYnew o f r (the call: slot job o, SchedulerFuture f, oneshot
   cells r = queue_ready, S r = done), GUStart / GUStep / GUFinish / GUCancel o (the user future of the call is created / advanced by
   one primitive / completes / is destroyed unfinished), GYdrop o (the SyncFuture is dropped before Ready: drop of `task_finished`).
   [ywf nev scripts] (YDefs.v): user bodies consist of PTouch / PAwait e / PAwaitEither e1 e2 with e < nev, OFire / OSuspend name
   external events (the oneshot cells of future_sync are not addressable by programs).  The ghost log is newest-first:
   [log s = l2 ++ e :: l1] reads "e happened, l1 is everything before it". *)
Definition C08_1_runs_only_when_awaited : Prop :=
  forall (T : ftables), all_cond T ->
  forall scripts npool nev tr s, ywf nev scripts -> run T (init scripts npool nev) tr = Some s ->
  (* an event of the user future of call o is produced only by a step of the actor that holds the SyncFuture of that call on top
     of its stack (its caller's task), after queue_ready was sent and before task_finished is *)
  (forall a s' l e o, step T s a = Some s' -> s'.(log) = l ++ s.(log) -> e ∈ l -> user_ev e = Some o ->
     exists pc y st u rest, stacks s !! a = Some (FY pc y st u :: rest) /\ y.(y_op) = o /\
       GYnew o y.(y_f) y.(y_r) ∈ s.(log) /\ (getev s y.(y_r)).(fired) = true /\ (getev s (S y.(y_r))).(fired) <> true) /\
  (* queue_ready of a call is sent only by a step of that call's slot job *)
  (forall a s' o f r, step T s a = Some s' -> GYnew o f r ∈ s.(log) -> (getev s r).(fired) <> true -> (getev s' r).(fired) = true ->
     exists sc w k rest, stacks s !! a = Some (FJob (JFut o Waiting (PSendReady r :: sc)) w k :: rest)).
Lemma C08_1_main : C08_1_runs_only_when_awaited.
Proof.
  intros T HA scripts npool nev tr s Hwf Hr. pose proof (ya_y _ _ (reachable_yall nev T HA _ _ _ _ Hwf Hr)) as HY. split.
  - intros a s' l e o. apply (user_event_step nev T s a s' l e o HY).
  - intros a s' o f r Hs Hg. apply (ready_sent_step nev T s a s' o f r HY Hs). by apply ynews_in.
Qed.
Definition C08_2_only_inside_its_exclusive_slot : Prop :=
  forall (T : ftables), all_cond T ->
  forall scripts npool nev tr s l2 e l1, ywf nev scripts -> run T (init scripts npool nev) tr = Some s -> s.(log) = l2 ++ e :: l1 ->
  (* every event of the user future lies inside the slot of its call's job: that job has started, and NOTHING has started or
     finished since (in particular not the job itself) *)
  (forall o, user_ev e = Some o ->
     (exists la lb, l1 = la ++ GStart o :: lb /\ forall o', GStart o' ∉ la /\ GFinish o' ∉ la) /\ exists f r, GYnew o f r ∈ l1) /\
  (* between Start o and Finish o no other operation starts *)
  (forall o, e = GStart o -> GFinish o ∉ l2 -> forall o', GStart o' ∉ l2).
Lemma C08_2_main : C08_2_only_inside_its_exclusive_slot.
Proof.
  intros T HA scripts npool nev tr s l2 e l1 Hwf Hr E. split.
  - intros o He. by apply (user_events_in_slot T HA scripts npool nev Hwf tr s Hr l2 e l1 o).
  - intros o -> Hn. destruct HA as [A1 A2 A3]. by eapply (log_exclusive T).
Qed.
Definition C08_3_result : Prop :=
  forall (T : ftables), all_cond T ->
  forall scripts npool nev tr s l2 e l1, ywf nev scripts -> run T (init scripts npool nev) tr = Some s -> s.(log) = l2 ++ e :: l1 ->
  (* the result of the SyncFuture (of its SchedulerFuture f) is delivered only after the slot job signalled it, with the slot job's
     value, after the user future completed, and never after a drop *)
  (forall f v o r, e = GResolve f v -> GYnew o f r ∈ l1 -> v = o /\ GSig f o ∈ l1 /\ GUFinish o ∈ l1 /\ GYdrop o ∉ l1) /\
  (* the slot job signals only after the user future completed, or the SyncFuture was dropped and a started user future destroyed *)
  (forall f v o r, e = GSig f v -> GYnew o f r ∈ l1 ->
     v = o /\ (GUFinish o ∈ l1 \/ GYdrop o ∈ l1) /\ (GUStart o ∈ l1 -> GUFinish o ∈ l1 \/ GUCancel o ∈ l1)) /\
  (* the user future starts and completes at most once, and completes only if it was started and not destroyed *)
  (forall o, e = GUFinish o -> GUStart o ∈ l1 /\ GUFinish o ∉ l1 /\ GUCancel o ∉ l1) /\
  (forall o, e = GUStart o -> GUStart o ∉ l1).
Lemma C08_3_main : C08_3_result.
Proof. intros T HA scripts npool nev tr s l2 e l1 Hwf Hr E. exact (result_after_completion T HA scripts npool nev Hwf tr s Hr l2 e l1 E). Qed.
Definition C08_4_clean_cancellation : Prop :=
  forall (T : ftables), all_cond T ->
  forall scripts npool nev tr s l2 e l1, ywf nev scripts -> run T (init scripts npool nev) tr = Some s -> s.(log) = l2 ++ e :: l1 ->
  (* after the drop the user future is neither created nor run *)
  (forall o, user_ev e = Some o -> GYdrop o ∉ l1) /\
  (* it is destroyed only if it was started and had not finished, at most once, and its destruction (which may run user destructors
     holding `&mut T`) lies inside the exclusive slot: the slot job has not passed done_recv *)
  (forall o, e = GUCancel o ->
     (exists la lb, l1 = la ++ GStart o :: lb /\ forall o', GStart o' ∉ la /\ GFinish o' ∉ la) /\
     GUStart o ∈ l1 /\ GUFinish o ∉ l1 /\ GUCancel o ∉ l1) /\
  (* the drop of task_finished comes once, not after completion, and after the user future is gone (field order of the code) *)
  (forall o, e = GYdrop o -> GYdrop o ∉ l1 /\ GUFinish o ∉ l1 /\ (GUStart o ∈ l1 -> GUCancel o ∈ l1)) /\
  (* when the slot job ends, the user future has finished or the SyncFuture was dropped, and a started user future is gone *)
  (forall o f r, e = GFinish o -> GYnew o f r ∈ l1 ->
     (GUFinish o ∈ l1 \/ GYdrop o ∈ l1) /\ (GUStart o ∈ l1 -> GUFinish o ∈ l1 \/ GUCancel o ∈ l1)).
Lemma C08_4_main : C08_4_clean_cancellation.
Proof. intros T HA scripts npool nev tr s l2 e l1 Hwf Hr E. exact (clean_cancellation T HA scripts npool nev Hwf tr s Hr l2 e l1 E). Qed.
(* dropping never blocks: the two drop steps of a SyncFuture are always enabled *)
Definition C08_4_drop_never_blocks : Prop :=
  forall (T : ftables) s a ac pc y st u rest, s.(actors) !! a = Some ac -> ac.(stack) = FY pc y st u :: rest ->
  pc = YPdrop1 \/ pc = YPdrop2 -> exists s', step T s a = Some s'.
Lemma C08_4_drop_never_blocks_main : C08_4_drop_never_blocks.
Proof.
  intros T s a ac pc y st u rest Ea Est Hpc. unfold step. rewrite Ea. cbn. rewrite Est.
  destruct Hpc as [-> | ->]; [destruct st|]; cbn; by eexists.
Qed.
(* (5) releases the queue, terminal form, at least one pool thread.  Only the EXTERNAL events are assumed fired: that the oneshot
   cells of every call are fired in the end (queue_ready sent, task_finished sent or dropped) is part of the conclusion *)
Definition C08_5_releases_the_queue : Prop :=
  forall (T : ftables), all_cond T ->
  forall scripts npool nev tr s, ywf nev scripts -> npool >= 1 -> run T (init scripts npool nev) tr = Some s -> terminal T s ->
  (forall e, e < nev -> (getev s e).(fired) = true) ->
  all_fired s /\ s.(qs) = Idle /\ s.(jobs) = [] /\ held s = [] /\
  (forall c st, stacks s !! c = Some st -> st = [FTop []] \/ st = [FPIdle]) /\
  (forall o f r, GYnew o f r ∈ s.(log) -> GStart o ∈ s.(log) /\ GFinish o ∈ s.(log) /\ (GUFinish o ∈ s.(log) \/ GYdrop o ∈ s.(log))).
Lemma C08_5_main : C08_5_releases_the_queue.
Proof. intros T HA scripts npool nev tr s. apply (futsync_releases_queue T HA). Qed.
(* (5) for ANY number of pool threads, ZERO included, and any callers: with only the external events fired, a terminal state has
   every actor done, or parked awaiting a SchedulerFuture (C04_sync_returns_full's case), or owning a SyncFuture whose slot job has
   not sent queue_ready yet (the queue never got to it); nobody is left inside sync, and no SyncFuture owner sleeps once its slot has
   begun *)
Definition C08_5_terminal_any_pool : Prop :=
  forall (T : ftables), all_cond T -> claim_cond T ->
  forall scripts npool nev tr s, ywf nev scripts -> run T (init scripts npool nev) tr = Some s -> terminal T s ->
  (forall e, e < nev -> (getev s e).(fired) = true) ->
  forall c st, stacks s !! c = Some st ->
  st = [FTop []] \/ st = [FPIdle] \/ (exists f rest, st = FPark f :: rest) \/
  (exists y b u rest, st = FY YPpark y (YQueue b) u :: rest /\ (getev s y.(y_r)).(fired) = false).
Lemma C08_5_terminal_any_pool_main : C08_5_terminal_any_pool.
Proof. intros T HA HC scripts npool nev tr s. apply (futsync_terminal_any_pool T HA HC). Qed.
(* a caller that never AWAITS a future to completion - future_sync polled n times and dropped, desync, sync, SchedulerFuture::sync,
   poll-and-drop, detach, fire - finishes its script with any pool size (zero included), whatever the other callers do; only the
   external events are assumed fired ([noawait]: see C04_noawait_caller_finishes, which needs every cell fired) *)
Definition C08_5_dropping_caller_finishes : Prop :=
  forall (T : ftables), all_cond T -> claim_cond T ->
  forall scripts npool nev tr s c sc, ywf nev scripts -> scripts !! c = Some sc -> noawait sc ->
  run T (init scripts npool nev) tr = Some s -> terminal T s -> (forall e, e < nev -> (getev s e).(fired) = true) ->
  stacks s !! c = Some [FTop []].
Lemma C08_5_dropping_caller_finishes_main : C08_5_dropping_caller_finishes.
Proof.
  intros T HA HC scripts npool nev tr s c sc Hwf Hsc Hn. apply (dropping_caller_finishes T HA HC scripts npool nev tr s c sc Hwf Hsc). by apply noawait_b.
Qed.
