(* C06: the wake invariant across DrainWaker, DoubleWaker, wake_with, and an event that fires *)
From stdpp Require Import list numbers option.
From RecordUpdate Require Import RecordUpdate.
From L2 Require Import Model Base Arm Own Jobs Shape DwInv Wake WakeInv WakeLem CoverStep.
#[global] Unset Lia Cache.

Section Steps.
  Context (T : ftables) (HT : own_cond T) (HC : jobs_cond T) (HW : wake_cond T).

  (* DrainWaker.wake: state := Woken; the stored waker is called if wake_with has installed one ([now]) *)
  Lemma ws_wake_drain s s' a d st slot (now : bool) r : Inv_own s -> Inv_dw s -> Inv_wake s ->
    stacks s !! a = Some ([FWake (WDrain d)] ++ r) -> getdw s d = (st, slot) -> now = (match st with DWWillWake => true | _ => false end) ->
    stacks s' = <[a := (if now then opt_wake slot else []) ++ r]> (stacks s) ->
    s'.(dws) = <[d := (DWWoken, if now then None else slot)]> s.(dws) ->
    s'.(qs) = s.(qs) -> s'.(jobs) = s.(jobs) -> s'.(insched) = s.(insched) -> s'.(evs) = s.(evs) -> s'.(dbl) = s.(dbl) -> toks s' = toks s ->
    Inv_wake s'.
  Proof.
    intros HO HD HI Hst E0 Hnow Hs Edw Eq Ej Ei Eev Edb Etk.
    set (pre := if now then opt_wake slot else []) in *. set (s0 := setdw s d (DWWoken, if now then None else slot)).
    assert (Hpre : forall fr, fr ∈ pre -> exists w, fr = FWake w).
    { subst pre. destruct now; [|by intros fr ?%elem_of_nil]. destruct slot as [w|]; [|by intros fr ?%elem_of_nil].
      intros fr ->%elem_of_list_singleton. by exists w. }
    assert (Hnf : forall fr, fr ∈ pre -> frame_ok s' a fr = true) by (intros fr Hin; by destruct (Hpre _ Hin) as [w ->]).
    assert (Hnw : forall w, w <> WDrain d -> np (is_wake w) s <= np (is_wake w) s').
    { intros w Hw. eapply np_mono; [exact Hst|exact Hs|]. rewrite !cntf_app. cbn. rewrite bool_decide_false by congruence. lia. }
    assert (Hnp : forall P, (forall w, P (FWake w) = false) -> np P s' = np P s).
    { intros P HP. eapply np_same; [exact Hst|exact Hs|]. rewrite !cntf_app. cbn. rewrite HP.
      assert (cntf P pre = 0); [|lia]. subst pre. destruct now; [by apply cntf_opt_wake|done]. }
    assert (Hgd : forall e d2, np (carries d2) s > 0 -> gd s e d2 = true -> gd s' e d2 = true).
    { intros e d2 Hc. destruct (decide (d2 = d)) as [->|Hne].
      - intros _. unfold gd. rewrite (dw_woken_dws s0 s' d Edw). subst s0. rewrite dw_woken_setdw_eq by (by apply carried_lt). by rewrite orb_true_r.
      - apply gd_mono; [apply reg_mono; [by rewrite (unfreg_evs s s')|apply Hnw; congruence]|].
        rewrite (dw_woken_dws s0 s' d2 Edw). subst s0. by rewrite dw_woken_setdw_ne. }
    eapply (wake_mono s s' a _ pre r HO HI Hst Hs Hnf); try done; [| |by rewrite Hnp|by rewrite Hnp, Ei].
    - intros _. apply tview_intro; [done|by rewrite (hsusp_jobs _ _ Ej)| | |done].
      + intros e w Hw. apply reg_mono; [by rewrite (unfreg_evs s s')|apply Hnw]. by destruct Hw as [->|[c ->]].
      + intros c _. apply unp_mono; [by rewrite (tokb_toks s s')|]. by rewrite Hnp.
    - intros e Hc. rewrite cover_g in Hc |- *. subst now pre.
      rewrite (coverg_ext _ _ (setstack s0 a ((if match st with DWWillWake => true | _ => false end then opt_wake slot else []) ++ r)) s' e);
        [exact (cg_wake_drain false WQueue s a d st slot r e HD Hst E0 Hc)|rewrite Hs; subst s0; solve_stacks|done..].
  Qed.

  (* DoubleWaker.wake *)
  Lemma ws_wake_double_some s s' a k w1 w2 r : astep T s a (AWDoubleSome k w1 w2) r s' -> Inv_own s -> Inv_wake s -> Inv_wake s'.
  Proof.
    intros A HO HI. astep_open A. set (s0 := setdbl s k None).
    assert (Hnw : forall w, usedw w = true -> np (is_wake w) s <= np (is_wake w) s').
    { intros w Hw. eapply np_mono; [exact Hst|exact Hs|]. destruct w; try done; cnt_le. }
    assert (Hnp : forall P, (forall w, P (FWake w) = false) -> np P s' = np P s).
    { intros P HP. eapply np_same; [exact Hst|exact Hs|]. cbn. rewrite !HP. lia. }
    eapply (wake_mono s s' a _ _ r HO HI Hst Hs); try done; [| | |by rewrite Hnp|by rewrite Hnp, Ei].
    - intros fr [->|[->|[]%elem_of_nil]%elem_of_cons]%elem_of_cons; done.
    - intros _. apply tview_grow; try done. intros c. by rewrite Hnp.
    - intros e Hc. rewrite cover_g in Hc |- *.
      rewrite (coverg_ext _ _ (setstack s0 a (FWake w1 :: FWake w2 :: r)) s' e); [|rewrite Hs; subst s0; solve_stacks|done..].
      exact (cg_wake_double_some false WQueue (fun _ => eq_refl) s a k w1 w2 r e Hst Hg Hc).
  Qed.

  Lemma ws_wake_double_none s s' a k r : astep T s a (AWDoubleNone k) r s' -> Inv_own s -> Inv_wake s -> Inv_wake s'.
  Proof.
    intros A HO HI. astep_open A.
    assert (Hnw : forall w, usedw w = true -> np (is_wake w) s <= np (is_wake w) s').
    { intros w Hw. eapply np_mono; [exact Hst|exact Hs|]. destruct w; try done; cnt_le. }
    assert (Hnp : forall P, (forall w, P (FWake w) = false) -> np P s' = np P s).
    { intros P HP. eapply np_same; [exact Hst|exact Hs|]. cbn. by rewrite HP. }
    eapply (wake_mono s s' a _ [] r HO HI Hst Hs); try done; [by intros ? ?%elem_of_nil| | |by rewrite Hnp|by rewrite Hnp, Ei].
    - intros _. apply tview_grow; try done. intros c. by rewrite Hnp.
    - intros e Hc. rewrite cover_g in Hc |- *.
      rewrite (coverg_ext _ _ (setstack s a r) s' e); [|rewrite Hs; solve_stacks|done..].
      exact (cg_wake_double_none false WQueue s a k r e Hst Hg Hc).
  Qed.

  (* DrainWaker.wake_with when the drain waker has already been woken: the new waker is called at once *)
  Lemma ws_wake_with_now s s' a d w slot r : Inv_own s -> Inv_wake s ->
    astep T s a (AWakeWithNow d w DWWoken DWWoken slot) r s' -> Inv_wake s'.
  Proof.
    intros HO HI A. astep_open A. destruct Hg as [E0 _].
    assert (Hd : dws s' = dws s) by (rewrite Edw; apply list_insert_id; by apply getdw_lookup).
    assert (Hnw : forall w0, np (is_wake w0) s <= np (is_wake w0) s') by (intros w0; eapply np_mono; [exact Hst|exact Hs|cnt_le]).
    assert (Hnp : forall P, (forall w, P (FWake w) = false) -> (forall d w, P (FWakeWith d w) = false) -> np P s' = np P s).
    { intros P HP1 HP2. eapply np_same; [exact Hst|exact Hs|]. cbn. by rewrite HP1, HP2. }
    assert (Hgd : forall e d2, gd s e d2 = true -> gd s' e d2 = true) by (intros e d2; by apply gd_np).
    eapply (wake_mono s s' a _ _ r HO HI Hst Hs); try done; [by intros fr ->%elem_of_list_singleton| | |by rewrite Hnp|by rewrite Hnp, Ei].
    - intros _. apply tview_grow; try done. intros c. by rewrite Hnp.
    - intros e Hc. rewrite cover_g in Hc |- *.
      rewrite (coverg_ext _ _ (setstack (setdw s d (DWWoken, slot)) a (FWake w :: r)) s' e); [|rewrite Hs; solve_stacks|done..].
      exact (cg_wake_with_now false WQueue s a d w slot r e Hst E0 Hc).
  Qed.

  (* DrainWaker.wake_with when not yet woken: the waker is installed *)
  Lemma ws_wake_with_later s s' a d w st slot r : Inv_own s -> Inv_dw s -> Inv_wake s ->
    astep T s a (AWakeWithLater d w st DWWillWake slot) r s' -> st <> DWWoken -> Inv_wake s'.
  Proof.
    intros HO HD HI A Hnwk. astep_open A. destruct Hg as [E0 _]. set (s0 := setdw s d (DWWillWake, Some w)).
    assert (Hcar : np (carries d) s > 0).
    { apply np_pos_fsat. exists a, (FWakeWith d w). split; [eexists; split; [exact Hst|left]|]. cbn. by apply bool_decide_eq_true. }
    assert (Hlt : d < length (dws s)) by (by apply carried_lt).
    assert (Hst0 : st = DWNotWoken).
    { pose proof (id_one _ HD d) as H. assert (Hw : will s d = false) by (destruct (will s d); [cbn in H; lia|done]).
      unfold will in Hw. rewrite E0 in Hw. cbn in Hw. by destruct st. }
    subst st.
    assert (Hnw : forall w0, np (is_wake w0) s' = np (is_wake w0) s) by (intros w0; by eapply np_same; [exact Hst|exact Hs|]).
    assert (Hnp : forall P, (forall d w, P (FWakeWith d w) = false) -> np P s' = np P s).
    { intros P HP. eapply np_same; [exact Hst|exact Hs|]. cbn. by rewrite HP. }
    assert (Hgd : forall e d2, gd s e d2 = true -> gd s' e d2 = true).
    { intros e d2. apply gd_mono; [apply reg_mono; [by rewrite (unfreg_evs s s')|by rewrite Hnw]|].
      rewrite (dw_woken_dws s0 s' d2 Edw). destruct (decide (d2 = d)) as [->|Hne]; [|subst s0; by rewrite dw_woken_setdw_ne].
      unfold dw_woken at 1. by rewrite E0. }
    eapply (wake_mono s s' a _ [] r HO HI Hst Hs); try done; [by intros ? ?%elem_of_nil| | |by rewrite Hnp|by rewrite Hnp, Ei].
    - intros _. apply tview_intro; [done|by rewrite (hsusp_jobs _ _ Ej)| | |intros e d2 _; apply Hgd].
      + intros e w0 _. apply reg_mono; [by rewrite (unfreg_evs s s')|by rewrite Hnw].
      + intros c _. apply unp_mono; [by rewrite (tokb_toks s s')|]. by rewrite Hnp.
    - intros e Hc. rewrite cover_g in Hc |- *.
      rewrite (coverg_ext _ _ (setstack s0 a r) s' e); [|rewrite Hs; subst s0; solve_stacks|done..].
      exact (cg_wake_with_later false WQueue s a d w DWNotWoken slot r e HD Hst E0 ltac:(done) Hc).
  Qed.

  (* a oneshot / event cell fires on a thread that does not run the queue: every registered waker is taken and called *)
  Lemma ws_fire s s' a fr0 post e0 r : Inv_own s -> Inv_wake s -> stacks s !! a = Some ([fr0] ++ r) ->
    stacks s' = <[a := (fired_frames s e0 ++ post) ++ r]> (stacks s) ->
    relv fr0 = false -> (forall fr, fr ∈ post -> relv fr = false /\ marker fr = false) ->
    s'.(evs) = <[e0 := {| fired := true; wakers := [] |}]> s.(evs) ->
    s'.(qs) = s.(qs) -> s'.(jobs) = s.(jobs) -> s'.(insched) = s.(insched) -> s'.(dws) = s.(dws) -> s'.(dbl) = s.(dbl) -> toks s' = toks s ->
    Inv_wake s'.
  Proof.
    intros HO HI Hst Hs Hr0 Hpost Eev Eq Ej Ei Edw Edb Etk. set (ws := rev (wakers (getev s e0))). set (s0 := setev s e0 {| fired := true; wakers := [] |}).
    assert (Hev : forall e, getev s' e = getev s0 e) by (intros e; unfold getev; by rewrite Eev).
    assert (Hw0 : forall w, is_wake w fr0 = false) by (intros w; destruct fr0; try done).
    assert (Hnw : forall w, np (is_wake w) s <= np (is_wake w) s').
    { intros w. eapply np_mono; [exact Hst|exact Hs|]. rewrite !cntf_app. cbn. rewrite Hw0. lia. }
    assert (Hpz : forall P, (forall fr, P fr = true -> relv fr = true) -> cntf P post = 0).
    { intros P HP. destruct (cntf P post) eqn:E; [done|]. exfalso. assert (Hp : cntf P post > 0) by lia.
      apply cntf_pos in Hp as (fr & Hin & Hp). destruct (Hpost fr Hin) as [Hr _]. rewrite (HP fr Hp) in Hr. done. }
    assert (Hnp : forall P, (forall fr, P fr = true -> relv fr = true) -> (forall w, P (FWake w) = false) -> np P s' = np P s).
    { intros P HP HP1. eapply np_same; [exact Hst|exact Hs|]. rewrite !cntf_app, cntf_fired_frames, (Hpz P HP) by done. cbn.
      destruct (P fr0) eqn:E; [|done]. by rewrite (HP _ E) in Hr0. }
    assert (Hin0 : forall w, w ∈ wakers (getev s e0) -> fsat s' a (FWake w)).
    { intros w Hin. eapply fsat_new; [exact Hst|exact Hs|]. apply elem_of_app. left. apply elem_of_app. left. apply in_wake_frames. by apply elem_of_rev. }
    assert (Hu : forall e w, reg s e w = true -> reg s' e w = true).
    { intros e w. unfold reg. rewrite !orb_true_iff. intros [Hu|Hn]; [|right; eapply posb_mono; [apply Hnw|done]].
      destruct (decide (e = e0)) as [->|Hne].
      - right. unfold unfreg in Hu. apply andb_true_iff in Hu as [_ Hin]. apply bool_decide_eq_true in Hin. by eapply (np_pos_wake s' a), Hin0.
      - left. unfold unfreg in *. subst s0. by rewrite Hev, getev_setev_ne. }
    assert (Hnf : forall fr, fr ∈ fired_frames s e0 ++ post -> frame_ok s' a fr = true).
    { intros fr [Hin|Hin]%elem_of_app.
      - unfold fired_frames, wake_frames in Hin. by apply elem_of_list_fmap in Hin as (w & -> & _).
      - destruct (Hpost fr Hin) as [_ Hm]. by apply nonmarker_ok. }
    assert (Hgd : forall e d, gd s e d = true -> gd s' e d = true).
    { intros e d. apply gd_mono; [apply Hu|by rewrite (dw_woken_dws s s')]. }
    eapply (wake_mono s s' a _ _ r HO HI Hst Hs Hnf); try done; [| |rewrite Hnp; [done|by intros []|done]|rewrite Hnp, Ei; [done|by intros []|done] ].
    - intros _. apply tview_intro; [done|by rewrite (hsusp_jobs _ _ Ej)|intros e w _; apply Hu| |intros e d _; apply Hgd].
      intros c _. apply unp_mono; [by rewrite (tokb_toks s s')|]. rewrite Hnp; [done|by intros []|done].
    - intros e Hc. rewrite cover_g in Hc |- *.
      rewrite (coverg_ext _ _ (setstack s0 a (wake_frames ws ++ post ++ r)) s' e); [|rewrite Hs, <- app_assoc; subst s0; solve_stacks|done..].
      apply (cg_fire false WQueue s a fr0 post e0 r e Hst); [by destruct fr0|done].
  Qed.
End Steps.
