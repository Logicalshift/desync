(* The wake-up chain towards ONE target waker [tw].  Calling a waker w ends in [tw] when w is [tw], when w is a DrainWaker that
   holds such a waker, or when w is a DoubleWaker whose half in question is [tw]; [coverg] says that such a wake-up is registered
   with event e (unfired), in flight as a frame, or about to be installed by wake_with.  [Wake.cover] is the instance
   (first half, WQueue) and [Zero.tcover] the instance (second half, WTask 0).  One step keeps the chain unless it is the call
   of the target waker itself ([step_cover]). *)
From stdpp Require Import list numbers option.
From RecordUpdate Require Import RecordUpdate.
From L2 Require Import Model Base Own Jobs Shape DwInv Wake WakeInv WakeLem Effect.
#[global] Unset Lia Cache.

Lemma existsb_ext {A} (f g : A -> bool) l : (forall x, f x = g x) -> existsb f l = existsb g l.
Proof. intros H. induction l as [|x l IH]; cbn; [done|]. by rewrite H, IH. Qed.

Section Cover.
  Context (second : bool) (tw : waker).
  Definition dblg (s : state) (k : nat) : bool :=
    match getdbl s k with Some (w1, w2) => bool_decide ((if second then w2 else w1) = tw) | None => false end.
  Definition effwg (s : state) (w : waker) : bool :=
    match w with WDouble k => dblg s k | WDrain _ => false | _ => bool_decide (w = tw) end.
  Definition effg (s : state) (w : waker) : bool :=
    match w with WDrain d => match getdw s d with (DWWillWake, Some w') => effwg s w' | _ => false end | _ => effwg s w end.
  Definition cfrg (s : state) (e : nat) (fr : frame) : bool :=
    match fr with FWake w => effg s w | FWakeWith d w => effwg s w && gd s e d | _ => false end.
  Definition coverg (s : state) (e : nat) : bool :=
    (negb (getev s e).(fired) && existsb (effg s) (getev s e).(wakers)) || exf (cfrg s e) s.

  Lemma coverg_iff s e : coverg s e = true <->
    ((getev s e).(fired) = false /\ exists w, w ∈ (getev s e).(wakers) /\ effg s w = true)
    \/ (exists c w, fsat s c (FWake w) /\ effg s w = true)
    \/ (exists c d w, fsat s c (FWakeWith d w) /\ effwg s w = true /\ gd s e d = true).
  Proof.
    unfold coverg. rewrite orb_true_iff, andb_true_iff, negb_true_iff, existsb_true, exf_true. split.
    - intros [[H1 H2]|(c & fr & Hf & Hc)]; [by left|right].
      destruct fr; try done; cbn in Hc; [right|left]; [|by exists c, w].
      apply andb_true_iff in Hc as [? ?]. by exists c, d, w.
    - intros [H|[(c & w & Hf & He)|(c & d & w & Hf & H1 & H2)]]; [by left| |].
      + right. by exists c, (FWake w).
      + right. exists c, (FWakeWith d w). split; [done|]. cbn. by rewrite H1, H2.
  Qed.
  Lemma effwg_same s s' w : s'.(dbl) = s.(dbl) -> effwg s' w = effwg s w.
  Proof. intros H. destruct w; cbn; try done. unfold dblg, getdbl. by rewrite H. Qed.
  Lemma effg_same s s' w : s'.(dws) = s.(dws) -> s'.(dbl) = s.(dbl) -> effg s' w = effg s w.
  Proof.
    intros H1 H2. destruct w; cbn; try done; [|unfold dblg, getdbl; by rewrite H2].
    unfold getdw. rewrite H1. destruct (default (DWNotWoken, None) (dws s !! d)) as [[] [w|]]; try done. by apply effwg_same.
  Qed.
  (* the chain reads the stacks, the event cells and the drain / double wakers only *)
  Lemma coverg_ext s1 s2 e : stacks s2 = stacks s1 -> s2.(evs) = s1.(evs) -> s2.(dws) = s1.(dws) -> s2.(dbl) = s1.(dbl) ->
    coverg s2 e = coverg s1 e.
  Proof.
    intros H1 H2 H3 H4. unfold coverg, exf, getev. rewrite H1, H2. f_equal; [f_equal; apply existsb_ext; intros w; by apply effg_same|].
    apply existsb_ext. intros st. apply existsb_ext. intros []; cbn; try done; [|by apply effg_same].
    rewrite (effwg_same s1 s2) by done. unfold gd, np, dw_woken, getdw. by rewrite (unfreg_evs s1 s2), H1, H3.
  Qed.
  Lemma effg_setdw_ne s d c w : w <> WDrain d -> effg (setdw s d c) w = effg s w.
  Proof.
    intros Hw. destruct w as [| |d2| |]; cbn; try done.
    rewrite getdw_setdw_ne by congruence. destruct (getdw s d2) as [[] [w|]]; try done.
  Qed.
  Lemma effwg_effg s w : effwg s w = true -> effg s w = true. Proof. by destruct w. Qed.
  Lemma effwg_setdbl s k w : effwg s w = true -> effwg (setdbl s k None) w = true \/ dblg s k = true.
  Proof.
    destruct w as [| | | |k2]; cbn; try (by left). destruct (decide (k2 = k)) as [->|Hne]; [by right|].
    unfold dblg. rewrite getdbl_setdbl_ne by done. by left.
  Qed.
  Lemma effg_setdbl s k w : effg s w = true -> effg (setdbl s k None) w = true \/ dblg s k = true.
  Proof.
    destruct w as [| |d| |k2]; try apply effwg_setdbl. cbn.
    change (getdw (setdbl s k None) d) with (getdw s d). destruct (getdw s d) as [[] [w|]]; try done. apply effwg_setdbl.
  Qed.
  (* a task waker counts only when the target is one *)
  Lemma effg_task s c : effg s (WTask c) = true -> is_anytask tw = true.
  Proof. cbn. by intros <-%bool_decide_eq_true. Qed.

  (* the step pops fr0 and pushes pre.  Each way in which the chain holds in s is kept, or replaced by another one *)
  Lemma coverg_keep s s' a fr0 rest pre e :
    stacks s !! a = Some (fr0 :: rest) -> stacks s' = <[a := pre ++ rest]> (stacks s) ->
    (forall w, (getev s e).(fired) = false -> w ∈ (getev s e).(wakers) -> effg s w = true ->
       ((getev s' e).(fired) = false /\ w ∈ (getev s' e).(wakers)) \/ coverg s' e = true) ->
    (forall w, effg s w = true -> effg s' w = true \/ coverg s' e = true) ->
    (forall w, effwg s w = true -> effwg s' w = true \/ coverg s' e = true) ->
    (forall d, np (carries d) s > 0 -> gd s e d = true -> gd s' e d = true) ->
    (forall w, fr0 = FWake w -> effg s w = true -> coverg s' e = true) ->
    (forall d w, fr0 = FWakeWith d w -> effwg s w = true -> gd s e d = true -> coverg s' e = true) ->
    coverg s e = true -> coverg s' e = true.
  Proof.
    intros Ha Hs H1 H2 H3 Hgd Hw Hww. rewrite (coverg_iff s e).
    intros [(Hf & w & Hin & He)|[(c & w & Hf & He)|(c & d & w & Hf & He & Hg)]].
    - destruct (H1 w Hf Hin He) as [[? ?]|?]; [|done]. destruct (H2 w He) as [?|?]; [|done].
      apply coverg_iff. left. split; [done|]. by exists w.
    - destruct (decide (FWake w = fr0)) as [<-|Hne]; [by eapply Hw|]. destruct (H2 w He) as [?|?]; [|done].
      apply coverg_iff. right; left. exists c, w. split; [by eapply fsat_keep_rest|done].
    - destruct (decide (FWakeWith d w = fr0)) as [<-|Hne]; [by eapply Hww|]. destruct (H3 w He) as [?|?]; [|done].
      apply coverg_iff. right; right. exists c, d, w. split; [by eapply fsat_keep_rest|]. split; [done|]. apply Hgd; [|done].
      apply np_pos_fsat. exists c, (FWakeWith d w). split; [done|]. cbn. by apply bool_decide_eq_true.
  Qed.

  (* DrainWaker.wake *)
  Lemma cg_wake_drain s a d st slot rest e : Inv_dw s ->
    stacks s !! a = Some (FWake (WDrain d) :: rest) -> getdw s d = (st, slot) ->
    let now := match st with DWWillWake => true | _ => false end in
    coverg s e = true ->
    coverg (setstack (setdw s d (DWWoken, if now then None else slot)) a ((if now then opt_wake slot else []) ++ rest)) e = true.
  Proof.
    intros HD Hst E0 now.
    set (pre := if now then opt_wake slot else []). set (s0 := setdw s d _). set (s' := setstack _ _ _).
    assert (Hs : stacks s' = <[a := pre ++ rest]> (stacks s)) by (subst s' s0; solve_stacks).
    assert (Hnw : forall w, w <> WDrain d -> np (is_wake w) s <= np (is_wake w) s').
    { intros w Hw. eapply np_mono; [exact Hst|exact Hs|]. rewrite cntf_app. cbn. rewrite bool_decide_false by congruence. lia. }
    assert (Hdr : effg s (WDrain d) = true -> coverg s' e = true).
    { cbn. rewrite E0. intros He. destruct st; try done. destruct slot as [w'|]; [|done].
      apply coverg_iff. right; left. exists a, w'. split.
      - eapply fsat_new; [exact Hst|exact Hs|]. apply elem_of_app. left. subst pre now. cbn. left.
      - apply effwg_effg. by rewrite (effwg_same s s'). }
    eapply (coverg_keep s s' a _ rest pre); [exact Hst|exact Hs|by left| |by left| |by intros w [= <-]|done].
    - intros w He. destruct (decide (w = WDrain d)) as [->|Hne]; [right; by apply Hdr|left].
      change (effg s' w) with (effg s0 w). subst s0. by rewrite effg_setdw_ne.
    - intros d2 Hc. unfold gd. destruct (decide (d2 = d)) as [->|Hne].
      + intros _. change (dw_woken s' d) with (dw_woken s0 d). subst s0.
        rewrite dw_woken_setdw_eq by (by apply carried_lt). by rewrite orb_true_r.
      + change (dw_woken s' d2) with (dw_woken s0 d2). subst s0. rewrite dw_woken_setdw_ne by done.
        rewrite (unfreg_evs s s') by done. rewrite !orb_true_iff. intros [[?|?]|?]; [by left; left| |by right].
        left; right. eapply posb_mono; [apply Hnw; congruence|done].
  Qed.

  Context (Htw : forall s, effg s tw = true).

  (* DoubleWaker.wake *)
  Lemma cg_wake_double_some s a k w1 w2 rest e :
    stacks s !! a = Some (FWake (WDouble k) :: rest) -> getdbl s k = Some (w1, w2) ->
    coverg s e = true -> coverg (setstack (setdbl s k None) a (FWake w1 :: FWake w2 :: rest)) e = true.
  Proof.
    intros Hst E0. set (s0 := setdbl s k None). set (s' := setstack _ _ _).
    assert (Hs : stacks s' = <[a := [FWake w1; FWake w2] ++ rest]> (stacks s)) by (subst s' s0; solve_stacks).
    assert (Hk : dblg s k = true -> coverg s' e = true).
    { unfold dblg. rewrite E0. intros Hq%bool_decide_eq_true.
      apply coverg_iff. right; left. exists a, tw. split; [|apply Htw].
      eapply fsat_new; [exact Hst|exact Hs|]. rewrite <- Hq. destruct second; [right; left|left]. }
    eapply (coverg_keep s s' a _ rest [_; _]); [exact Hst|exact Hs|by left| | | |by intros w [= <-]|done].
    - intros w He. destruct (effg_setdbl s k w He); [by left|right; by apply Hk].
    - intros w He. destruct (effwg_setdbl s k w He); [by left|right; by apply Hk].
    - intros d _. apply gd_np; [done|done|]. eapply np_mono; [exact Hst|exact Hs|cnt_le].
  Qed.

  Lemma cg_wake_double_none s a k rest e :
    stacks s !! a = Some (FWake (WDouble k) :: rest) -> getdbl s k = None -> coverg s e = true -> coverg (setstack s a rest) e = true.
  Proof.
    intros Hst E0. set (s' := setstack _ _ _).
    assert (Hs : stacks s' = <[a := [] ++ rest]> (stacks s)) by (subst s'; solve_stacks).
    eapply (coverg_keep s s' a _ rest []); [exact Hst|exact Hs|by left|by left|by left| | |done].
    - intros d _. apply gd_np; [done|done|]. eapply np_mono; [exact Hst|exact Hs|cnt_le].
    - intros w [= <-]. cbn. unfold dblg. by rewrite E0.
  Qed.

  (* DrainWaker.wake_with, already woken *)
  Lemma cg_wake_with_now s a d w slot rest e :
    stacks s !! a = Some (FWakeWith d w :: rest) -> getdw s d = (DWWoken, slot) ->
    coverg s e = true -> coverg (setstack (setdw s d (DWWoken, slot)) a (FWake w :: rest)) e = true.
  Proof.
    intros Hst E0. set (s' := setstack _ _ _).
    assert (Hd : dws s' = dws s).
    { subst s'. cbn. apply list_insert_id. by apply getdw_lookup. }
    assert (Hs : stacks s' = <[a := [FWake w] ++ rest]> (stacks s)) by (subst s'; solve_stacks).
    eapply (coverg_keep s s' a _ rest [FWake w]); [exact Hst|exact Hs|by left| |by left| |done|].
    - intros w0 Hw. left. by rewrite (effg_same s s').
    - intros d2 _. apply gd_np; [done|done|]. eapply np_mono; [exact Hst|exact Hs|cnt_le].
    - intros d2 w2 [= <- <-] He _. apply coverg_iff. right; left. exists a, w. split.
      + eapply fsat_new; [exact Hst|exact Hs|left].
      + apply effwg_effg. by rewrite (effwg_same s s').
  Qed.

  (* DrainWaker.wake_with, not yet woken: the waker is installed *)
  Lemma cg_wake_with_later s a d w st slot rest e : Inv_dw s ->
    stacks s !! a = Some (FWakeWith d w :: rest) -> getdw s d = (st, slot) -> st <> DWWoken ->
    coverg s e = true -> coverg (setstack (setdw s d (DWWillWake, Some w)) a rest) e = true.
  Proof.
    intros HD Hst E0 Hnwk. set (s0 := setdw s d _). set (s' := setstack _ _ _).
    assert (Hs : stacks s' = <[a := [] ++ rest]> (stacks s)) by (subst s' s0; solve_stacks).
    assert (Hcar : np (carries d) s > 0).
    { apply np_pos_fsat. exists a, (FWakeWith d w). split; [eexists; split; [exact Hst|left]|]. cbn. by apply bool_decide_eq_true. }
    assert (Hlt : d < length (dws s)) by (by apply carried_lt).
    assert (Hst0 : st = DWNotWoken).
    { pose proof (id_one _ HD d) as H. assert (Hw : will s d = false) by (destruct (will s d); [cbn in H; lia|done]).
      unfold will in Hw. rewrite E0 in Hw. cbn in Hw. by destruct st. }
    subst st.
    assert (Hnw : forall w0, np (is_wake w0) s' = np (is_wake w0) s) by (intros w0; by eapply np_same; [exact Hst|exact Hs|]).
    assert (Hed : effwg s w = true -> effg s' (WDrain d) = true).
    { intros He. change (effg s' (WDrain d)) with (effg s0 (WDrain d)). subst s0. cbn. rewrite getdw_setdw_eq by done.
      by rewrite (effwg_same s (setdw s d (DWWillWake, Some w))). }
    eapply (coverg_keep s s' a _ rest []); [exact Hst|exact Hs|by left| |by left| |done|].
    - intros w0 He. left. destruct (decide (w0 = WDrain d)) as [->|Hne]; [cbn in He; by rewrite E0 in He|].
      change (effg s' w0) with (effg s0 w0). subst s0. by rewrite effg_setdw_ne.
    - intros d2 _. unfold gd. rewrite (unfreg_evs s s') by done. rewrite Hnw. change (dw_woken s' d2) with (dw_woken s0 d2).
      destruct (decide (d2 = d)) as [->|Hne]; [|subst s0; by rewrite dw_woken_setdw_ne].
      unfold dw_woken at 1. rewrite E0. cbn. rewrite orb_false_r. intros ->. done.
    - (* the wake_with being executed: its guarantee now goes through the installed waker *)
      intros d2 w2 [= <- <-] He Hg. unfold gd, dw_woken in Hg. rewrite E0 in Hg. cbn in Hg. rewrite orb_false_r in Hg.
      apply orb_true_iff in Hg as [Hu|Hn].
      + unfold unfreg in Hu. apply andb_true_iff in Hu as [Hu1 Hu2]. apply negb_true_iff in Hu1. apply bool_decide_eq_true in Hu2.
        apply coverg_iff. left. split; [done|]. exists (WDrain d). split; [done|by apply Hed].
      + apply posb_true, np_pos_fsat in Hn as (c2 & fr & Hf2 & Hp). destruct fr; try done. cbn in Hp. apply bool_decide_eq_true in Hp as ->.
        apply coverg_iff. right; left. exists c2, (WDrain d). split; [|by apply Hed].
        eapply fsat_keep_rest; [exact Hst|exact Hs|exact Hf2|congruence].
  Qed.

  (* an event cell fires (an external event, or a oneshot of future_sync on its owner's thread): fr0 is no waker call *)
  Lemma cg_fire s a fr0 post e0 rest e : stacks s !! a = Some (fr0 :: rest) -> relw fr0 = false -> coverg s e = true ->
    coverg (setstack (setev s e0 {| fired := true; wakers := [] |}) a (wake_frames (rev (getev s e0).(wakers)) ++ post ++ rest)) e = true.
  Proof.
    intros Hst Hr0. set (ws := rev (wakers (getev s e0))). set (s0 := setev s e0 _). set (s' := setstack _ _ _).
    assert (Hs : stacks s' = <[a := (wake_frames ws ++ post) ++ rest]> (stacks s)) by (subst s' s0; rewrite <- app_assoc; solve_stacks).
    assert (Hnw : forall w, np (is_wake w) s <= np (is_wake w) s').
    { intros w. eapply np_mono; [exact Hst|exact Hs|]. rewrite !cntf_app. cbn. destruct fr0; try discriminate Hr0; cbn; lia. }
    assert (Hnew : forall w, w ∈ wakers (getev s e0) -> fsat s' a (FWake w)).
    { intros w Hin. eapply fsat_new; [exact Hst|exact Hs|]. apply elem_of_app. left. apply elem_of_app. left. apply in_wake_frames. subst ws. by apply elem_of_rev. }
    assert (Heq : forall w, effg s' w = effg s w) by (intros w; by apply effg_same).
    eapply (coverg_keep s s' a _ rest (wake_frames ws ++ post)); [exact Hst|exact Hs| | |by left| |by intros w ->|by intros d w ->].
    - intros w Hf Hin He. destruct (decide (e = e0)) as [->|Hne].
      + right. apply coverg_iff. right; left. exists a, w. split; [by apply Hnew|by rewrite Heq].
      + left. change (getev s' e) with (getev s0 e). subst s0. by rewrite getev_setev_ne.
    - intros w He. left. by rewrite Heq.
    - intros d _. unfold gd. rewrite !orb_true_iff. intros [[H|H]|H]; [|left; right; eapply posb_mono; [apply Hnw|done]|by right].
      destruct (decide (e = e0)) as [->|Hne].
      + left; right. unfold unfreg in H. apply andb_true_iff in H as [_ Hin]. apply bool_decide_eq_true in Hin.
        by eapply np_pos_wake, Hnew.
      + left; left. unfold unfreg in *. change (getev s' e) with (getev s0 e). subst s0. by rewrite getev_setev_ne.
  Qed.

  (* every other step: the popped frames are no waker calls (or calls of wakers that do not reach the target); the registrations
     that matter, drain wakers and double wakers are only added *)
  Definition nocov (s : state) (fr : frame) : bool :=
    match fr with FWake (WDrain _) | FWakeWith _ _ => false | FWake w => negb (effg s w) | _ => true end.
  Definition evkeep : state -> state -> Prop := regkeep (fun w => is_anytask tw = false -> forall c, w <> WTask c).
  Lemma nocov_dws s fr : nocov s fr = true -> w_dws fr = false. Proof. destruct fr; try done. by destruct w. Qed.
  Lemma cg_plain s s' a old new e :
    stacks s !! a = Some old -> stacks s' = <[a := new]> (stacks s) -> (forall fr, fr ∈ old -> nocov s fr = false -> fr ∈ new) ->
    evkeep s s' -> (forall d, getdw s' d = getdw s d) -> (forall k, getdbl s k <> None -> getdbl s' k = getdbl s k) ->
    coverg s e = true -> coverg s' e = true.
  Proof.
    intros Hst Hs Hnew Hev Hdw Hdb.
    assert (Htw' : forall w, effwg s w = true -> effwg s' w = true).
    { intros [| | |c|k]; cbn; try done. unfold dblg. destruct (getdbl s k) as [p|] eqn:E; [|done]. by rewrite Hdb, E by (by rewrite E). }
    assert (Ht : forall w, effg s w = true -> effg s' w = true).
    { intros w. destruct w as [| |d| |]; try apply Htw'. cbn. rewrite Hdw. destruct (getdw s d) as [[] [w|]]; try done. apply Htw'. }
    assert (Hk : forall c fr, nocov s fr = false -> fsat s c fr -> fsat s' c fr).
    { intros c fr Hrel Hf. eapply fsat_keep; [exact Hst|exact Hs|exact Hf|]. intros _ Hin. by apply Hnew. }
    assert (Hgd : forall d, gd s e d = true -> gd s' e d = true).
    { intros d. unfold gd. rewrite !orb_true_iff. intros [[H|H]|H].
      + left; left. unfold unfreg in *. apply andb_true_iff in H as [H1 H2]. apply negb_true_iff in H1. apply bool_decide_eq_true in H2.
        destruct (Hev e (WDrain d) ltac:(done) H1 H2) as [H3 H4]. rewrite H3. cbn. by apply bool_decide_eq_true.
      + left; right. apply posb_true, np_pos_fsat in H as (c & fr & Hf & Hp). destruct fr; try done.
        cbn in Hp. apply bool_decide_eq_true in Hp as ->.
        apply posb_true, np_pos_fsat. exists c, (FWake (WDrain d)). split; [by apply Hk|]. cbn. by apply bool_decide_eq_true.
      + right. unfold dw_woken in *. by rewrite Hdw. }
    rewrite (coverg_iff s e). intros [(Hf & w & Hin & He)|[(c & w & Hf & He)|(c & d & w & Hf & He & Hg)]]; apply coverg_iff.
    - left. assert (Hnt : is_anytask tw = false -> forall c, w <> WTask c).
      { intros Ht0 c ->. apply effg_task in He. congruence. }
      destruct (Hev _ _ Hnt Hf Hin) as [? ?]. split; [done|]. exists w. split; [done|by apply Ht].
    - right; left. exists c, w. split; [|by apply Ht]. apply Hk; [|done]. cbn. destruct w; try done; cbn in *; by rewrite He.
    - right; right. exists c, d, w. split; [by apply Hk|]. split; [by apply Htw'|by apply Hgd].
  Qed.

  (* the steps at which a registration that matters may disappear without being called: a oneshot receiver that replaces
     the stored waker; when the target is a task waker, also the SyncFuture's owner replacing or discarding its own *)
  Definition lost (fr : frame) : bool :=
    match fr with FJob (JFut _ Waiting (PAwaitDone _ :: _)) _ _ => true | _ => false end || drops fr && is_anytask tw.
  Lemma step_cover T s a s' fr rest e : wake_cond T -> Inv_dw s -> step T s a = Some s' -> stacks s !! a = Some (fr :: rest) ->
    lost fr = false -> coverg s e = true -> coverg s' e = true \/ fr = FWake tw.
  Proof.
    intros HW HD Hstep Hst Hl Hc. destruct (step_eff _ _ _ _ Hstep) as (fr0 & rest0 & Hst0 & E).
    rewrite Hst in Hst0. injection Hst0 as <- <-.
    assert (Hd : nocov s fr = true -> takes fr = false -> w_dbl fr = false -> coverg s' e = true).
    { intros Hn Ht Hb. destruct (ef_stack _ _ _ _ _ E) as (pre & rest' & Hs & Hbl & _ & _).
      eapply (cg_plain s s' a _ _ e Hst Hs); [| |apply (ef_dws _ _ _ _ _ E); by eapply nocov_dws|by apply (ef_dbl _ _ _ _ _ E)|exact Hc].
      - intros x [->|Hin]%elem_of_cons Hx; [congruence|]. apply elem_of_app. right.
        destruct (below_in _ _ _ Hbl Hin) as [?|Hi]; [done|]. by destruct x.
      - intros e0 w Hk. apply (ef_evs _ _ _ _ _ E Ht). intros Hdr. apply Hk.
        apply orb_false_iff in Hl as [_ Hl]. by rewrite Hdr in Hl. }
    clear E. destruct fr; try (left; by apply Hd).
    - (* FWakeWith *) left. step_at Hstep Hst. all: injection Hstep as <-.
      all: rewrite (wc_dw_wake_with _ HW) in E0; destruct d0; try discriminate E0; injection E0 as <-.
      all: first [exact (cg_wake_with_now _ _ _ _ _ _ _ Hst E Hc)|exact (cg_wake_with_later _ _ _ _ _ _ _ _ HD Hst E ltac:(done) Hc)].
    - (* FFire *) left. step_at Hstep Hst. injection Hstep as <-. exact (cg_fire s a _ [] _ _ e Hst eq_refl Hc).
    - (* FJob: a oneshot sender fires its cell *)
      left. step_at Hstep Hst. all: try discriminate Hstep. all: try discriminate Hl. all: injection Hstep as <-.
      all: try (by apply Hd).
      exact (cg_fire s a _ [_] _ _ e Hst eq_refl Hc).
    - (* FWake *) destruct w as [|c|d|c|k].
      1,2,4: lazymatch type of Hst with _ = Some (FWake ?w :: _) => destruct (effg s w) eqn:Ew end;
        [right; apply bool_decide_eq_true in Ew; congruence|left; apply Hd; [unfold nocov; by rewrite Ew|done..] ].
      + left. step_at Hstep Hst. all: injection Hstep as <-.
        all: rewrite (wc_dw_wake _ HW) in E0; destruct d0; try discriminate E0; injection E0 as <-.
        all: exact (cg_wake_drain s a d _ _ rest e HD Hst E Hc).
      + left. step_at Hstep Hst. all: injection Hstep as <-.
        * exact (cg_wake_double_some _ _ _ _ _ _ _ Hst E Hc).
        * exact (cg_wake_double_none _ _ _ _ _ Hst E Hc).
    - (* FY: the SyncFuture's owner fires the done cell when it finishes or is dropped *)
      left. step_at Hstep Hst. all: try discriminate Hstep. all: injection Hstep as <-.
      all: try (by apply Hd).
      + exact (cg_fire s a _ [_] _ _ e Hst eq_refl Hc).
      + exact (cg_fire (addlog s _) a _ [] _ _ e Hst eq_refl Hc).
  Qed.
End Cover.

(* Wake.cover is the chain towards the queue waker, the first half of a DoubleWaker *)
Lemma effw_g s w : effw s w = effwg false WQueue s w.
Proof. destruct w; try done. cbn. unfold dbl_q, dblg. by destruct (getdbl s k) as [[[] ?]|]. Qed.
Lemma effq_g s w : effq s w = effg false WQueue s w.
Proof. destruct w; try apply effw_g. cbn. destruct (getdw s d) as [[] [w|]]; try done. apply effw_g. Qed.
Lemma cover_g s e : cover s e = coverg false WQueue s e.
Proof.
  unfold cover, coverg. f_equal; [f_equal; apply existsb_ext, effq_g|].
  apply exf_ext. intros []; try done; cbn [cfr cfrg]; by rewrite ?effq_g, ?effw_g.
Qed.
