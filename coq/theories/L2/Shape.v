(* a small shape invariant: above the runner's marker frame there are only waker-call frames; hence when the top of a stack
   is neither a waker-call frame nor a marker, that actor is not the runner *)
From stdpp Require Import list numbers option.
From RecordUpdate Require Import RecordUpdate.
From L2 Require Import Model Base Arm Own.
#[global] Unset Lia Cache.

Definition chain (fr : frame) : bool := match fr with FWake _ | FUnpark _ | FRQ1 | FRQ2 => true | _ => false end.
Fixpoint below (st : list frame) : list frame :=      (* what lies below the first non-chain frame *)
  match st with [] => [] | fr :: r => if chain fr then below r else r end.
Definition toponly (fr : frame) : bool := match fr with FD1 _ | FD2 | FWakeWith _ _ => true | _ => false end.
(* no marker and no waker-call frame below the first frame that is not a waker call; FD2 / FWakeWith only on top *)
Definition mshape (st : list frame) : Prop :=
  cntf marker (below st) = 0 /\ cntf chain (below st) = 0 /\ cntf toponly (tail st) = 0.
Definition Inv_shape (s : state) : Prop := forall c st, stacks s !! c = Some st -> mshape st.

Lemma below_chain pre st : forallb chain pre = true -> below (pre ++ st) = below st.
Proof. induction pre as [|x pre IH]; cbn; [done|]. intros [H1 H2]%andb_true_iff. rewrite H1. by apply IH. Qed.
Lemma below_le P st : cntf P (below st) <= cntf P st.
Proof. induction st as [|x st IH]; cbn; [lia|]. destruct (chain x); destruct (P x); lia. Qed.
Lemma toponly_chain pre st : forallb chain pre = true -> cntf toponly (tail st) = 0 -> cntf toponly (below st) = 0 ->
  cntf toponly (tail (pre ++ st)) <= cntf toponly st.
Proof.
  intros H. destruct pre as [|x pre]; cbn; [intros; destruct st; cbn in *; lia|]. intros _ _.
  apply andb_true_iff in H as [_ H]. rewrite cntf_app. assert (cntf toponly pre = 0); [|lia].
  clear -H. induction pre as [|y pre IH]; cbn in *; [done|]. apply andb_true_iff in H as [H1 H2]. rewrite IH by done. by destruct y.
Qed.
Lemma chain_wake_frames ws : forallb chain (wake_frames ws) = true.
Proof. induction ws as [|w ws IH]; [done|]. exact IH. Qed.
Lemma chain_opt_wake ow : forallb chain (opt_wake ow) = true. Proof. by destruct ow. Qed.

Lemma chain_fired_frames s e : forallb chain (fired_frames s e) = true. Proof. apply chain_wake_frames. Qed.
Lemma chain_ret_ready k : chain (ret_ready k) = false. Proof. by destruct k. Qed.
Lemma chain_ret_pending k j : chain (ret_pending k j) = false. Proof. by destruct k. Qed.

Lemma tail_le P (st : list frame) : cntf P (tail st) <= cntf P st.
Proof. destruct st as [|x r]; cbn; lia. Qed.

(* every arm keeps the shape: counting with [below r <= r] and [tail r <= r] for the untouched part of the stack *)
Lemma mshape_arm s a l r : mshape (arm_old l ++ r) -> mshape (arm_new s a l ++ r).
Proof.
  pose proof (below_le marker r) as B1. pose proof (below_le chain r) as B2. pose proof (below_le toponly r) as B3.
  pose proof (tail_le toponly r) as B4.
  unfold mshape. destruct l; cbn; intros (H1 & H2 & H3).
  all: try (repeat split; lia).
  all: try (destruct c; cbn in *; repeat split; lia).
  all: rewrite ?chain_ret_ready, ?chain_ret_pending; try (repeat split; lia).
  (* waker calls pushed on top *)
  all: rewrite <- ?app_assoc; rewrite !below_chain by (first [apply chain_fired_frames|apply chain_opt_wake]); cbn.
  all: lazymatch goal with |- context [tail (?pre ++ ?st)] =>
         pose proof (toponly_chain pre st ltac:(first [apply chain_fired_frames|apply chain_opt_wake])) as B5; cbn in B5 end.
  all: repeat split; lia.
Qed.

Section Pres.
  Context (T : ftables).
  Lemma step_shape s a s' : Inv_shape s -> step T s a = Some s' -> Inv_shape s'.
  Proof. apply allstk_step. intros l r _. apply mshape_arm. Qed.
End Pres.

Lemma init_shape scripts npool nev : Inv_shape (init scripts npool nev).
Proof. by apply allstk_init. Qed.

Lemma shape_top_plain s a fr rest : Inv_shape s -> stacks s !! a = Some (fr :: rest) -> chain fr = false -> cntf marker rest = 0.
Proof. intros HI Ha Hc. destruct (HI a _ Ha) as [H _]. cbn in H. by rewrite Hc in H. Qed.
