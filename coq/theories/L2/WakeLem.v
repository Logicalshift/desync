(* C06: lemmas about how the observations used by the wake invariant change *)
From stdpp Require Import list numbers option.
From RecordUpdate Require Import RecordUpdate.
From L2 Require Import Model Base Arm Own Jobs Shape DwInv Wake WakeInv.
#[global] Unset Lia Cache.

Lemma fsat_upd s s' a old new c fr :
  stacks s !! a = Some old -> stacks s' = <[a := new]> (stacks s) -> fsat s' c fr ->
  (c = a /\ fr ∈ new) \/ (c <> a /\ fsat s c fr).
Proof.
  intros Ha Hs (st & Hc & Hin). rewrite Hs in Hc. destruct (decide (c = a)) as [->|Hne].
  - left. split; [done|]. rewrite list_lookup_insert in Hc by (by eapply lookup_lt_Some). by injection Hc as <-.
  - right. split; [done|]. rewrite list_lookup_insert_ne in Hc by done. by exists st.
Qed.

Lemma cntf_zero_all P st : cntf P st = 0 -> forall fr, fr ∈ st -> P fr = false.
Proof.
  intros H fr Hin. destruct (P fr) eqn:E; [|done]. exfalso.
  assert (cntf P st > 0) by (apply cntf_pos; by exists fr). lia.
Qed.
Lemma marker_unique s a fr0 rest :
  Inv_own s -> stacks s !! a = Some (fr0 :: rest) -> marker fr0 = true ->
  (forall fr, fr ∈ rest -> marker fr = false) /\ (forall c fr, c <> a -> fsat s c fr -> marker fr = false).
Proof.
  intros HO Ha Hm. assert (Hc : cntf marker (fr0 :: rest) >= 1) by (cbn; rewrite Hm; lia). split.
  - apply cntf_zero_all. pose proof (runner_once s a _ HO Ha) as H. cbn in H. rewrite Hm in H. lia.
  - intros c fr Hne (st & Hst & Hin). by apply (cntf_zero_all marker st (runner_alone s a _ c st HO Ha Hc Hst Hne)).
Qed.
Lemma nonmarker_ok s c fr : marker fr = false -> frame_ok s c fr = true.
Proof. by destruct fr. Qed.

Lemma frames_runner_step s s' a fr0 rest pre :
  Inv_own s -> stacks s !! a = Some (fr0 :: rest) -> marker fr0 = true -> stacks s' = <[a := pre ++ rest]> (stacks s) ->
  (forall fr, fr ∈ pre -> frame_ok s' a fr = true) ->
  forall c fr, fsat s' c fr -> frame_ok s' c fr = true.
Proof.
  intros HO Ha Hm Hs Hpre c fr Hf. destruct (marker_unique s a fr0 rest HO Ha Hm) as [Hr Ho].
  destruct (fsat_upd _ _ _ _ _ _ _ Ha Hs Hf) as [[-> Hin]|[Hne Hf']].
  - apply elem_of_app in Hin as [Hin|Hin]; [by apply Hpre|]. apply nonmarker_ok. by apply Hr.
  - apply nonmarker_ok. by eapply Ho.
Qed.
Lemma frames_other_step s s' a fr0 rest pre :
  stacks s !! a = Some (fr0 :: rest) -> stacks s' = <[a := pre ++ rest]> (stacks s) ->
  (forall fr, fr ∈ pre -> frame_ok s' a fr = true) ->
  (forall c fr, marker fr = true -> fsat s c fr -> frame_ok s c fr = true -> frame_ok s' c fr = true) ->
  (forall c fr, fsat s c fr -> frame_ok s c fr = true) ->
  forall c fr, fsat s' c fr -> frame_ok s' c fr = true.
Proof.
  intros Ha Hs Hpre Hst HI c fr Hf.
  destruct (marker fr) eqn:Hm; [|by apply nonmarker_ok].
  destruct (fsat_upd _ _ _ _ _ _ _ Ha Hs Hf) as [[-> Hin]|[Hne Hf']].
  - apply elem_of_app in Hin as [Hin|Hin]; [by apply Hpre|].
    assert (fsat s a fr) by (exists (fr0 :: rest); split; [done|by right]). by apply Hst; [|  |apply HI].
  - by apply Hst; [| |apply HI].
Qed.

Definition relv (fr : frame) : bool :=
  match fr with FWake _ | FUnpark _ | FRQ1 | FRQ2 | FD2 | FWakeWith _ _ => true | _ => false end.
Lemma cntf_filter P Q st : (forall fr, P fr = true -> Q fr = true) -> cntf P (List.filter Q st) = cntf P st.
Proof.
  intros H. induction st as [|x st IH]; cbn; [done|]. destruct (Q x) eqn:E; cbn; [by rewrite IH|].
  destruct (P x) eqn:E2; [rewrite (H _ E2) in E; done|by rewrite IH].
Qed.
Lemma existsb_filter (f Q : frame -> bool) st : (forall fr, f fr = true -> Q fr = true) -> existsb f (List.filter Q st) = existsb f st.
Proof.
  intros H. induction st as [|x st IH]; cbn; [done|]. destruct (Q x) eqn:E; cbn; [by rewrite IH|].
  destruct (f x) eqn:E2; [rewrite (H _ E2) in E; done|by rewrite IH].
Qed.
Lemma exf_insert (f : frame -> bool) (L : list (list frame)) a old new : L !! a = Some old -> existsb f new = existsb f old ->
  existsb (existsb f) (<[a := new]> L) = existsb (existsb f) L.
Proof.
  revert a; induction L as [|x L IH]; intros [|a]; cbn; try done.
  - intros [= ->] ->. done.
  - intros H1 H2. change (existsb f x || existsb (existsb f) (<[a:=new]> L) = existsb f x || existsb (existsb f) L). by rewrite (IH a).
Qed.
Lemma exf_ext (f g : frame -> bool) s : (forall fr, f fr = g fr) -> exf f s = exf g s.
Proof.
  intros H. unfold exf. induction (stacks s) as [|x L IH]; cbn; [done|]. rewrite IH. f_equal.
  induction x as [|y x IHx]; cbn; [done|]. by rewrite H, IHx.
Qed.

Record qview (s s' : state) : Prop := {
  qv_evs : forall e, getev s' e = getev s e \/ ((getev s' e).(wakers) = [] /\ (getev s e).(wakers) = []);   (* fresh cells may be added *)
  qv_dws : s'.(dws) = s.(dws); qv_dbl : s'.(dbl) = s.(dbl); qv_toks : toks s' = toks s;
  qv_np : forall P, (forall fr, P fr = true -> relv fr = true) -> np P s' = np P s;
  qv_exf : forall f, (forall fr, f fr = true -> relv fr = true) -> exf f s' = exf f s;
}.
Lemma qview_intro s s' a old new k :
  stacks s !! a = Some old -> stacks s' = <[a := new]> (stacks s) -> List.filter relv new = List.filter relv old ->
  s'.(evs) = s.(evs) ++ replicate k ev_new -> s'.(dws) = s.(dws) -> s'.(dbl) = s.(dbl) -> toks s' = toks s -> qview s s'.
Proof.
  intros Ha Hs Hr H1 H2 H3 H4. split; try done.
  - intros e. unfold getev. rewrite H1. destruct (decide (e < length (evs s))).
    + left. by rewrite lookup_app_l.
    + right. rewrite (lookup_ge_None_2 (evs s)) by lia. split; [|done].
      destruct ((evs s ++ replicate k ev_new) !! e) as [c|] eqn:E; [|done]. cbn.
      rewrite lookup_app_r in E by lia. by apply lookup_replicate in E as [-> _].
  - intros P HP. pose proof (np_upd P s s' a old new Ha Hs) as H.
    rewrite <- (cntf_filter P relv old HP), <- (cntf_filter P relv new HP), Hr in H. lia.
  - intros f Hf. unfold exf. rewrite Hs. apply (exf_insert f _ a old new Ha).
    by rewrite <- (existsb_filter f relv old Hf), <- (existsb_filter f relv new Hf), Hr.
Qed.

Section Quiet.
  Context (s s' : state) (Q : qview s s').
  Lemma q_getev e : getev s' e = getev s e \/ ((getev s' e).(wakers) = [] /\ (getev s e).(wakers) = []). Proof. apply (qv_evs _ _ Q). Qed.
  Lemma q_getdw d : getdw s' d = getdw s d. Proof. unfold getdw. by rewrite (qv_dws _ _ Q). Qed.
  Lemma q_getdbl k : getdbl s' k = getdbl s k. Proof. unfold getdbl. by rewrite (qv_dbl _ _ Q). Qed.
  Lemma q_unfreg e w : unfreg s' e w = unfreg s e w.
  Proof.
    unfold unfreg. destruct (q_getev e) as [->|[H1 H2]]; [done|]. rewrite H1, H2.
    rewrite !bool_decide_false by (by intros ?%elem_of_nil). by rewrite !andb_false_r.
  Qed.
  Lemma q_npwake w : np (is_wake w) s' = np (is_wake w) s. Proof. apply (qv_np _ _ Q). by intros []. Qed.
  Lemma q_npunpark c : np (is_unpark c) s' = np (is_unpark c) s. Proof. apply (qv_np _ _ Q). by intros []. Qed.
  Lemma q_nprq1 : np is_rq1 s' = np is_rq1 s. Proof. apply (qv_np _ _ Q). by intros []. Qed.
  Lemma q_nppush : np is_push s' = np is_push s. Proof. apply (qv_np _ _ Q). by intros []. Qed.
  Lemma q_gq e : gq s' e = gq s e. Proof. unfold gq. by rewrite q_unfreg, q_npwake. Qed.
  Lemma q_gt c e : gt s' c e = gt s c e. Proof. unfold gt. by rewrite q_unfreg, q_npwake. Qed.
  Lemma q_gd e d : gd s' e d = gd s e d. Proof. unfold gd, dw_woken. by rewrite q_unfreg, q_npwake, q_getdw. Qed.
  Lemma q_tokb c : tokb s' c = tokb s c. Proof. unfold tokb. by rewrite (qv_toks _ _ Q). Qed.
  Lemma q_effw w : effw s' w = effw s w. Proof. destruct w; cbn; try done. unfold dbl_q. by rewrite q_getdbl. Qed.
  Lemma q_effq w : effq s' w = effq s w.
  Proof. destruct w; cbn; try done; [|unfold dbl_q; by rewrite q_getdbl]. rewrite q_getdw. destruct (getdw s d) as [[] [w|]]; try done. apply q_effw. Qed.
  Lemma q_cover e : cover s' e = cover s e.
  Proof.
    unfold cover. f_equal.
    - destruct (q_getev e) as [->|[H1 H2]]; [|rewrite H1, H2; cbn; by rewrite !andb_false_r].
      f_equal. induction (wakers (getev s e)) as [|w l IH]; cbn; [done|]. by rewrite q_effq, IH.
    - rewrite (exf_ext (cfr s' e) (cfr s e)).
      + apply (qv_exf _ _ Q). by intros [].
      + intros []; cbn; try done; [by rewrite q_effw, q_gd|apply q_effq].
  Qed.
  Lemma frame_ok_quiet c fr : s'.(qs) = s.(qs) -> (forall e, hsusp s = Some e -> hsusp s' = Some e) ->
    frame_ok s c fr = true -> frame_ok s' c fr = true.
  Proof.
    intros Hq Hh. destruct fr; cbn; try done; unfold awoken; rewrite ?Hq.
    all: try (destruct (susp j) as [e|]; [|done]; rewrite ?q_gq, ?q_gt, ?q_gd, ?q_tokb, ?q_npunpark; done).
    all: destruct (hsusp s) as [e|] eqn:E; [|done]; rewrite (Hh e eq_refl); rewrite ?q_gq, ?q_gd; done.
  Qed.
End Quiet.

Lemma fsat_marker_owned s c fr : Inv_own s -> fsat s c fr -> marker fr = true -> owned s.(qs) = true.
Proof.
  intros HO (st & Hc & Hin) Hm. eapply runner_owned; [done|exact Hc|].
  assert (cntf marker st > 0) by (apply cntf_pos; by exists fr). lia.
Qed.
Lemma hsusp_push s j e : hsusp s = Some e -> match s.(jobs) ++ [j] with j0 :: _ => susp j0 | [] => None end = Some e.
Proof. unfold hsusp. by destruct (jobs s). Qed.


Lemma queue_ok_owned s : owned s.(qs) = true -> queue_ok s = true.
Proof. unfold queue_ok. by destruct (qs s). Qed.
Lemma hsusp_jobs s s' : jobs s' = jobs s -> hsusp s' = hsusp s. Proof. unfold hsusp. by intros ->. Qed.

Lemma posb_true n : posb n = true <-> n > 0. Proof. destruct n; cbn; split; try done; lia. Qed.
Lemma posb_mono n m : n <= m -> posb n = true -> posb m = true.
Proof. destruct n, m; cbn; try done; lia. Qed.

Lemma queue_ok_mono s s' : s'.(qs) = s.(qs) -> s'.(jobs) = s.(jobs) ->
  (forall e, cover s e = true -> cover s' e = true) -> np is_rq1 s <= np is_rq1 s' ->
  np is_push s + s.(insched) <= np is_push s' + s'.(insched) -> queue_ok s = true -> queue_ok s' = true.
Proof.
  intros Hq Hj Hc Hr Hp. unfold queue_ok. rewrite Hq, Hj, (hsusp_jobs _ _ Hj).
  assert (Hpi : posb (np is_push s) || posb (insched s) = true -> posb (np is_push s') || posb (insched s') = true).
  { rewrite !orb_true_iff, !posb_true. lia. }
  destruct (qs s); try done.
  - destruct (jobs s); [done|]. rewrite !orb_true_iff. intros [H|H]; [left; by eapply posb_mono|right].
    destruct (hsusp s); [by apply Hc|done].
  - by apply posb_mono.
  - destruct (hsusp s); [apply Hc|done].
  - destruct (hsusp s); [|done]. rewrite <- !orb_assoc, !orb_true_iff.
    intros [H|[H|H]]; [left; by apply Hc|right; left; by eapply posb_mono|right; right; apply orb_true_iff; by apply Hpi, orb_true_iff].
Qed.
Lemma queue_ok_same s s' : s'.(qs) = s.(qs) -> s'.(jobs) = s.(jobs) -> s'.(insched) = s.(insched) ->
  (forall e, cover s' e = cover s e) -> np is_rq1 s' = np is_rq1 s -> np is_push s' = np is_push s ->
  queue_ok s = true -> queue_ok s' = true.
Proof. intros Hq Hj Hi Hc Hr Hp. apply queue_ok_mono; try done; [intros e; by rewrite Hc|lia..]. Qed.

Section QuietQ.
  Context (s s' : state) (Q : qview s s').
  Lemma queue_ok_quiet_same : s'.(qs) = s.(qs) -> s'.(jobs) = s.(jobs) -> s'.(insched) = s.(insched) ->
    queue_ok s = true -> queue_ok s' = true.
  Proof. intros Hq Hj Hi. apply queue_ok_same; [done..|apply (q_cover _ _ Q)|apply (q_nprq1 _ _ Q)|apply (q_nppush _ _ Q)]. Qed.
  Lemma queue_ok_quiet_push j : s'.(qs) = s.(qs) -> s.(qs) <> Idle -> s'.(jobs) = s.(jobs) ++ [j] -> s'.(insched) = s.(insched) ->
    queue_ok s = true -> queue_ok s' = true.
  Proof.
    intros Hq Hn Hj Hi. unfold queue_ok. rewrite Hq, Hi, (q_nprq1 _ _ Q), (q_nppush _ _ Q).
    destruct (qs s); try done; destruct (hsusp s) as [e|] eqn:E; try done.
    all: unfold hsusp; rewrite Hj, (hsusp_push s j e E); by rewrite (q_cover _ _ Q).
  Qed.
  (* a pool thread drops a stale schedule entry *)
  Lemma queue_ok_quiet_stale (T : ftables) : wake_cond T -> T.(ft_base).(t_next) s.(qs) = None ->
    s'.(qs) = s.(qs) -> s'.(jobs) = s.(jobs) -> queue_ok s = true -> queue_ok s' = true.
  Proof.
    intros HW Hn Hq Hj. unfold queue_ok. rewrite Hq, Hj, (hsusp_jobs _ _ Hj), (q_nprq1 _ _ Q), (q_nppush _ _ Q).
    destruct (qs s) eqn:E; try done.
    - destruct (hsusp s) as [e|]; try done; by rewrite (q_cover _ _ Q).
    - by rewrite (wc_next_pending _ HW) in Hn.
    - destruct (hsusp s) as [e|]; try done; by rewrite (q_cover _ _ Q).
    - by rewrite (wc_next_wfp _ HW) in Hn.
  Qed.
End QuietQ.

Lemma existsb_true {A} (f : A -> bool) l : existsb f l = true <-> exists x, x ∈ l /\ f x = true.
Proof.
  induction l as [|y l IH]; cbn.
  - split; [done|]. intros (x & H & _). by apply elem_of_nil in H.
  - rewrite orb_true_iff, IH. split.
    + intros [H|(x & H1 & H2)]; [exists y; split; [left|done]|exists x; split; [by right|done]].
    + intros (x & [->|H1]%elem_of_cons & H2); [by left|right; by exists x].
Qed.
Lemma exf_true f s : exf f s = true <-> exists c fr, fsat s c fr /\ f fr = true.
Proof.
  unfold exf. rewrite existsb_true. split.
  - intros (st & Hin & Hex). apply existsb_true in Hex as (fr & Hfr & Hf).
    apply elem_of_list_lookup in Hin as (c & Hc). exists c, fr. split; [by exists st|done].
  - intros (c & fr & (st & Hc & Hin) & Hf). exists st. split; [by eapply elem_of_list_lookup_2|].
    apply existsb_true. by exists fr.
Qed.
Lemma np_pos_fsat P s : np P s > 0 <-> exists c fr, fsat s c fr /\ P fr = true.
Proof.
  unfold np. rewrite npl_pos. split.
  - intros (c & st & Hc & Hp). apply cntf_pos in Hp as (fr & Hin & Hp). exists c, fr. split; [by exists st|done].
  - intros (c & fr & (st & Hc & Hin) & Hp). exists c, st. split; [done|]. apply cntf_pos. by exists fr.
Qed.
Lemma gq_cover s e : gq s e = true -> cover s e = true.
Proof.
  unfold gq, cover, unfreg. rewrite !orb_true_iff, !andb_true_iff. intros [[H1 H2]|H].
  - left. split; [done|]. apply existsb_true. exists WQueue. split; [by apply bool_decide_eq_true in H2|done].
  - right. apply posb_true, np_pos_fsat in H as (c & fr & Hf & Hp). apply exf_true. exists c, fr. split; [done|].
    destruct fr; try done. cbn in Hp. apply bool_decide_eq_true in Hp as ->. done.
Qed.
Lemma owned_running st : owned st = true -> st <> WaitingForUnpark -> running st = true.
Proof. by destruct st. Qed.

Definition unp (s : state) (c : nat) : bool := tokb s c || posb (np (is_unpark c) s).
Definition isrunner (s : state) (c : nat) : Prop := exists fr, fsat s c fr /\ marker fr = true.
Record tview (s s' : state) : Prop := {
  tv_hsusp : forall e, hsusp s = Some e -> hsusp s' = Some e;
  tv_awoken : awoken s = true -> awoken s' = true;
  tv_gq : forall e, running s.(qs) = true -> gq s e = true -> gq s' e = true \/ awoken s' = true;
  tv_gt : forall c e, gt s c e = true ->
            gt s' c e = true \/ (is_wfu s'.(qs) = false /\ posb (np (is_unpark c) s') = true /\ (is_wfu s.(qs) = true \/ awoken s' = true));
  tv_wfu : is_wfu s'.(qs) = true -> is_wfu s.(qs) = true;
  tv_unp : forall c, isrunner s c -> is_wfu s.(qs) = false -> unp s c = true -> unp s' c = true;
  tv_gd : forall e d, np (carries d) s > 0 -> gd s e d = true -> gd s' e d = true;
}.
Lemma frame_ok_transfer s s' c fr : tview s s' -> fsat s c fr -> isrunner s c -> (workfr fr = true -> running s.(qs) = true) ->
  frame_ok s c fr = true -> frame_ok s' c fr = true.
Proof.
  intros [H1 H2 H3 H4 H5 H6 H7] Hfs Hrc H0. specialize (H6 c Hrc). unfold unp in H6.
  assert (Hcar : forall d, carries d fr = true -> np (carries d) s > 0) by (intros d Hd; apply np_pos_fsat; by exists c, fr).
  destruct fr; cbn; try done; cbn in H0.
  - (* FDQrequeue *) destruct (susp j); [|done]. apply H7, Hcar. cbn. by apply bool_decide_eq_true.
  - destruct (hsusp s) as [e|] eqn:E; [|done]. rewrite (H1 e eq_refl). apply H7, Hcar. cbn. by apply bool_decide_eq_true.
  - destruct (hsusp s) as [e|] eqn:E; [|done]. rewrite (H1 e eq_refl). apply H7, Hcar. cbn. by apply bool_decide_eq_true.
  - destruct (hsusp s) as [e|] eqn:E; [|done]. rewrite (H1 e eq_refl). apply H7, Hcar. cbn. by apply bool_decide_eq_true.
  - destruct (hsusp s) as [e|] eqn:E; [|done]. rewrite (H1 e eq_refl). apply H7, Hcar. cbn. by apply bool_decide_eq_true.
  - (* FROpend *) destruct (susp j) as [e|]; [|done]. rewrite !orb_true_iff. intros [Ha|Hg]; [left; by apply H2|].
    destruct (H4 _ _ Hg) as [?|(_ & _ & [Hw|?])]; [by right| |by left].
    specialize (H0 eq_refl). destruct (qs s); done.
  - (* FROcheck *) destruct (susp j) as [e|]; [|done].
    destruct (is_wfu (qs s')) eqn:Ew'; [|done]. rewrite (H5 eq_refl). intros Hg.
    destruct (H4 _ _ Hg) as [?|(? & _)]; [done|congruence].
  - (* FROpark *) destruct (susp j) as [e|]; [|done].
    destruct (is_wfu (qs s')) eqn:Ew'.
    + rewrite (H5 eq_refl). intros Hg. destruct (H4 _ _ Hg) as [?|(? & _)]; [done|congruence].
    + destruct (is_wfu (qs s)) eqn:Ew.
      * intros Hg. destruct (H4 _ _ Hg) as [->|(_ & -> & _)]; [by rewrite orb_true_r|by rewrite orb_true_r].
      * rewrite !orb_true_iff. intros [Hu|Hg].
        -- left. apply orb_true_iff. apply H6; [done|]. by apply orb_true_iff.
        -- destruct (H4 _ _ Hg) as [?|(_ & ? & _)]; [by right|left; by right].
  - (* FDRrequeue *) destruct (susp j) as [e|]; [|done]. rewrite !orb_true_iff. intros [Ha|Hg]; [left; by apply H2|].
    destruct (H3 e (H0 eq_refl) Hg); [by right|by left].
  - (* FDRpend *) destruct (hsusp s) as [e|] eqn:E; [|done]. rewrite (H1 e eq_refl). rewrite !orb_true_iff.
    intros [Ha|Hg]; [left; by apply H2|]. destruct (H3 e (H0 eq_refl) Hg); [by right|by left].
Qed.
Lemma fsat_work_running s c fr : Inv_own s -> fsat s c fr -> workfr fr = true -> running s.(qs) = true.
Proof.
  intros HO (st & Hc & Hin) Hw.
  assert (cntf workfr st > 0) by (apply cntf_pos; by exists fr).
  destruct (runner_working s c st HO Hc) as [H1 H2]; [lia|]. by apply owned_running.
Qed.

Lemma np_same P s s' a old new : stacks s !! a = Some old -> stacks s' = <[a := new]> (stacks s) ->
  cntf P new = cntf P old -> np P s' = np P s.
Proof. intros Ha Hs H. pose proof (np_upd P s s' a old new Ha Hs). lia. Qed.
Lemma np_mono P s s' a old new : stacks s !! a = Some old -> stacks s' = <[a := new]> (stacks s) ->
  cntf P old <= cntf P new -> np P s <= np P s'.
Proof. intros Ha Hs H. pose proof (np_upd P s s' a old new Ha Hs). lia. Qed.

(* w is registered with the unfired event e, or a call of w is in flight *)
Definition reg (s : state) (e : nat) (w : waker) : bool := unfreg s e w || posb (np (is_wake w) s).
Lemma reg_mono s s' e w : (unfreg s e w = true -> unfreg s' e w = true) -> np (is_wake w) s <= np (is_wake w) s' -> reg s e w = true -> reg s' e w = true.
Proof. unfold reg. rewrite !orb_true_iff. intros Hu Hn [?|?]; [left; by apply Hu|right; by eapply posb_mono]. Qed.
Lemma gd_mono s s' e d : (reg s e (WDrain d) = true -> reg s' e (WDrain d) = true) -> (dw_woken s d = true -> dw_woken s' d = true) ->
  gd s e d = true -> gd s' e d = true.
Proof. unfold gd. fold (reg s e (WDrain d)) (reg s' e (WDrain d)). rewrite !orb_true_iff. intros H1 H2 [?|?]; [left; by apply H1|right; by apply H2]. Qed.
(* the runner's obligations look at the registrations and in-flight calls of WakeQueue and WakeThread, at its park token and at
   the guarantee of the DrainWaker it carries: a step that only adds to these keeps them *)
Lemma tview_intro s s' :
  s'.(qs) = s.(qs) -> (forall e, hsusp s = Some e -> hsusp s' = Some e) ->
  (forall e w, w = WQueue \/ (exists c, w = WThread c) -> reg s e w = true -> reg s' e w = true) ->
  (forall c, isrunner s c -> unp s c = true -> unp s' c = true) ->
  (forall e d, np (carries d) s > 0 -> gd s e d = true -> gd s' e d = true) ->
  tview s s'.
Proof.
  intros Hq Hh Hr Hp Hd. split; rewrite ?Hq; try done.
  - unfold awoken. by rewrite Hq.
  - intros e _ H. left. apply (Hr e WQueue); [by left|done].
  - intros c e H. left. apply (Hr e (WThread c)); [right; by eexists|done].
  - intros c Hc _. by apply Hp.
Qed.
Lemma unfreg_evs s s' e w : s'.(evs) = s.(evs) -> unfreg s' e w = unfreg s e w.
Proof. intros H. unfold unfreg, getev. by rewrite H. Qed.
Lemma dw_woken_dws s s' d : s'.(dws) = s.(dws) -> dw_woken s' d = dw_woken s d.
Proof. intros H. unfold dw_woken, getdw. by rewrite H. Qed.
Lemma tokb_toks s s' c : toks s' = toks s -> tokb s' c = tokb s c.
Proof. intros H. unfold tokb. by rewrite H. Qed.

Definition relw (fr : frame) : bool := match fr with FWake _ | FWakeWith _ _ => true | _ => false end.
Lemma cover_same s s' a old new e :
  stacks s !! a = Some old -> stacks s' = <[a := new]> (stacks s) -> List.filter relw new = List.filter relw old ->
  s'.(evs) = s.(evs) -> s'.(dws) = s.(dws) -> s'.(dbl) = s.(dbl) -> cover s' e = cover s e.
Proof.
  intros Ha Hs Hr H1 H2 H3.
  assert (Hnp : forall w, np (is_wake w) s' = np (is_wake w) s).
  { intros w. eapply np_same; [exact Ha|exact Hs|]. rewrite <- (cntf_filter _ relw new), <- (cntf_filter _ relw old), Hr; [done|by intros []|by intros []]. }
  assert (Hew : forall w, effw s' w = effw s w) by (intros []; cbn; try done; unfold dbl_q, getdbl; by rewrite H3).
  assert (Heq : forall w, effq s' w = effq s w).
  { intros []; cbn; try done; [|unfold dbl_q, getdbl; by rewrite H3]. unfold getdw. rewrite H2.
    destruct (default (DWNotWoken, None) (dws s !! d)) as [[] [w|]]; try done. }
  assert (Hgd : forall d, gd s' e d = gd s e d).
  { intros d. unfold gd. by rewrite (unfreg_evs _ _ _ _ H1), Hnp, (dw_woken_dws _ _ _ H2). }
  unfold cover, getev. rewrite H1. f_equal.
  - f_equal. induction (wakers (default ev0 (evs s !! e))) as [|w l IH]; cbn; [done|]. by rewrite Heq, IH.
  - rewrite (exf_ext (cfr s' e) (cfr s e)).
    + unfold exf. rewrite Hs. apply (exf_insert _ _ a old new Ha).
      rewrite <- (existsb_filter (cfr s e) relw old), <- (existsb_filter (cfr s e) relw new) by (by intros []). by rewrite Hr.
    + intros []; cbn; try done. by rewrite Hew, Hgd.
Qed.

Lemma unp_mono s s' c : (tokb s c = true -> tokb s' c = true) -> np (is_unpark c) s <= np (is_unpark c) s' -> unp s c = true -> unp s' c = true.
Proof. unfold unp. rewrite !orb_true_iff. intros Ht Hp [?|?]; [left; by apply Ht|right; by eapply posb_mono]. Qed.

Lemma cover_iff s e : cover s e = true <->
  ((getev s e).(fired) = false /\ exists w, w ∈ (getev s e).(wakers) /\ effq s w = true)
  \/ (exists c w, fsat s c (FWake w) /\ effq s w = true)
  \/ (exists c d w, fsat s c (FWakeWith d w) /\ effw s w = true /\ gd s e d = true).
Proof.
  unfold cover. rewrite orb_true_iff, andb_true_iff, negb_true_iff, existsb_true, exf_true. split.
  - intros [[H1 H2]|(c & fr & Hf & Hc)]; [by left|right].
    destruct fr; try done; cbn in Hc; [right|left]; [|by exists c, w].
    apply andb_true_iff in Hc as [? ?]. by exists c, d, w.
  - intros [H|[(c & w & Hf & He)|(c & d & w & Hf & H1 & H2)]]; [by left| |].
    + right. by exists c, (FWake w).
    + right. exists c, (FWakeWith d w). split; [done|]. cbn. by rewrite H1, H2.
Qed.
Lemma fsat_new s s' a old new fr : stacks s !! a = Some old -> stacks s' = <[a := new]> (stacks s) -> fr ∈ new -> fsat s' a fr.
Proof. intros Ha Hs Hin. exists new. split; [|done]. rewrite Hs, list_lookup_insert; [done|by eapply lookup_lt_Some]. Qed.
Lemma fsat_keep s s' a old new c fr : stacks s !! a = Some old -> stacks s' = <[a := new]> (stacks s) ->
  fsat s c fr -> (c = a -> fr ∈ old -> fr ∈ new) -> fsat s' c fr.
Proof.
  intros Ha Hs (st & Hc & Hin) Hk. destruct (decide (c = a)) as [->|Hne].
  - rewrite Ha in Hc. injection Hc as <-. eapply fsat_new; [exact Ha|exact Hs|by apply Hk].
  - exists st. split; [|done]. by rewrite Hs, list_lookup_insert_ne.
Qed.
Lemma fsat_keep_rest s s' a fr0 rest new c fr : stacks s !! a = Some (fr0 :: rest) -> stacks s' = <[a := new ++ rest]> (stacks s) ->
  fsat s c fr -> fr <> fr0 -> fsat s' c fr.
Proof.
  intros Ha Hs Hf Hne. eapply fsat_keep; [exact Ha|exact Hs|exact Hf|].
  intros _ [->|Hin]%elem_of_cons; [done|]. apply elem_of_app. by right.
Qed.
Lemma np_pos_wake s c w : fsat s c (FWake w) -> posb (np (is_wake w) s) = true.
Proof. intros Hf. apply posb_true, np_pos_fsat. exists c, (FWake w). split; [done|]. cbn. by apply bool_decide_eq_true. Qed.

Lemma effw_same s s' w : s'.(dbl) = s.(dbl) -> effw s' w = effw s w.
Proof. intros H. destruct w; cbn; try done. unfold dbl_q, getdbl. by rewrite H. Qed.
Lemma effq_same s s' w : s'.(dws) = s.(dws) -> s'.(dbl) = s.(dbl) -> effq s' w = effq s w.
Proof.
  intros H1 H2. destruct w; cbn; try done; [|unfold dbl_q, getdbl; by rewrite H2].
  unfold getdw. rewrite H1. destruct (default (DWNotWoken, None) (dws s !! d)) as [[] [w|]]; try done. by apply effw_same.
Qed.
(* the step pops fr0 and pushes pre; wakers of unfired events stay registered, drain/double wakers keep what they reach *)
Lemma cover_keepX s s' a fr0 rest pre e :
  stacks s !! a = Some (fr0 :: rest) -> stacks s' = <[a := pre ++ rest]> (stacks s) ->
  (forall w, (getev s e).(fired) = false -> w ∈ (getev s e).(wakers) -> effq s w = true ->
     (getev s' e).(fired) = false /\ w ∈ (getev s' e).(wakers)) ->
  (forall w, effq s w = true -> effq s' w = true) -> (forall w, effw s w = true -> effw s' w = true) ->
  (forall d, np (carries d) s > 0 -> gd s e d = true -> gd s' e d = true) ->
  (forall w, fr0 = FWake w -> effq s w = true -> cover s' e = true) ->
  (forall d w, fr0 = FWakeWith d w -> effw s w = true -> gd s e d = true -> cover s' e = true) ->
  cover s e = true -> cover s' e = true.
Proof.
  intros Ha Hs H1 H2 H3 Hgd Hw Hww. rewrite (cover_iff s e).
  assert (Hk : forall c fr, fsat s c fr -> fr = fr0 \/ fsat s' c fr).
  { intros c fr (st & Hc & Hin). destruct (decide (c = a)) as [->|Hne]; [|right; exists st; by rewrite Hs, list_lookup_insert_ne].
    rewrite Ha in Hc. injection Hc as <-. apply elem_of_cons in Hin as [->|Hin]; [by left|right].
    eapply fsat_new; [exact Ha|exact Hs|apply elem_of_app; by right]. }
  intros [(Hf & w & Hin & He)|[(c & w & Hf & He)|(c & d & w & Hf & He & Hg)]].
  - apply cover_iff. left. destruct (H1 w Hf Hin He) as [? ?]. split; [done|]. exists w. split; [done|]. by apply H2.
  - destruct (Hk _ _ Hf) as [<-|Hf']; [by eapply Hw|].
    apply cover_iff. right; left. exists c, w. split; [done|]. by apply H2.
  - destruct (Hk _ _ Hf) as [<-|Hf']; [by eapply Hww|].
    apply cover_iff. right; right. exists c, d, w. split; [done|]. split; [by apply H3|]. apply Hgd; [|done].
    apply np_pos_fsat. exists c, (FWakeWith d w). split; [done|]. cbn. by apply bool_decide_eq_true.
Qed.
Lemma cover_keep s s' a fr0 rest pre e :
  stacks s !! a = Some (fr0 :: rest) -> stacks s' = <[a := pre ++ rest]> (stacks s) ->
  s'.(evs) = s.(evs) -> s'.(dws) = s.(dws) -> s'.(dbl) = s.(dbl) ->
  (forall d, np (carries d) s > 0 -> gd s e d = true -> gd s' e d = true) ->
  (forall w, fr0 = FWake w -> effq s w = true -> cover s' e = true) ->
  (forall d w, fr0 = FWakeWith d w -> effw s w = true -> gd s e d = true -> cover s' e = true) ->
  cover s e = true -> cover s' e = true.
Proof.
  intros Ha Hs H1 H2 H3. apply (cover_keepX s s' a fr0 rest pre e Ha Hs).
  - unfold getev. rewrite H1. by intros w ? ? _.
  - intros w. by rewrite (effq_same s s').
  - intros w. by rewrite (effw_same s s').
Qed.

Lemma getdw_setdw_eq s d c : d < length s.(dws) -> getdw (setdw s d c) d = c.
Proof. intros H. unfold getdw, setdw; cbn. by rewrite list_lookup_insert. Qed.
Lemma getdw_setdw_ne s d d2 c : d2 <> d -> getdw (setdw s d c) d2 = getdw s d2.
Proof. intros H. unfold getdw, setdw; cbn. by rewrite list_lookup_insert_ne. Qed.
Lemma getdbl_setdbl_ne s k k2 c : k2 <> k -> getdbl (setdbl s k c) k2 = getdbl s k2.
Proof. intros H. unfold getdbl, setdbl; cbn. by rewrite list_lookup_insert_ne. Qed.
Lemma getdbl_setdbl_none s k : getdbl (setdbl s k None) k = None.
Proof.
  unfold getdbl, setdbl; cbn. destruct (decide (k < length (dbl s))).
  - by rewrite list_lookup_insert.
  - by rewrite lookup_ge_None_2 by (rewrite insert_length; lia).
Qed.
Lemma getdw_lookup s d st slot : getdw s d = (st, slot) -> st <> DWNotWoken -> s.(dws) !! d = Some (st, slot).
Proof. unfold getdw. destruct (dws s !! d) as [x|]; cbn; [by intros ->|]. intros [= <- <-]. done. Qed.
Lemma effq_setdw_ne s d c w : w <> WDrain d -> effq (setdw s d c) w = effq s w.
Proof.
  intros Hw. destruct w as [| |d2| |]; cbn; try done.
  rewrite getdw_setdw_ne by congruence. destruct (getdw s d2) as [[] [w|]]; try done.
Qed.
Lemma effw_effq s w : effw s w = true -> effq s w = true. Proof. by destruct w. Qed.
Lemma effw_setdbl s k w : effw s w = true -> effw (setdbl s k None) w = true \/ dbl_q s k = true.
Proof.
  destruct w as [| | | |k2]; cbn; try (by left). destruct (decide (k2 = k)) as [->|Hne]; [by right|].
  unfold dbl_q. rewrite getdbl_setdbl_ne by done. by left.
Qed.
Lemma effq_setdbl s k w : effq s w = true -> effq (setdbl s k None) w = true \/ dbl_q s k = true.
Proof.
  destruct w as [| |d| |k2]; try apply effw_setdbl. cbn.
  change (getdw (setdbl s k None) d) with (getdw s d). destruct (getdw s d) as [[] [w|]]; try done. apply effw_setdbl.
Qed.
Lemma carried_lt s d : Inv_dw s -> np (carries d) s > 0 -> d < length s.(dws).
Proof. intros [_ I2] H. destruct (decide (d < length (dws s))); [done|]. rewrite I2 in H; lia. Qed.
Lemma dw_woken_setdw_eq s d slot : d < length s.(dws) -> dw_woken (setdw s d (DWWoken, slot)) d = true.
Proof. intros H. unfold dw_woken. by rewrite getdw_setdw_eq. Qed.
Lemma dw_woken_setdw_ne s d d2 c : d2 <> d -> dw_woken (setdw s d c) d2 = dw_woken s d2.
Proof. intros H. unfold dw_woken. by rewrite getdw_setdw_ne. Qed.
Lemma gd_np s s' e d : s'.(evs) = s.(evs) -> s'.(dws) = s.(dws) -> np (is_wake (WDrain d)) s <= np (is_wake (WDrain d)) s' ->
  gd s e d = true -> gd s' e d = true.
Proof.
  intros H1 H2 Hn. apply gd_mono; [apply reg_mono; [by rewrite (unfreg_evs s s')|done]|by rewrite (dw_woken_dws s s')].
Qed.

Lemma getev_setev_ne s e0 e c : e <> e0 -> getev (setev s e0 c) e = getev s e.
Proof. intros H. unfold getev, setev; cbn. by rewrite list_lookup_insert_ne. Qed.
Lemma getev_fired_range s e : (getev s e).(fired) = false -> e < length s.(evs).
Proof. unfold getev. intros H. destruct (evs s !! e) eqn:E; [by eapply lookup_lt_Some|done]. Qed.
Lemma getev_setev_eq s e c : e < length s.(evs) -> getev (setev s e c) e = c.
Proof. intros H. unfold getev, setev; cbn. by rewrite list_lookup_insert. Qed.
Lemma unfreg_register s e w : (getev s e).(fired) = false ->
  unfreg (setev s e (getev s e <| wakers := w :: (getev s e).(wakers) |>)) e w = true.
Proof.
  intros Hf. unfold unfreg. rewrite getev_setev_eq by (by apply getev_fired_range).
  destruct (getev s e) as [fi wk]; cbn in *. rewrite Hf. cbn. apply bool_decide_eq_true. left.
Qed.
Lemma unfreg_reg_mono s e w e' w' : unfreg s e' w' = true ->
  unfreg (setev s e (getev s e <| wakers := w :: (getev s e).(wakers) |>)) e' w' = true.
Proof.
  unfold unfreg. intros [Hf Hin]%andb_true_iff. apply negb_true_iff in Hf. destruct (decide (e' = e)) as [->|Hne].
  - rewrite getev_setev_eq by (by apply getev_fired_range). cbn. rewrite Hf. cbn. apply bool_decide_eq_true in Hin.
    apply bool_decide_eq_true. by right.
  - unfold getev, setev; cbn. rewrite list_lookup_insert_ne by done. fold (getev s e'). by rewrite Hf, Hin.
Qed.
Lemma elem_of_rev {A} (x : A) l : x ∈ l -> x ∈ rev l.
Proof. rewrite !elem_of_list_In. apply in_rev. Qed.
Lemma in_wake_frames w ws : w ∈ ws -> FWake w ∈ wake_frames ws.
Proof. intros H. unfold wake_frames. by apply elem_of_list_fmap_1. Qed.

(* an actor whose top frame is an ordinary caller frame carries no marker *)
Lemma plain_top_not_runner s a fr0 r : Inv_shape s -> stacks s !! a = Some (fr0 :: r) -> chain fr0 = false -> marker fr0 = false ->
  forall c, isrunner s c -> c <> a.
Proof.
  intros HS Hst Hc0 Hm0 c (fr & (st & Hc & Hin) & Hm) ->. rewrite Hst in Hc. injection Hc as <-.
  pose proof (shape_top_plain s a _ _ HS Hst Hc0) as Hz.
  apply elem_of_cons in Hin as [->|Hin]; [congruence|]. by rewrite (cntf_zero_all marker r Hz fr Hin) in Hm.
Qed.
Lemma isrunner_lt s c : isrunner s c -> c < length (stacks s).
Proof. intros (fr & (st & Hc & _) & _). by eapply lookup_lt_Some. Qed.
Lemma tokb_set_eq s c : c < length (stacks s) -> tokb (settoken s c true) c = true.
Proof.
  intros H. unfold tokb. rewrite toks_settoken, list_lookup_insert; [done|].
  unfold toks; rewrite fmap_length. unfold stacks in H. by rewrite fmap_length in H.
Qed.
Lemma tokb_setstack s a st c : tokb (setstack s a st) c = tokb s c.
Proof. unfold tokb. by rewrite toks_setstack. Qed.
Lemma tokb_set_ne s c c0 b : c <> c0 -> tokb (settoken s c0 b) c = tokb s c.
Proof. intros H. unfold tokb. by rewrite toks_settoken, list_lookup_insert_ne. Qed.
Lemma tokb_insert_ne s s' c c0 b : toks s' = <[c0 := b]> (toks s) -> c <> c0 -> tokb s' c = tokb s c.
Proof. intros H Hne. unfold tokb. by rewrite H, list_lookup_insert_ne. Qed.

Ltac cnt_le := cbn; rewrite ?cntf_app, ?cntf_wake_frames, ?cntf_opt_wake, ?cntf_fired_frames by done; cbn; repeat case_bool_decide; simplify_eq; lia.

Lemma top_ok s a fr0 rest : Inv_wake s -> stacks s !! a = Some (fr0 :: rest) -> frame_ok s a fr0 = true.
Proof. intros [IF _] Hst. apply IF. eexists. split; [exact Hst|left]. Qed.
(* the runner steps: only its new frames carry obligations *)
Lemma frames_runner_arm s s' a old new r :
  Inv_own s -> stacks s !! a = Some (old ++ r) -> cntf marker old >= 1 -> stacks s' = <[a := new ++ r]> (stacks s) ->
  (forall fr, fr ∈ new -> frame_ok s' a fr = true) ->
  forall c fr, fsat s' c fr -> frame_ok s' c fr = true.
Proof.
  intros HO Ha Hm Hs Hnew c fr Hf. assert (Hc : cntf marker (old ++ r) >= 1) by (rewrite cntf_app; lia).
  destruct (fsat_upd _ _ _ _ _ _ _ Ha Hs Hf) as [[-> Hin]|[Hne (st & Hst & Hin)]].
  - apply elem_of_app in Hin as [Hin|Hin]; [by apply Hnew|]. apply nonmarker_ok.
    pose proof (runner_once s a _ HO Ha) as H1. rewrite cntf_app in H1. apply (cntf_zero_all marker r); [lia|done].
  - apply nonmarker_ok. by apply (cntf_zero_all marker st (runner_alone s a _ c st HO Ha Hc Hst Hne)).
Qed.
(* the other steps: the runner's frames must stay satisfied, which is what [tview] is for *)
Lemma frames_other_arm s s' a old new r :
  Inv_own s -> (forall c fr, fsat s c fr -> frame_ok s c fr = true) ->
  stacks s !! a = Some (old ++ r) -> stacks s' = <[a := new ++ r]> (stacks s) ->
  (forall fr, fr ∈ new -> frame_ok s' a fr = true) -> (owned s.(qs) = true -> tview s s') ->
  forall c fr, fsat s' c fr -> frame_ok s' c fr = true.
Proof.
  intros HO HI Ha Hs Hnew Htv c fr Hf.
  destruct (marker fr) eqn:Hm; [|by apply nonmarker_ok].
  assert (Hold : fsat s c fr -> frame_ok s' c fr = true).
  { intros Hf'. eapply frame_ok_transfer; [apply Htv; by eapply fsat_marker_owned|exact Hf'|by exists fr| |by apply HI].
    intros Hw. by eapply fsat_work_running. }
  destruct (fsat_upd _ _ _ _ _ _ _ Ha Hs Hf) as [[-> Hin]|[Hne Hf']]; [|by apply Hold].
  apply elem_of_app in Hin as [Hin|Hin]; [by apply Hnew|]. apply Hold. exists (old ++ r). split; [done|]. apply elem_of_app. by right.
Qed.

(* a step of an actor that does not run the queue and leaves queue state and jobs alone: enough that everything the invariant
   looks at only grows *)
Lemma wake_mono s s' a old new r :
  Inv_own s -> Inv_wake s -> stacks s !! a = Some (old ++ r) -> stacks s' = <[a := new ++ r]> (stacks s) ->
  (forall fr, fr ∈ new -> frame_ok s' a fr = true) -> (owned s.(qs) = true -> tview s s') ->
  s'.(qs) = s.(qs) -> s'.(jobs) = s.(jobs) -> (forall e, cover s e = true -> cover s' e = true) ->
  np is_rq1 s <= np is_rq1 s' -> np is_push s + s.(insched) <= np is_push s' + s'.(insched) -> Inv_wake s'.
Proof.
  intros HO [IF IQ] Ha Hs Hnew Htv Hq Hj Hc Hr Hp. split; [by eapply frames_other_arm|by eapply (queue_ok_mono s)].
Qed.

Definition usedw (w : waker) : bool := match w with WQueue | WThread _ | WDrain _ => true | _ => false end.
(* [tview] for a step that leaves queue state, jobs, events, drain wakers and tokens alone and only adds waker calls and unparks *)
Lemma tview_grow s s' :
  s'.(qs) = s.(qs) -> s'.(jobs) = s.(jobs) -> s'.(evs) = s.(evs) -> s'.(dws) = s.(dws) -> toks s' = toks s ->
  (forall w, usedw w = true -> np (is_wake w) s <= np (is_wake w) s') -> (forall c, np (is_unpark c) s <= np (is_unpark c) s') ->
  tview s s'.
Proof.
  intros Hq Hj He Hd Ht Hw Hu. apply tview_intro; [done|by rewrite (hsusp_jobs _ _ Hj)| | |].
  - intros e w Hw'. apply reg_mono; [by rewrite (unfreg_evs s s')|apply Hw]. by destruct Hw' as [->|[c ->]].
  - intros c _. apply unp_mono; [by rewrite (tokb_toks s s')|done].
  - intros e d _. apply gd_np; [done|done|by apply Hw].
Qed.

(* [tview] for a step that touches nothing the wake invariant reads *)
Lemma tview_quiet s s' : qview s s' -> s'.(qs) = s.(qs) -> (forall e, hsusp s = Some e -> hsusp s' = Some e) -> tview s s'.
Proof.
  intros Q Hq Hh. apply tview_intro; [done|done| | |].
  - intros e w _. unfold reg. by rewrite (q_unfreg _ _ Q), (q_npwake _ _ Q).
  - intros c _. unfold unp. by rewrite (q_tokb _ _ Q), (q_npunpark _ _ Q).
  - intros e d _. by rewrite (q_gd _ _ Q).
Qed.

(* the components of the new state the wake invariant reads, as hypotheses Hst Hs Hg Eq Ej Ei Eev Edw Edb Etk *)
Ltac astep_open A :=
  destruct A as (Hst & Hs & Hg & [Eq Ej Ei Eev _ Edw Edb _ _ Etk _ _]);
  cbn [arm_old arm_new arm_guard arm_qs arm_jobs arm_insched arm_evs arm_dws arm_dbl arm_toks] in Hst, Hs, Hg, Eq, Ej, Ei, Eev, Edw, Edb, Etk.
