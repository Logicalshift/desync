(* The five ORDER FACTS of Model.v (ffacts) are needed: with one of them false - the variant order of [stepF] - a property of this
   layer fails.  Each refutation is a concrete run of the variant model under the GENERATED tables (vm_compute).  The slips are
   the ones independent mutation authors made in the Rust source; all of them pass the crate's own test suite. *)
From stdpp Require Import list numbers option.
From RecordUpdate Require Import RecordUpdate.
From L2 Require Import Model Base Own Jobs Wake WakeInv Term Complete Waiter WaiterTerm GenTables Sim Inst Facts Main.
From Gen Require Import Tables.

Definition enabled_listF (F : ffacts) (s : state) : list nat :=
  filter (fun a => bool_decide (is_Some (stepF F G s a)) = true) (seq 0 (nact s)).
Lemma terminalF_check F s : enabled_listF F s = [] -> terminalF F G s.
Proof. exact (no_enabled_none (stepF F G s) (nact s) (stepF_oob F G s)). Qed.

Definition wake_with_before_park : ffacts :=
  {| f_park_before_wake_with := false; f_requeue_before_park := true; f_future_drop_inert := true; f_wake_thread_unparks_always := true;
     f_syncfuture_state_dropped_first := true |}.
Definition requeue_after_wake_with : ffacts :=
  {| f_park_before_wake_with := true; f_requeue_before_park := false; f_future_drop_inert := true; f_wake_thread_unparks_always := true;
     f_syncfuture_state_dropped_first := true |}.
Definition future_drop_resets_state : ffacts :=
  {| f_park_before_wake_with := true; f_requeue_before_park := true; f_future_drop_inert := false; f_wake_thread_unparks_always := true;
     f_syncfuture_state_dropped_first := true |}.
Definition unpark_only_if_parked : ffacts :=
  {| f_park_before_wake_with := true; f_requeue_before_park := true; f_future_drop_inert := true; f_wake_thread_unparks_always := false;
     f_syncfuture_state_dropped_first := true |}.

(* ---------- (a) f_park_before_wake_with ----------
   Caller 0 schedules a future operation (op 0 awaits event 0), polls the future once and drops it; caller 1 fires event 0; one
   pool thread.  The poll drains the queue itself: op 0 starts, registers its DrainWaker with event 0 and returns Pending.  Caller 1
   fires the event during the rest of that poll: the DrainWaker is only marked Woken.  The variant calls wake_with BEFORE writing the
   parked state: the DoubleWaker runs at once, WakeQueue finds the state still Running and only marks AwokenWhileRunning
   (reschedule_queue does nothing), the task waker unparks a task that is about to be dropped; THEN the state is overwritten with
   WaitingForPoll 0.  The future is dropped, nobody polls it again, nothing is in the schedule: the queue wake-up is lost.  All
   events are fired, no actor is enabled, the pool thread is idle - and op 0 is still in the queue, started and never finished. *)
Theorem C06_needs_park_before_wake_refuted :
  exists scripts npool nev tr s, npool >= 1 /\ runF wake_with_before_park G (init scripts npool nev) tr = Some s /\
    terminalF wake_with_before_park G s /\ all_fired s /\
    s.(qs) = WaitingForPoll 0 /\ s.(jobs) <> [] /\ GPush 0 ∈ s.(log) /\ GStart 0 ∈ s.(log) /\ GFinish 0 ∉ s.(log).
Proof.
  exists [[OFuture [PAwait 0] (UDropAfter 1)]; [OFire 0]], 1, 1,
    [0; 0; 0; 0; 0; 1; 0; 0; 0; 0; 0; 1; 1; 2; 0; 0; 0; 0; 0; 0; 0; 0; 0; 0; 0]. eexists.
  split; [lia|]. split; [vm_compute; reflexivity|]. split; [apply terminalF_check; vm_compute; reflexivity|].
  split; [apply all_fired_check; vm_compute; reflexivity|]. cbn.
  split; [reflexivity|]. split; [done|]. rewrite !elem_of_cons, elem_of_nil. split; [auto|]. split; [auto|]. intros [Hx|[Hx|Hx%elem_of_nil]]; done.
Qed.
Corollary C06_terminal_needs_park_before_wake : ~ C06_terminal_pool_F wake_with_before_park.
Proof.
  intros H. destruct C06_needs_park_before_wake_refuted as (sc & np & nev & tr & s & Hn & Hr & Ht & Hf & Hq & _).
  destruct (H G gen_all_cond sc np nev tr s Hn Hr Ht Hf) as (Hi & _). rewrite Hq in Hi. discriminate Hi.
Qed.
Print Assumptions C06_needs_park_before_wake_refuted.
Print Assumptions C06_terminal_needs_park_before_wake.

(* ---------- (b) f_requeue_before_park ----------
   Caller 0 schedules a future operation (op 0: await event 0, then one more step) and awaits the future; caller 2 schedules a plain
   operation (op 1) behind it; caller 1 fires event 0; one pool thread.  Caller 0's poll drains the queue: op 0 starts, registers
   with event 0, returns Pending; the event fires during the rest of the poll (DrainWaker Woken).  The variant keeps op 0 in hand
   ([FDQlate]) while it stores the task waker, writes WaitingForPoll 0 and calls wake_with: the DoubleWaker runs at once, WakeQueue
   finds WaitingForPoll and reschedule_queue pushes the queue on the schedule; the pool thread takes the queue over
   (WaitingForPoll -> Running) while the suspended op 0 is OFF the queue, dequeues the only job there - op 1 - and runs it: Start 1,
   Finish 1 between Start 0 and Finish 0.  Only then is op 0 put back. *)
Theorem C01_needs_requeue_before_park_refuted :
  exists scripts npool nev tr s, runF requeue_after_wake_with G (init scripts npool nev) tr = Some s /\
    exists l1 l2 o o', s.(log) = l1 ++ GStart o :: l2 /\ GFinish o ∉ l1 /\ GStart o' ∈ l1.
Proof.
  exists [[OFuture [PAwait 0; PTouch] UAwait]; [OFire 0]; [ODesync]], 1, 1,
    [0; 0; 1; 0; 0; 0; 0; 2; 2; 0; 0; 0; 1; 1; 0; 3; 0; 0; 0; 0; 0; 0; 0; 0; 3; 0; 3; 0; 0; 3]. eexists.
  split; [vm_compute; reflexivity|]. cbn. exists [GFinish 1; GStart 1], [GPush 1; GPush 0], 0, 1.
  split; [reflexivity|]. split; [rewrite !not_elem_of_cons; repeat split; [done..|apply not_elem_of_nil]|].
  right. left.
Qed.
Corollary C01_exclusive_needs_requeue_before_park : ~ C01_exclusive_F requeue_after_wake_with.
Proof.
  intros H. destruct C01_needs_requeue_before_park_refuted as (sc & np & nev & tr & s & Hr & l1 & l2 & o & o' & Hl & Hf & Hs).
  destruct (H G (ac_own _ gen_all_cond) (ac_jobs _ gen_all_cond) sc np nev tr s Hr) as [_ H3]. exact (H3 l1 l2 o Hl Hf o' Hs).
Qed.
Print Assumptions C01_needs_requeue_before_park_refuted.
Print Assumptions C01_exclusive_needs_requeue_before_park.

(* ---------- (c) f_future_drop_inert ----------
   Caller 0 schedules a future operation (op 1: await event 0, then two more steps), polls the future once and drops it; caller 2
   schedules a plain operation (op 0); caller 1 fires event 0; two pool threads.  The poll drains the queue: op 1 starts and
   suspends on event 0 (op 0 is pushed behind it meanwhile); the queue is left in WaitingForPoll 0 - the variant's `draining` flag is set.  The event has
   fired: the DoubleWaker runs, reschedule_queue pushes the queue on the schedule and pool thread 3 takes it over
   (WaitingForPoll -> Running; the flag is NOT cleared) and resumes op 1.  Now caller 0 drops the future: the variant's Drop
   writes Idle over Running and calls reschedule_queue (op 0 of caller 2 is in the queue): Pending, a second schedule entry; pool
   thread 4 takes it and runs op 0 while pool thread 3 is in the middle of op 1: two runners at once, Start 0 between Start 1
   and Finish 1. *)
Theorem C01_needs_inert_future_drop_refuted :
  exists scripts npool nev tr s, runF future_drop_resets_state G (init scripts npool nev) tr = Some s /\
    (exists a b sa sb, a <> b /\ stacks s !! a = Some sa /\ stacks s !! b = Some sb /\ cntf marker sa >= 1 /\ cntf marker sb >= 1) /\
    exists l1 l2 o o', s.(log) = l1 ++ GStart o :: l2 /\ GFinish o ∉ l1 /\ GStart o' ∈ l1.
Proof.
  exists [[OFuture [PAwait 0; PTouch; PTouch] (UDropAfter 1)]; [OFire 0]; [ODesync]], 2, 1,
    [2; 0; 0; 0; 0; 0; 0; 3; 0; 0; 0; 2; 1; 0; 1; 1; 0; 0; 0; 0; 0; 0; 0; 0; 0; 3; 3; 0; 0; 0; 0; 4; 3; 4; 4]. eexists.
  split; [vm_compute; reflexivity|]. split.
  - exists 3, 4. eexists _, _. split; [done|]. split; [vm_compute; reflexivity|]. split; [vm_compute; reflexivity|]. cbn. lia.
  - cbn. exists [GFinish 0; GStart 0; GPush 0], [GPush 1], 1, 0.
    split; [reflexivity|]. split; [rewrite !not_elem_of_cons; repeat split; [done..|apply not_elem_of_nil]|]. right. left.
Qed.
Corollary C01_exclusive_needs_inert_future_drop : ~ C01_exclusive_F future_drop_resets_state.
Proof.
  intros H. destruct C01_needs_inert_future_drop_refuted as (sc & np & nev & tr & s & Hr & (a & b & sa & sb & Hne & Ha & Hb & Hma & Hmb) & _).
  destruct (H G (ac_own _ gen_all_cond) (ac_jobs _ gen_all_cond) sc np nev tr s Hr) as [H2 _]. exact (Hne (H2 a b sa sb Ha Hb Hma Hmb)).
Qed.
Print Assumptions C01_needs_inert_future_drop_refuted.
Print Assumptions C01_exclusive_needs_inert_future_drop.

(* ---------- (d) f_wake_thread_unparks_always ----------
   Caller 0 schedules two detached future operations: op 0 awaits EITHER event 0 or event 1, op 2 awaits event 2.  Callers 1 (A)
   and 2 (B) each call sync; caller 3 fires events 0, 1, 2; one pool thread, which only ever finds the queue taken.
   A's sync runs the queue on its own thread: it polls op 0 with its WakeThread waker, which is registered with events 0 AND 1,
   and parks (WaitingForUnpark).  Event 0 fires: A is woken, op 0 and A's own job complete, A returns - its waker is still
   registered with event 1.  Caller 0 schedules op 2; B's sync polls it (WakeThread B registered with event 2) and parks.
   Event 1 fires: the STALE WakeThread A finds WaitingForUnpark, writes Running and unparks A (nobody).  Event 2 fires: WakeThread B
   finds Running, writes AwokenWhileRunning - and the variant does NOT unpark B because the state it found was not
   WaitingForUnpark.  All events are fired, no actor is enabled, B is parked for ever in run_one_job_now, op 2 never finishes,
   B's own job is still in the queue. *)
Theorem C06_needs_unconditional_unpark_refuted :
  exists scripts npool nev tr s, npool >= 1 /\ runF unpark_only_if_parked G (init scripts npool nev) tr = Some s /\
    terminalF unpark_only_if_parked G s /\ all_fired s /\
    s.(qs) = AwokenWhileRunning /\ s.(jobs) <> [] /\ GStart 2 ∈ s.(log) /\ GFinish 2 ∉ s.(log) /\
    exists j rest, stacks s !! 2 = Some (FROpark j :: rest).
Proof.
  exists [[OFuture [PAwaitEither 0 1] UDetach; OFuture [PAwait 2] UDetach]; [OSync]; [OSync]; [OFire 0; OFire 1; OFire 2]], 1, 3,
    [0; 0; 0; 0; 1; 1; 1; 1; 1; 1; 1; 1; 1; 3; 3; 3; 3; 1; 1; 1; 1; 1; 1; 1; 1; 1; 1; 1; 0; 0; 0; 0; 2; 2; 2; 2; 2; 2; 2; 2; 2;
     3; 3; 3; 3; 3; 3; 3; 4; 4]. eexists.
  split; [lia|]. split; [vm_compute; reflexivity|]. split; [apply terminalF_check; vm_compute; reflexivity|].
  split; [apply all_fired_check; vm_compute; reflexivity|]. cbn.
  split; [reflexivity|]. split; [done|]. split; [rewrite !elem_of_cons; auto|].
  split; [rewrite !not_elem_of_cons; repeat split; [done..|apply not_elem_of_nil]|]. eexists _, _. vm_compute. reflexivity.
Qed.
Corollary C06_terminal_needs_unconditional_unpark : ~ C06_terminal_pool_F unpark_only_if_parked.
Proof.
  intros H. destruct C06_needs_unconditional_unpark_refuted as (sc & np & nev & tr & s & Hn & Hr & Ht & Hf & Hq & _).
  destruct (H G gen_all_cond sc np nev tr s Hn Hr Ht Hf) as (Hi & _). rewrite Hq in Hi. discriminate Hi.
Qed.
(* the same schedule with the code's facts: B is unparked (and the run goes on to completion) *)
Example unconditional_unpark_same_schedule_code :
  exists s, runF code_ffacts G (init [[OFuture [PAwaitEither 0 1] UDetach; OFuture [PAwait 2] UDetach]; [OSync]; [OSync]; [OFire 0; OFire 1; OFire 2]] 1 3)
    [0; 0; 0; 0; 1; 1; 1; 1; 1; 1; 1; 1; 1; 3; 3; 3; 3; 1; 1; 1; 1; 1; 1; 1; 1; 1; 1; 1; 0; 0; 0; 0; 2; 2; 2; 2; 2; 2; 2; 2; 2;
     3; 3; 3; 3; 3; 3; 3; 3; 4; 4] = Some s /\ (toks s) !! 2 = Some true.
Proof. eexists. split; [vm_compute; reflexivity|]. vm_compute. reflexivity. Qed.
Print Assumptions C06_needs_unconditional_unpark_refuted.
Print Assumptions C06_terminal_needs_unconditional_unpark.

(* ---------- F6: claim_pending_queue must accept WaitingForPoll ----------
   The table of claim_pending_queue as it was before the repair d110293 (the generated row is now `WaitingForPoll f => Some Running`). *)
Definition claim_old (st : qstate) : option qstate := match st with Pending | Idle => Some Running | _ => None end.
Definition old_claim_tables : ftables :=
  let B := gen_ftables.(ft_base) in
  {| ft_base := {| t_desync := B.(t_desync); t_sync := B.(t_sync); t_trysync := B.(t_trysync); t_resched := B.(t_resched); t_next := B.(t_next);
                   t_claim := claim_old; t_dequeue_refuses := B.(t_dequeue_refuses); t_drain_fin := B.(t_drain_fin) |};
     t_poll := gen_ftables.(t_poll); t_drain_pend := gen_ftables.(t_drain_pend); t_roj_pend := gen_ftables.(t_roj_pend);
     t_roj_park := gen_ftables.(t_roj_park); t_wake_queue := gen_ftables.(t_wake_queue); t_wake_thread := gen_ftables.(t_wake_thread);
     t_dw_wake := gen_ftables.(t_dw_wake); t_dw_wake_with := gen_ftables.(t_dw_wake_with) |}.
Definition enabled_listT (T : ftables) (s : state) : list nat :=
  filter (fun a => bool_decide (is_Some (step T s a)) = true) (seq 0 (nact s)).
Lemma terminal_checkT T s : enabled_listT T s = [] -> terminal T s.
Proof. exact (no_enabled_none (step T s) (nact s) (step_oob T s)). Qed.
(* every OTHER table condition of the layer holds for the old table: none of the earlier theorems could see the defect, because the
   waiter of sync_background was abstract ("somebody else runs my job") *)
Lemma old_claim_all_cond : all_cond old_claim_tables.
Proof.
  destruct gen_all_cond as [[] [] []]. split; split; try assumption.
  intros st st' H. destruct st; inversion H; subst; cbn; intuition congruence.
Qed.
Lemma old_claim_not_claim_cond : ~ claim_cond old_claim_tables.
Proof. intros [_ _ H _ _]. specialize (H 0). discriminate H. Qed.

(* Caller 0 schedules a future operation (op 0 awaits event 0), polls the future once and drops it, then calls sync; caller 1
   fires event 0; NO pool thread.  The poll drains the queue itself, op 0 suspends, the queue is left in WaitingForPoll 0; the
   future is dropped.  sync finds the queue busy: sync_background registers as a waiter, queues its job, tries to claim the queue
   (its `rescheduled` flag starts out set) - the old table refuses WaitingForPoll - and waits.  Caller 1 fires the event: DrainWaker,
   DoubleWaker, WakeQueue, reschedule_queue: the waiter is kicked and the queue is put into the schedule, twice by now; the waiter
   tries again, is refused again and waits for ever: nobody takes the schedule entries.  All events are fired, no actor is
   enabled, caller 0 is still inside sync. *)
Theorem C04_needs_waiter_takeover_refuted :
  exists tr s, run old_claim_tables (init [[OFuture [PAwait 0] (UDropAfter 1); OSync]; [OFire 0]] 0 1) tr = Some s /\
    terminal old_claim_tables s /\ all_fired s /\
    s.(qs) = WaitingForPoll 0 /\ s.(insched) > 0 /\ stacks s !! 0 = Some [FSBwait; FTop []] /\ GStart 0 ∈ s.(log) /\ GFinish 0 ∉ s.(log).
Proof.
  exists [0; 0; 0; 0; 0; 0; 0; 0; 0; 0; 0; 0; 0; 0; 0; 0; 0; 0; 0; 0; 0; 0; 1; 1; 1; 1; 1; 1; 0; 0; 1; 1; 1]. eexists.
  split; [vm_compute; reflexivity|]. split; [apply terminal_checkT; vm_compute; reflexivity|].
  split; [apply all_fired_check; vm_compute; reflexivity|]. cbn.
  split; [reflexivity|]. split; [lia|]. split; [vm_compute; reflexivity|].
  split; [rewrite !elem_of_cons; auto|]. rewrite !not_elem_of_cons; repeat split; [done..|apply not_elem_of_nil].
Qed.
(* the sync-returns theorem needs the claim condition: it fails for tables that satisfy every other condition *)
Corollary C04_sync_returns_needs_claim_cond :
  ~ (forall T, all_cond T -> forall scripts npool nev tr s, run T (init scripts npool nev) tr = Some s -> terminal T s -> all_fired s ->
       forall c st, stacks s !! c = Some st -> st = [FTop []] \/ st = [FPIdle] \/ exists f rest, st = FPark f :: rest).
Proof.
  intros H. destruct C04_needs_waiter_takeover_refuted as (tr & s & Hr & Ht & Hf & _ & _ & Hc & _).
  destruct (H _ old_claim_all_cond _ _ _ _ _ Hr Ht Hf 0 _ Hc) as [?|[?|(f & rest & ?)]]; done.
Qed.
(* the same program under the generated table (after the repair): the waiter takes the queue over, resumes op 0 on its own thread
   (parked in run_one_job_now until caller 1 fires the event), runs its own job and returns *)
Example waiter_takeover_generated_table :
  exists tr s, run G (init [[OFuture [PAwait 0] (UDropAfter 1); OSync]; [OFire 0]] 0 1) tr = Some s /\
    terminal G s /\ all_fired s /\ s.(qs) = Idle /\ s.(jobs) = [] /\ stacks s !! 0 = Some [FTop []] /\ GFinish 0 ∈ s.(log) /\ GFinish 1 ∈ s.(log).
Proof.
  exists [0; 0; 0; 0; 0; 0; 0; 0; 0; 0; 0; 0; 0; 0; 0; 0; 0; 0; 0; 0; 0; 0; 0; 0; 0; 0; 0; 1; 1; 1; 1; 1; 1; 1; 0; 0; 1; 1; 0; 0; 0; 0; 0; 0; 0; 0;
          0; 0; 0; 0; 0; 0]. eexists.
  split; [vm_compute; reflexivity|]. split; [apply terminal_checkT; vm_compute; reflexivity|].
  split; [apply all_fired_check; vm_compute; reflexivity|]. cbn.
  split; [reflexivity|]. split; [reflexivity|]. split; [vm_compute; reflexivity|]. rewrite !elem_of_cons. auto 10.
Qed.
(* ---------- candidate finding (the same refusal in SchedulerFuture::poll): await after a dropped draining future, no pool thread ----------
   With the GENERATED tables (after the repair of F6).  Caller 0 polls a future once - the poll drains the queue, op 0 suspends on
   event 0, the queue is left in WaitingForPoll 0 - and drops it; then it schedules a second future operation and AWAITS it: poll
   finds WaitingForPoll of ANOTHER future, stores its waker and waits (the poll table refuses that state just as claim_pending_queue
   did before the repair).  Caller 1 fires the event: the queue is woken and put into the schedule, the task is unparked by the
   DoubleWaker, re-polls, is refused again and parks.  No pool thread: nobody takes the queue.  All events fired, no actor enabled,
   caller 0 parked for ever.  So zero-pool progress of a caller that both drops and awaits futures does NOT hold (the theorems
   cover callers that only await - C06_zero_pool_full - and callers that never await - C06_zero_pool_sync_full).
   On the real crate: `nq=1 pool=0 ev=1 | F0[w0t]k1 F0[t]a | E0` deadlocks in 10 of 60 schedules (commit d110293). *)
Theorem zero_pool_await_after_drop_refuted :
  exists tr s, run G (init [[OFuture [PAwait 0] (UDropAfter 1); OFuture [] UAwait]; [OFire 0]] 0 1) tr = Some s /\
    terminal G s /\ all_fired s /\ s.(qs) = WaitingForPoll 0 /\ s.(insched) > 0 /\ stacks s !! 0 = Some [FPark 1; FTop []].
Proof.
  exists [0; 0; 0; 0; 0; 0; 0; 0; 0; 0; 0; 0; 0; 0; 0; 0; 0; 0; 0; 0; 0; 1; 1; 1; 1; 1; 1; 1; 1; 1; 0; 0; 0]. eexists.
  split; [vm_compute; reflexivity|]. split; [apply terminal_checkT; vm_compute; reflexivity|].
  split; [apply all_fired_check; vm_compute; reflexivity|]. cbn. split; [reflexivity|]. split; [lia|]. vm_compute. reflexivity.
Qed.
Print Assumptions zero_pool_await_after_drop_refuted.
Print Assumptions C04_needs_waiter_takeover_refuted.
Print Assumptions C04_sync_returns_needs_claim_cond.
Print Assumptions waiter_takeover_generated_table.

(* ---------- (e) f_syncfuture_state_dropped_first (C08, field order of SyncFuture) ----------
   Caller 0 calls future_sync (user future awaits event 0, never fired), polls twice and drops; caller 1 schedules a desync behind it;
   one pool thread.  With the fields of SyncFuture declared the other way round (`task_finished` before `state`), the drop sends
   Canceled to the slot job FIRST: the pool thread finishes the slot job and starts caller 1's operation while the user future of
   caller 0 - which holds `&mut T` - is still alive (it is destroyed only afterwards). *)
Definition task_finished_dropped_first : ffacts :=
  {| f_park_before_wake_with := true; f_requeue_before_park := true; f_future_drop_inert := true; f_wake_thread_unparks_always := true;
     f_syncfuture_state_dropped_first := false |}.
Definition C08_4_swapped_field_order_violation : Prop :=
  exists tr s l2 l1, runF task_finished_dropped_first G (init [[OFutSync [PAwait 0] (UDropAfter 2)]; [ODesync]] 1 1) tr = Some s /\
    s.(log) = l2 ++ GStart 1 :: l1 /\ GYnew 0 0 1 ∈ l1 /\ GUStart 0 ∈ l1 /\ GUCancel 0 ∉ l1 /\ GUFinish 0 ∉ l1 /\ GFinish 0 ∈ l1.
Theorem C08_4_field_order_needed_refuted : C08_4_swapped_field_order_violation.
Proof.
  exists ([0; 1; 0; 0; 0; 0; 0; 0; 2; 0; 0; 0; 1; 0; 0; 0; 0; 0; 0; 0; 0; 0; 0; 0; 0; 0; 0; 0; 0; 0; 0; 0; 0; 0; 2; 2; 0; 2; 2; 2; 2; 2] ++ [2; 2; 2; 2]).
  eexists. exists [GFinish 1], [GFinish 0; GSig 0 0; GUStart 0; GPush 1; GStart 0; GPush 0; GYnew 0 0 1].
  split; [vm_compute; reflexivity|]. split; [vm_compute; reflexivity|].
  rewrite !elem_of_cons, !elem_of_nil. split; [tauto|]. split; [tauto|].
  split; [intros H; repeat (destruct H as [H|H]; [discriminate H|]); done|].
  split; [intros H; repeat (destruct H as [H|H]; [discriminate H|]); done|tauto].
Qed.
Print Assumptions C08_4_field_order_needed_refuted.
