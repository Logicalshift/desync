(* non-vacuity: the hypotheses of the main theorems are met by concrete, non-trivial runs under the GENERATED tables *)
From stdpp Require Import list numbers option.
From L2 Require Import Model Facts GenTables Sim Base Own Jobs Fut Wake WakeInv Term Susp Inst YDefs YThm Main.

Lemma terminal_check s : enabled_list s = [] -> terminal G s.
Proof. exact (no_enabled_none (step G s) (nact s) (step_oob G s)). Qed.

(* first state along a pseudo-random run that satisfies p, with the trace leading to it *)
Fixpoint rfind (p : state -> bool) (fuel : nat) (seed : N) (s : state) (acc : list nat) : option (state * list nat) :=
  if p s then Some (s, rev acc) else
  match fuel with
  | 0 => None
  | S n => match enabled_list s with
           | [] => None
           | en => let seed' := ((seed * 1103 + 12345) mod 65521)%N in
                   let a := default 0 (en !! (N.to_nat ((seed' / 7) mod N.of_nat (length en))%N)) in
                   match step G s a with Some s' => rfind p n seed' s' (a :: acc) | None => None end
           end
  end.

(* C06_terminal: pool context, the future job awaits event 0 (fired by another caller at a random moment), a desync behind it *)
Example C06_terminal_nonvacuous :
  exists tr s, run G (init P1 1 1) tr = Some s /\ terminal G s /\ all_fired s /\ length s.(log) >= 6.
Proof.
  destruct (final P1 1 1 3) as [[s tr] b] eqn:E. exists tr, s. vm_compute in E. injection E as <- <- _.
  split; [vm_compute; reflexivity|]. split; [apply terminal_check; vm_compute; reflexivity|].
  split; [apply all_fired_check; vm_compute; reflexivity|vm_compute; lia].
Qed.
(* ... and the same for the sync caller and the polling task as the runner, without any pool thread for the poller's run *)
Example C06_terminal_nonvacuous_sync :
  exists tr s, run G (init (P2 ++ [[OSync]]) 1 1) tr = Some s /\ terminal G s /\ all_fired s.
Proof.
  destruct (final (P2 ++ [[OSync]]) 1 1 5) as [[s tr] b] eqn:E. exists tr, s. vm_compute in E. injection E as <- <- _.
  split; [vm_compute; reflexivity|]. split; [apply terminal_check; vm_compute; reflexivity|apply all_fired_check; vm_compute; reflexivity].
Qed.

(* C13 / C01: a reachable state in which the suspend job is parked on its resume event, queue parked in WaitingForWake *)
Definition is_parked (s : state) : bool :=
  match s.(jobs), s.(qs) with JFut _ Waiting (PAwait 0 :: _) :: _, WaitingForWake => true | _, _ => false end.
Example C13_nonvacuous :
  exists tr s os, run G (init P6 1 1) tr = Some s /\ parked_on s os 0 /\ s.(qs) = WaitingForWake.
Proof.
  destruct (rfind is_parked 400 0%N (init P6 1 1) []) as [[s tr]|] eqn:E; [|vm_compute in E; discriminate].
  exists tr, s. vm_compute in E. injection E as <- <-. eexists.
  split; [vm_compute; reflexivity|]. split; [|vm_compute; reflexivity].
  eexists. right. split; [vm_compute; reflexivity|]. eexists. vm_compute. reflexivity.
Qed.

(* ---------- where the line of "when no other context is using the object" runs (C06/C07, zero pool threads) ----------
   Caller 0 suspends the queue and awaits the suspension (its poll drains the queue: the suspend job signals, then waits for the resumer:
   the poll returns Ready and leaves the queue parked in WaitingForWake with the DrainWaker pointing at WakeQueue).  It then schedules a
   second future and awaits it: poll sees WaitingForWake, stores the task waker and returns Pending (Wait arm).  Caller 1 now resumes
   (fires event 0): DrainWaker -> WakeQueue -> Idle -> reschedule_queue -> Pending, one entry in the schedule - and no pool thread to take
   it.  The task is never polled again.  All events are fired, no actor is enabled, caller 0 has not finished. *)
Fixpoint frun (fuel : nat) (s : state) (acc : list nat) : state * list nat :=
  match fuel with
  | 0 => (s, rev acc)
  | S n => match enabled_list s with
           | [] => (s, rev acc)
           | a :: _ => match step G s a with Some s' => frun n s' (a :: acc) | None => (s, rev acc) end
           end
  end.
Definition Pz := [[OSuspend 0 UAwait; OFuture [] UAwait]; [OFire 0]].
Example C06_zero_pool_needs_side_condition_refuted : ~ C06_zero_pool_any_script.
Proof.
  intros H. pose (r := frun 200 (init Pz 0 1) []).
  assert (Hrun : run G (init Pz 0 1) r.2 = Some r.1) by (vm_compute; reflexivity).
  assert (Ht : terminal G r.1) by (apply terminal_check; vm_compute; reflexivity).
  assert (Hf : all_fired r.1) by (apply all_fired_check; vm_compute; reflexivity).
  specialize (H G gen_all_cond _ [[OFire 0]] 1 r.2 r.1 ltac:(repeat constructor) Hrun Ht Hf).
  vm_compute in H. discriminate H.
Qed.
(* the stuck state: the queue is Pending with one schedule entry, the task is parked on its second future *)
Example C06_zero_pool_stuck_state :
  let s := (frun 200 (init Pz 0 1) []).1 in
  s.(qs) = Pending /\ s.(insched) = 2 /\ stacks s !! 0 = Some [FPark 2; FTop []] /\ length s.(jobs) = 2.
Proof. vm_compute. done. Qed.
(* the hypotheses of C06_zero_pool_full are satisfiable: a run of the generated tables in which the awaiting caller is parked on a
   future whose job waits for event 0 (the queue is in WaitingForPoll), is woken through the DoubleWaker when caller 1 fires the
   event, drains the queue itself and finishes *)
Definition Pz_ok := [[ODesync; OFuture [PAwait 0; PTouch] UAwait; OFuture [] UDetach]; [OFire 0]].
Example C06_zero_pool_nonvacuous :
  exists tr s, await_only [ODesync; OFuture [PAwait 0; PTouch] UAwait; OFuture [] UDetach] /\ Forall fire_only [[OFire 0]] /\
    run G (init Pz_ok 0 1) tr = Some s /\ terminal G s /\ all_fired s /\ stacks s !! 0 = Some [FTop []] /\
    (exists tr1 s1, run G (init Pz_ok 0 1) tr1 = Some s1 /\ s1.(qs) = WaitingForPoll 0 /\ exists rest, stacks s1 !! 0 = Some (FPark 0 :: rest)).
Proof.
  pose (r := frun 200 (init Pz_ok 0 1) []). exists r.2, r.1.
  split; [repeat constructor|]. split; [repeat constructor|].
  split; [vm_compute; reflexivity|]. split; [apply terminal_check; vm_compute; reflexivity|].
  split; [apply all_fired_check; vm_compute; reflexivity|]. split; [vm_compute; reflexivity|].
  exists (replicate 20 0). eexists. split; [vm_compute; reflexivity|]. vm_compute. split; [reflexivity|]. eexists. reflexivity.
Qed.
(* the zero-pool theorem instantiated with the generated tables *)
Example C06_zero_pool_generated sc0 others nev tr s : await_only sc0 -> Forall fire_only others ->
  run G (init (sc0 :: others) 0 nev) tr = Some s -> terminal G s -> all_fired s -> stacks s !! 0 = Some [FTop []].
Proof. apply C06_zero_pool_main; [apply gen_all_cond|apply gen_zero_cond]. Qed.
Print Assumptions C06_zero_pool_nonvacuous.
Print Assumptions C06_zero_pool_generated.

(* ---------- C08 (future_sync in L2): the hypotheses are met by runs in which the interesting events happen ---------- *)
(* awaited to completion: the user future awaits event 0 (fired by the other caller), completes inside the slot of job 0; the result
   is delivered after the slot job signalled; a desync of each caller around it *)
Definition PY := [[OFutSync [PAwait 0; PTouch] UAwait; ODesync]; [ODesync; OFire 0]].
Example C08_nonvacuous_await :
  exists tr s, ywf 1 PY /\ run G (init PY 1 1) tr = Some s /\ terminal G s /\ all_fired s /\ stacks s !! 0 = Some [FTop []] /\
    exists l2 l1, s.(log) = l2 ++ GResolve 0 0 :: l1 /\ GYnew 0 0 1 ∈ l1 /\ GUStart 0 ∈ l1 /\ GUFinish 0 ∈ l1 /\ GSig 0 0 ∈ l1.
Proof.
  destruct (final PY 1 1 3) as [[s tr] b] eqn:E. exists tr, s. vm_compute in E. injection E as <- <- _.
  split; [by repeat constructor|]. split; [vm_compute; reflexivity|]. split; [apply terminal_check; vm_compute; reflexivity|].
  split; [apply all_fired_check; vm_compute; reflexivity|].
  split; [vm_compute; reflexivity|]. exists [GFinish 2; GStart 2; GPush 2]. eexists. split; [vm_compute; reflexivity|].
  rewrite !elem_of_cons. tauto.
Qed.
(* dropped while the user future is pending (event 0 never fires): the user future is destroyed inside the slot, then task_finished
   is dropped, the slot job ends and the next operation starts *)
Definition PYD := [[OFutSync [PAwait 0] (UDropAfter 2); ODesync]; [ODesync]].
Example C08_nonvacuous_drop :
  exists tr s, ywf 1 PYD /\ run G (init PYD 1 1) tr = Some s /\ terminal G s /\ stacks s !! 0 = Some [FTop []] /\
    exists l2 l1, s.(log) = l2 ++ GYdrop 0 :: GUCancel 0 :: l1 /\ GYnew 0 0 1 ∈ l1 /\ GUStart 0 ∈ l1 /\ GStart 0 ∈ l1 /\
                  GFinish 0 ∈ l2 /\ GFinish 0 ∉ l1.
Proof.
  destruct (final PYD 1 1 2) as [[s tr] b] eqn:E. exists tr, s. vm_compute in E. injection E as <- <- _.
  split; [by repeat constructor|]. split; [vm_compute; reflexivity|]. split; [apply terminal_check; vm_compute; reflexivity|].
  split; [vm_compute; reflexivity|]. exists [GFinish 2; GStart 2; GFinish 1; GStart 1; GFinish 0; GSig 0 0; GPush 2]. eexists.
  split; [vm_compute; reflexivity|].
  rewrite !elem_of_cons, !elem_of_nil. split; [tauto|]. split; [tauto|]. split; [tauto|]. split; [tauto|].
  intros H. repeat (destruct H as [H|H]; [discriminate H|]). done.
Qed.
(* the C08 theorems instantiated with the generated tables *)
Example C08_2_generated scripts npool nev tr s l2 e l1 o : ywf nev scripts -> run G (init scripts npool nev) tr = Some s ->
  s.(log) = l2 ++ e :: l1 -> user_ev e = Some o ->
  exists la lb, l1 = la ++ GStart o :: lb /\ forall o', GStart o' ∉ la /\ GFinish o' ∉ la.
Proof. intros Hwf Hr E He. by destruct (proj1 (C08_2_main G gen_all_cond scripts npool nev tr s l2 e l1 Hwf Hr E) o He). Qed.
Example C08_5_generated scripts npool nev tr s : ywf nev scripts -> npool >= 1 -> run G (init scripts npool nev) tr = Some s ->
  terminal G s -> (forall e, e < nev -> (getev s e).(fired) = true) ->
  s.(qs) = Idle /\ s.(jobs) = [] /\ forall c st, stacks s !! c = Some st -> st = [FTop []] \/ st = [FPIdle].
Proof.
  intros Hwf Hn Hr Ht He. destruct (C08_5_main G gen_all_cond scripts npool nev tr s Hwf Hn Hr Ht He) as (_ & ? & ? & _ & ? & _). done.
Qed.
Print Assumptions C08_5_generated.
Print Assumptions C08_nonvacuous_await.
Print Assumptions C08_nonvacuous_drop.
Print Assumptions C08_2_generated.

(* C08 (5) with NO pool thread: caller 0 calls future_sync, polls once (its poll runs the slot job, the user future starts and waits for
   event 0), drops the future (the user future is destroyed inside the slot), then desync and sync; caller 1 fires event 0 afterwards.
   The sync of caller 0 drains the queue itself: the slot job sees Canceled and ends, everything finishes *)
Definition PZY := [[OFutSync [PAwait 0; PTouch] (UDropAfter 1); ODesync; OSync]; [OFire 0]].
Example C08_5_zero_pool_nonvacuous :
  let r := frun 400 (init PZY 0 1) [] in
  ywf 1 PZY /\ noawait [OFutSync [PAwait 0; PTouch] (UDropAfter 1); ODesync; OSync] /\
  run G (init PZY 0 1) r.2 = Some r.1 /\ terminal G r.1 /\ (forall e, e < 1 -> (getev r.1 e).(fired) = true) /\
  stacks r.1 !! 0 = Some [FTop []] /\ GUCancel 0 ∈ r.1.(log) /\ GYdrop 0 ∈ r.1.(log) /\ GFinish 0 ∈ r.1.(log).
Proof.
  cbv zeta. split; [by repeat constructor|]. split; [by repeat constructor|]. split; [vm_compute; reflexivity|].
  split; [apply terminal_check; vm_compute; reflexivity|]. split; [intros e He; assert (e = 0) as -> by lia; vm_compute; reflexivity|].
  split; [vm_compute; reflexivity|]. vm_compute log. rewrite !elem_of_cons. tauto.
Qed.
Example C08_5_dropping_caller_generated scripts npool nev tr s c sc : ywf nev scripts -> scripts !! c = Some sc -> noawait sc ->
  run G (init scripts npool nev) tr = Some s -> terminal G s -> (forall e, e < nev -> (getev s e).(fired) = true) ->
  stacks s !! c = Some [FTop []].
Proof. apply (C08_5_dropping_caller_finishes_main G gen_all_cond gen_claim_cond). Qed.
Print Assumptions C08_5_zero_pool_nonvacuous.
Print Assumptions C08_5_dropping_caller_generated.
