(* C08: what a step does to the data Inv_y reads - the fired cells, the ghost log, the frames and the queued jobs.  Nine kinds of
   steps fire a cell or log an event of a future_sync call; every other step is quiet: it fires nothing, logs nothing about a
   call, and whatever it pushes or queues is as good as its top frame and the queue were. *)
From stdpp Require Import list numbers option.
From RecordUpdate Require Import RecordUpdate.
From L2 Require Import Model Base Arm Own Jobs Fut WakeLem Effect YDefs YMono.
#[global] Unset Lia Cache.

(* actor a replaces its stack fr0 :: rest by new: what holds of every frame of every stack goes on holding when the frames a keeps and
   those of the other actors are not hurt by the change of state, and a's new frames have it *)
Lemma frames_update_top (Q : state -> nat -> frame -> Prop) s s' a fr0 rest new :
  stacks s !! a = Some (fr0 :: rest) -> stacks s' = <[a := new]> (stacks s) ->
  (forall c st fr, stacks s !! c = Some st -> fr ∈ st -> Q s c fr) ->
  (forall c st fr, stacks s !! c = Some st -> fr ∈ st -> (c <> a \/ fr ∈ rest) -> Q s c fr -> Q s' c fr) ->
  (forall fr, fr ∈ new -> fr ∈ rest \/ Q s' a fr) ->
  forall c st fr, stacks s' !! c = Some st -> fr ∈ st -> Q s' c fr.
Proof.
  intros Ha Hs HI Hold Hnew. apply (frames_update Q s s' a _ new Ha Hs); [| |exact HI].
  - intros fr [?|?]%Hnew; [left; by right|by right].
  - intros c st fr Hc Hin Hk HQ. destruct (decide (c = a)) as [->|Hne]; [|apply (Hold c st fr Hc Hin); [by left|done] ].
    destruct (Hnew fr (Hk eq_refl)) as [Hr|?]; [|done]. apply (Hold a st fr Hc Hin); [by right|done].
Qed.
Lemma stacks_fire_cell s a e k : stacks (fire_cell s a e k) = <[a := wake_frames (rev (getev s e).(wakers)) ++ k]> (stacks s).
Proof. unfold fire_cell. solve_stacks. Qed.

(* the events a quiet step logs, read off its top frame *)
Inductive lognew (s : state) : frame -> list gev -> Prop :=
| ln_nil fr : lognew s fr []
| ln_push fr o : lognew s fr [GPush o]
| ln_start fr o : lognew s fr [GStart o]
| ln_sig op f sc w k : lognew s (FJob (JFut op Waiting (PSignal f :: sc)) w k) [GSig f op]
| ln_fin op w k : lognew s (FJob (JFut op Waiting []) w k) [GFinish op]
| ln_run fr op : (forall nev s0, frok nev s0 fr -> op < s0.(nextop) /\ noy s0 op) -> lognew s fr [GFinish op; GStart op]
| ln_runtake fr op f v : (forall nev s0, frok nev s0 fr -> op < s0.(nextop) /\ noy s0 op /\ futok s0 f) -> (getf s f).(res) = FSome v ->
    lognew s fr [GFinish op; GResolve f v; GStart op]
| ln_poll fr f v : pollfam fr = Some f -> (getf s f).(res) = FSome v -> lognew s fr [GResolve f v]
| ln_ffs1 f v : (getf s f).(res) = FSome v -> lognew s (FFS1 f) [GResolve f v].

Definition fresh_ids (s s' : state) : Prop :=
  (forall o, s.(nextop) <= o -> noy s' o) /\ (forall f, length s.(futs) <= f -> forall o r, (o, f, r) ∉ Ys s').
(* P holds after a step from s to s' with top frame fr as soon as fr and the jobs that were queued are fine after it *)
Definition carried (nev : nat) (s s' : state) (fr : frame) (P : Prop) : Prop :=
  fresh_ids s s' -> frok nev s' fr -> (forall j, j ∈ s.(jobs) -> jobok nev s' j) -> P.

(* the steps of a SyncFuture frame that log an event of its user future: it is created, polled one primitive further, completes, is
   destroyed unfinished *)
Inductive ymove (o : nat) : ypc -> ystate -> gev -> ypc -> ystate -> Prop :=
| ym_start b : ymove o YPrecv (YQueue b) (GUStart o) YPuser (YFuture b)
| ym_step p b : ymove o YPuser (YFuture (p :: b)) (GUStep o) YPuser (YFuture b)
| ym_finish : ymove o YPuser (YFuture []) (GUFinish o) YPfin (YFuture [])
| ym_cancel b : ymove o YPdrop1 (YFuture b) (GUCancel o) YPdrop2 (YFuture b).

(* the steps that fire a cell: the cell, what they log, and the frames they leave in place of the top frame *)
Inductive fires (rest : list frame) : frame -> nat -> list gev -> list frame -> Prop :=
| fi_fire e : fires rest (FFire e) e [] rest
| fi_ready op r sc w k : fires rest (FJob (JFut op Waiting (PSendReady r :: sc)) w k) r [] (FJob (JFut op Waiting sc) w k :: rest)
| fi_fin y st u : fires rest (FY YPfin y st u) (S y.(y_r)) [] (FUse y.(y_f) u :: rest)
| fi_drop y st u : fires rest (FY YPdrop2 y st u) (S y.(y_r)) [GYdrop y.(y_op)] rest.

(* a step of actor a from s with stack fr :: rest, as Inv_y sees it *)
Inductive yeff (s : state) (a : nat) (rest : list frame) : frame -> state -> Prop :=
| ye_quiet fr new lg s' :
    stacks s' = <[a := new]> (stacks s) ->
    (* the frames below fr stay, unless fr is a poll that returns Ready and drops the continuation frame *)
    ((forall x, x ∈ rest -> x ∈ new) \/
     exists f v pre, pollfam fr = Some f /\ (getf s f).(res) = FSome v /\ new = pre ++ pop_cont rest) ->
    s'.(log) = lg ++ s.(log) -> lognew s fr lg ->
    match fr with
    | FY _ y _ _ => exists pc st u, FY pc y st u ∈ new
    | FD1 j => GPush (jop j) ∈ lg
    | _ => True
    end ->
    fired <$> s'.(evs) = fired <$> s.(evs) ->
    s.(nextop) <= s'.(nextop) -> length s.(futs) <= length s'.(futs) ->
    (forall nev, Forall (fun x => x ∈ rest \/ carried nev s s' fr (frok nev s' x)) new) ->
    (forall nev j, j ∈ s'.(jobs) -> carried nev s s' fr (jobok nev s' j)) ->
    yeff s a rest fr s'
| ye_fires fr F lg k : fires rest fr F lg k -> yeff s a rest fr (fire_cell (addlog s lg) a F k)
| ye_ynew body u os :
    yeff s a rest (FTop (OFutSync body u :: os))
      (setstack (addlog (s <| nextop := S s.(nextop) |> <| futs := s.(futs) ++ [fc0] |> <| evs := s.(evs) ++ [ev_new; ev_new] |>)
                        [GYnew s.(nextop) (length s.(futs)) (length s.(evs))]) a
         (FD1 (JFut s.(nextop) NotCreated (slot (length s.(evs)) (length s.(futs))))
          :: FY YPuse {| y_op := s.(nextop); y_f := length s.(futs); y_r := length s.(evs) |} (YQueue body) u :: FTop os :: rest))
| ye_uev pc y st u ev pc' st' : ymove y.(y_op) pc st ev pc' st' -> (pc = YPrecv -> (getev s y.(y_r)).(fired) = true) ->
    yeff s a rest (FY pc y st u) (setstack (addlog s [ev]) a (FY pc' y st' u :: rest)).

Lemma fired_reg (L : list evcell) e ws : fired <$> <[e := default ev0 (L !! e) <| wakers := ws |>]> L = fired <$> L.
Proof.
  apply list_eq. intros i. rewrite !list_lookup_fmap. destruct (decide (i = e)) as [->|]; [|by rewrite list_lookup_insert_ne].
  destruct (L !! e) eqn:E; [by rewrite list_lookup_insert by (by eapply lookup_lt_Some)|].
  rewrite list_insert_ge by (by apply lookup_ge_None). by rewrite E.
Qed.
Lemma frok_wake_frames nev s ws fr : fr ∈ wake_frames ws -> frok nev s fr.
Proof. unfold wake_frames. intros (w & -> & _)%elem_of_list_fmap. done. Qed.
Lemma frok_opt_wake nev s o fr : fr ∈ opt_wake o -> frok nev s fr.
Proof. destruct o; cbn; [intros ->%elem_of_list_singleton; done|by intros ?%elem_of_nil]. Qed.
Lemma frok_ret_ready nev s k : frok nev s (ret_ready k).
Proof. by destruct k. Qed.
Lemma frok_ret_pending nev s k j : jobok nev s j -> frok nev s (ret_pending k j).
Proof. by destruct k. Qed.
Lemma plain_usrp_all nev s b : forallb (plainp nev) b = true -> Forall (usrp nev s) b.
Proof.
  rewrite forallb_forall, Forall_forall. intros H p Hp%H. by destruct p.
Qed.
Lemma jobok_start nev s op sc : jobok nev s (JFut op NotCreated sc) -> jobok nev s (JFut op Waiting sc).
Proof.
  intros [H1 [H2 H3]]. split; [done|]. split; [|done]. intros f r Hin. destruct (H2 _ _ Hin) as [?|[? _]]; [by left|done].
Qed.
Lemma jobok_tail nev s op p l : (forall e, p = PAwaitDone e -> firedP s e) -> (forall e, p = PSendReady e -> firedP s e) ->
  jobok nev s (JFut op Waiting (p :: l)) -> jobok nev s (JFut op Waiting l).
Proof.
  intros Hp Hq [H1 [H2 H3]]. split; [done|]. split.
  - intros f r Hin. right. split; [done|]. destruct (H2 _ _ Hin) as [E|[_ [Hr [E|[Hf [E|E]]]]]]; try discriminate E.
    + injection E as -> ->. split; [by apply Hq|by left].
    + injection E as -> ->. split; [done|]. right. split; [by apply Hp|by left].
    + injection E as -> ->. split; [done|]. right. split; [done|by right].
  - intros Hn. specialize (H3 Hn). by inversion H3.
Qed.
Lemma yfrok_pc nev s pc pc' y st u u' : pc <> YPfin -> pc' <> YPfin -> pc <> YPdrop2 -> (pc' = YPdrop2 -> ~ isYF st) ->
  (pc' = YPpark -> u' = UAwait) -> yfrok nev s pc y st u -> yfrok nev s pc' y st u'.
Proof.
  intros N1 N2 N3 N4 N5 (H1 & H2 & H3 & H4 & H5 & H6 & H7 & H8 & _). repeat split; try tauto.
  all: try (intros ?%H5; done). all: try (intros ?%H6; tauto). all: try done. all: intros [? ?]; tauto.
Qed.
(* what the first operation of a script pushes: the ids it takes are fresh.  (frok of the sync frames FS1 .. FSBpush op tk is jobok of
   the job JSync op _ tk they are going to push.) *)
Lemma jobok_fresh nev s s' j : fresh_ids s s' -> s.(nextop) < s'.(nextop) -> jop j = s.(nextop) ->
  match j with JFut _ _ sc => Forall (usrp nev s') sc | JSync _ _ tk => tkok s' tk | JPlain _ => True end -> jobok nev s' j.
Proof.
  intros [Hf _] Hn Ej Hj. split; [lia|]. pose proof (Hf _ (le_n _)) as Hno. destruct j; cbn in Ej; subst; [done| |done].
  split; [|done]. intros f r Hin. by destruct (Hno f r).
Qed.
Lemma usrp_sig_fresh nev s s' f : fresh_ids s s' -> length s.(futs) <= f < length s'.(futs) -> usrp nev s' (PSignal f).
Proof. intros [_ Hf] H. split; [lia|]. apply Hf. lia. Qed.
Lemma futok_fresh s s' f : fresh_ids s s' -> length s.(futs) <= f < length s'.(futs) -> futok s' f.
Proof. intros [_ Hf] H. split; [lia|]. intros o r Hin. destruct (Hf f ltac:(lia) o r Hin). Qed.

Section S.
  Context (T : ftables).
  Lemma step_yeff s a s' : step T s a = Some s' -> exists fr rest, stacks s !! a = Some (fr :: rest) /\ yeff s a rest fr s'.
  Proof.
    intros Hstep. destruct (step_arm _ _ _ _ Hstep) as (l & r & Hst & Hs & Hg & [_ Ej _ Eev Ef _ _ El En _ _ _]).
    destruct l; try match goal with c : cont |- _ => destruct c end; try (destruct pc, st; cbn in Hg; first [discriminate Hg|injection Hg as <-]).
    all: cbn [arm_old arm_new arm_guard arm_jobs arm_evs arm_futs arm_log arm_nextop cont_fr] in *; unfold fired_frames in *; destruct_and?.
    all: try lazymatch type of Hst with _ = Some ([FY YPuse _ _ ?u] ++ _) => destruct u as [| | |[|?] ] end.
    all: try lazymatch type of Hst with _ = Some ([FJob (JFut _ Waiting (?p :: _)) _ _] ++ _) => is_var p; destruct p; try done end.
    all: eexists _, _; split; [exact Hst|].
    (* the arms that fire a cell or log an event of a call: their new state is the one the model writes *)
    all: lazymatch type of El with
         | _ = [] ++ _ => lazymatch type of Eev with _ = <[_ := {| fired := true; wakers := [] |}]> _ => shelve | _ => idtac end
         | _ = [GYnew _ _ _] ++ _ => shelve | _ = [GUStart _] ++ _ => shelve | _ = [GUStep _] ++ _ => shelve | _ = [GUFinish _] ++ _ => shelve
         | _ = [GUCancel _] ++ _ => shelve | _ = [GYdrop _] ++ _ => shelve
         | _ => idtac end.
    all: rewrite <- ?app_assoc in Hs; cbn [app upolls] in Hst, Hs.
    all: eapply ye_quiet;
      [ exact Hs
      | first [ left; intros x Hin; solve [repeat (first [exact Hin | apply elem_of_list_further | apply elem_of_app; right])]
              | right; eexists _, _, _; split; [reflexivity|]; split; [eassumption|];
                first [exact (eq_refl : _ = [] ++ _) | exact (eq_refl : _ = [_] ++ _)] ]
      | exact El
      | first [ apply ln_nil | apply ln_push | apply ln_start | apply ln_sig | apply ln_fin
              | apply ln_run; first [intros ? ? H; exact H | intros ? ? (H1 & H2 & _); exact (conj H1 H2)]
              | apply ln_runtake; [intros ? ? H; exact H|assumption]
              | apply ln_poll; [reflexivity|assumption] | apply ln_ffs1; assumption ]
      | first [exact I | cbn; left; reflexivity | cbn; eexists _, _, _; first [apply elem_of_list_here | apply elem_of_list_further, elem_of_list_here] ]
      | rewrite Eev; first [reflexivity | unfold addw, getev; rewrite ?fired_reg; reflexivity | unfold setev, getev; cbn; rewrite ?fired_reg; reflexivity]
      | rewrite En; lia
      | rewrite Ef, ?insert_length, ?app_length; cbn; lia
      | intros nev;
        repeat (first [ apply Forall_cons; [right; intros Hfresh Hfr Hq; cbn [frok] in Hfr |- *|]
                      | apply Forall_app; split; [apply list.Forall_forall; intros x Hx; right; intros _ _ _; first [by eapply frok_wake_frames|by eapply frok_opt_wake]|] ]);
        try (apply list.Forall_forall; intros x Hx; left; first [exact Hx|apply elem_of_list_further; exact Hx])
      | intros nev j0 Hin _ Hfr Hq; rewrite Ej in Hin;
        first [ exact (Hq _ Hin)
              | apply Hq; match goal with E : jobs _ = _ :: _ |- _ => rewrite E; right; exact Hin end
              | apply elem_of_app in Hin as [Hin|Hin%elem_of_list_singleton]; [exact (Hq _ Hin)|subst j0; exact Hfr]
              | apply elem_of_cons in Hin as [->|Hin]; [exact Hfr|exact (Hq _ Hin)] ] ].
    all: lazymatch goal with
         | Hst : _ = Some (FTop _ :: _) |- _ =>   (* the operation's frames: its ids are fresh, its body is that of the script *)
             apply andb_true_iff in Hfr as [Hop Hos]; cbn in Hop;
             lazymatch goal with
             | |- forallb _ _ = true => exact Hos
             | |- _ < _ => by apply Nat.ltb_lt
             | |- futok _ _ => apply (futok_fresh s); [exact Hfresh|rewrite Ef, app_length; cbn; lia]
             | |- jobok ?n _ ?j => apply (jobok_fresh n s _ j Hfresh); [rewrite En; lia|reflexivity|];
                 first [ exact I
                       | apply Forall_app; split; [by apply plain_usrp_all|apply Forall_singleton]
                       | apply Forall_cons; [|apply Forall_cons; [exact Hop|apply Forall_singleton] ] ];
                 (eapply usrp_sig_fresh; [exact Hfresh|rewrite Ef, app_length; cbn; lia])
             | |- _ /\ _ => apply (jobok_fresh 0 s _ (JSync _ 0 _) Hfresh); [rewrite En; lia|reflexivity|exact I]
             end
         | Hst : _ = Some (FFS1 _ :: _) |- _ => apply (jobok_fresh 0 s _ (JSync _ 0 _) Hfresh); [rewrite En; lia|reflexivity|exact Hfr]
         | |- yfrok _ _ _ _ _ _ => eapply yfrok_pc; [| | | | |exact Hfr]; first [discriminate | intros _ [] | intros _; reflexivity]
         | |- jobok _ _ (JFut _ Waiting _) =>
             first [ exact (jobok_start _ _ _ _ Hfr)
                   | refine (jobok_tail _ _ _ _ _ _ _ Hfr); intros ? H; first [discriminate H|injection H as <-; unfold firedP, getev; rewrite Eev; assumption] ]
         | _ => (* nothing to show, what the top frame held, or the head of the queue *)
             first [ exact I | exact Hfr | apply frok_ret_ready | apply frok_ret_pending; exact Hfr
                   | apply Hq; match goal with E : jobs _ = _ |- _ => rewrite E; left end ]
         end.
    Unshelve.
    all: cbn [app] in Hst; step_at Hstep Hst; try discriminate Hstep; try (cbn in Hg; congruence); injection Hstep as <-.
    all: first [ apply (ye_fires s a r _ _ _ _ (fi_fire _ _)) | apply (ye_fires s a r _ _ _ _ (fi_ready _ _ _ _ _ _))
               | apply (ye_fires s a r _ _ _ _ (fi_fin _ _ _ _)) | apply (ye_fires s a r _ _ _ _ (fi_drop _ _ _ _)) | apply ye_ynew
               | apply ye_uev; [constructor|first [intros _; assumption|intros [=] ] ] ].
  Qed.
End S.
Lemma ynews_app l1 l2 : ynews (l1 ++ l2) = ynews l1 ++ ynews l2.
Proof. induction l1 as [|[] l1 IH]; cbn; by rewrite ?IH. Qed.
Lemma lognew_plain s fr lg : lognew s fr lg -> ynews lg = [] /\ forall e, e ∈ lg -> yev_of e = None.
Proof.
  intros []; (split; [done|]); intros e; rewrite ?elem_of_cons, elem_of_nil; intros Hin; by decompose [or] Hin; subst.
Qed.
Lemma firedP_fmap s s' : fired <$> s'.(evs) = fired <$> s.(evs) -> forall e, firedP s' e <-> firedP s e.
Proof.
  intros H e. unfold firedP, getev. pose proof (f_equal (fun L => L !! e) H) as He. cbn in He. rewrite !list_lookup_fmap in He.
  destruct (evs s' !! e), (evs s !! e); cbn in *; try discriminate He; [injection He as ->|]; done.
Qed.
Lemma firedP_fire s e0 e : firedP (setev s e0 {| fired := true; wakers := [] |}) e <-> firedP s e \/ e = e0.
Proof.
  unfold firedP, getev, setev; cbn. destruct (decide (e = e0)) as [->|Hne]; [|rewrite list_lookup_insert_ne by done; tauto].
  destruct (decide (e0 < length (evs s))).
  - rewrite list_lookup_insert by done. cbn. tauto.
  - rewrite list_insert_ge by lia. rewrite lookup_ge_None_2 by lia. cbn. tauto.
Qed.
Lemma fired_app_back (L L2 : list evcell) e : fired (default ev0 ((L ++ L2) !! e)) = true -> fired (default ev0 (L !! e)) = true.
Proof. destruct (decide (e < length L)); [by rewrite lookup_app_l|]. by rewrite (lookup_ge_None_2 L) by lia. Qed.

Definition fsame (s s' : state) : Prop := forall e, firedP s' e -> firedP s e.
Lemma yeff_fired s a rest fr s' : yeff s a rest fr s' ->
  fsame s s' \/ exists F lg k, fires rest fr F lg k /\ forall e, firedP s' e <-> firedP s e \/ e = F.
Proof.
  intros [? new lg ? _ _ _ _ _ Hev _ _ _ _|? F lg k Hfi| |].
  - left. intros e. by apply firedP_fmap.
  - right. eexists _, _, _. split; [exact Hfi|]. intros e. apply (firedP_fire (addlog s lg)).
  - left. intros e. apply fired_app_back.
  - left. by intros e ?.
Qed.

(* the SyncFuture frame of call t, the frame that is about to push the slot job of call o *)
Definition isfy (t : triple) (fr : frame) : Prop :=
  match fr with FY _ y _ _ => (y.(y_op), y.(y_f), y.(y_r)) = t | _ => False end.
Definition isfd1 (o : nat) (fr : frame) : Prop := match fr with FD1 (JFut o' _ _) => o' = o | _ => False end.
Lemma isfy_inv t fr : isfy t fr -> exists pc y st u, fr = FY pc y st u.
Proof. destruct fr; try done. by eexists _, _, _, _. Qed.
Lemma isfd1_inv o fr : isfd1 o fr -> exists st sc, fr = FD1 (JFut o st sc).
Proof. destruct fr; try done. destruct j; try done. intros <-. by eexists _, _. Qed.
(* the frames of the actor that steps: every frame below the top frame stays, except the continuation of a poll that returns Ready;
   a SyncFuture frame on top stays until its done cell is fired; the slot job's frame goes when the job is pushed; a new call
   comes with both *)
Lemma yeff_frames s a rest fr s' : yeff s a rest fr s' -> exists new, stacks s' = <[a := new]> (stacks s) /\
  (forall x, x ∈ rest -> x ∈ new \/ exists f v r, pollfam fr = Some f /\ (getf s f).(res) = FSome v /\ rest = x :: r /\ pop_cont rest = r) /\
  (forall t, isfy t fr -> firedP s' (S t.2) \/ exists x, x ∈ new /\ isfy t x) /\
  (forall o, isfd1 o fr -> GPush o ∈ s'.(log)) /\
  (forall t, t ∈ Ys s' -> t ∈ Ys s \/ exists x d, x ∈ new /\ isfy t x /\ d ∈ new /\ isfd1 t.1.1 d).
Proof.
  intros [? new lg ? Hs Hr El Hl Htop _ _ _ _ _|? F lg k Hfi| |? ? ? ? ? ? ? Hm _].
  - exists new. split; [done|]. split; [|split; [|split] ].
    + destruct Hr as [Hr|(f & v & pre & Hp & Hv & ->)]; [intros x Hx; left; by apply Hr|]. intros x Hx.
      destruct (pop_cont_cases rest) as [[-> _]|(y & r & -> & -> & _)]; [left; apply elem_of_app; by right|].
      apply elem_of_cons in Hx as [->|Hx]; [right; by eexists _, _, _|left; apply elem_of_app; by right].
    + intros t Hy. right. destruct (isfy_inv _ _ Hy) as (pc & y & st & u & ->). destruct Htop as (pc' & st' & u' & Hin). eexists. split; [exact Hin|exact Hy].
    + intros o Ho. rewrite El. apply elem_of_app. left. by destruct (isfd1_inv _ _ Ho) as (st & sc & ->).
    + intros t Ht. left. unfold Ys in *. rewrite El, ynews_app in Ht. by rewrite (proj1 (lognew_plain _ _ _ Hl)) in Ht.
  - eexists. split; [exact (stacks_fire_cell (addlog s lg) _ _ _)|]. split; [left; apply elem_of_app; right; destruct Hfi; auto using elem_of_list_further|].
    split; [|split; [intros o Ho; by destruct Hfi|intros t Ht; left; by destruct Hfi] ].
    intros t Hy. left. apply (firedP_fire (addlog s lg)). right. by destruct Hfi; try done; destruct Hy.
  - eexists. split; [solve_stacks|]. split; [left; by do 3 right|]. split; [by intros ? []|]. split; [by intros ? []|].
    intros t [->|Ht]%elem_of_cons; [right|by left]. eexists _, _. split; [right; left|]. split; [done|]. split; [left|done].
  - eexists. split; [solve_stacks|]. split; [left; by right|]. split; [|split; [by intros ? []|left; by destruct Hm] ].
    intros t <-. right. eexists. split; [left|done].
Qed.

Lemma ext_intro s s' lg : s'.(log) = lg ++ s.(log) -> ynews lg = [] -> (forall e, e < length s.(evs) -> firedP s e -> firedP s' e) ->
  s.(nextop) <= s'.(nextop) -> length s.(futs) <= length s'.(futs) -> length s.(evs) <= length s'.(evs) -> ext s s'.
Proof.
  intros El Hy Hf Hn Hfu He. assert (EY : Ys s' = Ys s) by (unfold Ys; by rewrite El, ynews_app, Hy).
  split; try done; rewrite ?EY; [done|by left|]. intros e. rewrite El, elem_of_app. by right.
Qed.
Lemma yeff_ext s a rest fr s' : yeff s a rest fr s' -> ext s s'.
Proof.
  intros [? new lg ? _ _ El Hl _ Hev Hn Hf _ _|? F lg k Hfi| |? ? ? ? ? ? ? Hm _].
  - apply (ext_intro _ _ lg); [done|by eapply lognew_plain|intros e _; by apply firedP_fmap|done|done|].
    apply (f_equal length) in Hev. rewrite !fmap_length in Hev. lia.
  - apply (ext_intro _ _ lg); [done|by destruct Hfi|intros e _ ?; apply (firedP_fire (addlog s lg)); by left|done|done|cbn; by rewrite insert_length].
  - split; cbn; rewrite ?app_length; try lia.
    + intros t Ht. by right.
    + intros t [->|Ht]%elem_of_cons; [right; cbn; lia|by left].
    + intros e He H. unfold firedP, getev in *; cbn. by rewrite lookup_app_l.
    + intros e He. by right.
  - eapply (ext_intro _ _ [_]); [reflexivity|by destruct Hm|done..].
Qed.

Section S1.
  Context (T : ftables).
  Lemma step_ext s a s' : step T s a = Some s' -> ext s s'.
  Proof. intros (fr & rest & _ & H)%step_yeff. by eapply yeff_ext. Qed.
  (* the calls of future_sync: unchanged, or one fresh call *)
  Lemma step_ys s a s' : step T s a = Some s' ->
    (Ys s' = Ys s /\ length s'.(evs) = length s.(evs)) \/
    (Ys s' = (s.(nextop), length s.(futs), length s.(evs)) :: Ys s /\ s'.(nextop) = S s.(nextop) /\
     length s'.(futs) = S (length s.(futs)) /\ length s'.(evs) = length s.(evs) + 2).
  Proof.
    intros (fr & rest & _ & [? new lg ? _ _ El Hl _ Hev _ _ _ _|? F lg k Hfi| |? ? ? ? ? ? ? Hm _])%step_yeff.
    - left. split; [unfold Ys; rewrite El, ynews_app; by destruct (lognew_plain _ _ _ Hl) as [-> _]|].
      apply (f_equal length) in Hev. by rewrite !fmap_length in Hev.
    - left. split; [by destruct Hfi|cbn; by rewrite insert_length].
    - right. cbn. rewrite !app_length. cbn. repeat split; lia.
    - left. split; [|done]. by destruct Hm.
  Qed.
End S1.

(* the first three clauses of Inv_y *)
Lemma step_y_rng nev T s a s' : Inv_y nev s -> step T s a = Some s' ->
  nev <= length s'.(evs) /\
  (forall o f r, (o, f, r) ∈ Ys s' -> o < s'.(nextop) /\ f < length s'.(futs) /\ nev <= r /\ r + 1 < length s'.(evs)) /\
  ysorted (Ys s').
Proof.
  intros HY Hstep. pose proof (step_ext T _ _ _ Hstep) as X. pose proof (y_rng _ _ HY) as HR.
  pose proof (x_evs _ _ X). pose proof (x_nop _ _ X). pose proof (x_futs _ _ X). pose proof (y_len _ _ HY).
  split; [lia|]. destruct (step_ys T _ _ _ Hstep) as [[-> He]|(-> & Hn & Hf & He)].
  - split; [|apply (y_sorted _ _ HY)]. intros o f r Hin. specialize (HR _ _ _ Hin). lia.
  - split.
    + intros o f r [[= -> -> ->]|Hin]%elem_of_cons; [lia|]. specialize (HR _ _ _ Hin). lia.
    + cbn. split; [|apply (y_sorted _ _ HY)]. intros o f r Hin. specialize (HR _ _ _ Hin). lia.
Qed.
