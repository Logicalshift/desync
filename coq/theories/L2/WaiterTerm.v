(* sync always returns: with the waiter's loop of sync_background modelled, in a terminal state with all events fired no caller is
   left inside sync - for ANY program and ANY number of pool runners (0 included).  The only blocked program point that remains
   is the park of a task that awaits a SchedulerFuture. *)
From stdpp Require Import list numbers option.
From RecordUpdate Require Import RecordUpdate.
From L2 Require Import Model Base Own Jobs Shape OpShape DwInv Pool Fut Wake WakeInv WakeLem Effect Term Task TaskInv Complete Waiter ZeroTerm.
#[global] Unset Lia Cache.

Record Inv_all3 (T : ftables) (s : state) : Prop := { i3_all2 : Inv_all2 s; i3_k : Inv_K T s }.
Lemma init_all3 T scripts npool nev : Inv_all3 T (init scripts npool nev).
Proof. split; [apply init_all2|apply init_K]. Qed.
Lemma step_all3 T (HA : all_cond T) (HC : claim_cond T) s a s' : Inv_all3 T s -> step T s a = Some s' -> Inv_all3 T s'.
Proof.
  intros [H2 HK] Hs. split; [by eapply step_all2|]. pose proof (i2_all _ H2) as HI.
  eapply (step_K T (ac_own _ HA) (ac_wake _ HA) HC s a s'); try done;
    [apply (ia_own _ HI)|apply (i2_op _ H2)|apply (ia_dw _ HI)|apply (ia_wake _ HI)|apply (i2_task _ H2)].
Qed.
Theorem reachable_all3 T (HA : all_cond T) (HC : claim_cond T) scripts npool nev tr s :
  run T (init scripts npool nev) tr = Some s -> Inv_all3 T s.
Proof. apply (run_inv (Inv_all3 T) T); [intros; by eapply step_all3|apply init_all3]. Qed.

Section TerminalW.
  Context (T : ftables) (HA : all_cond T) (HC : claim_cond T).
  Context (s : state) (H3 : Inv_all3 T s) (Hterm : terminal T s) (Hfired : all_fired s).
  Let H2 := i3_all2 _ _ H3.
  Let HI := i2_all _ H2.
  Let Hnp : no_panic T s := fun a => fut_no_panic T s a (ac_own _ HA) (ia_own _ HI) (ia_fut _ HI).

  Lemma term_claimable : claimb T s.(qs) = true.
  Proof.
    pose proof (term_no_runner T s HI Hterm Hnp Hfired) as Ho. pose proof (io_nopanic _ (ia_own _ HI)) as Hp.
    pose proof (iw_queue _ (ia_wake _ HI)) as HQ. unfold queue_ok in HQ.
    destruct (qs s) eqn:Eq; try done.
    - apply (cc_idle _ HC).
    - apply (cc_pending _ HC).
    - exfalso. destruct (hsusp s) as [e|]; [|done]. by rewrite (term_cover T s HI Hterm Hnp Hfired) in HQ.
    - apply (cc_wfp _ HC).
  Qed.
  Lemma term_no_waiter c rest : stacks s !! c = Some (FSBwait :: rest) -> False.
  Proof.
    intros Hc. destruct (stacks_actor s c _ Hc) as (ac & Ea & Est).
    pose proof (Hterm c) as Hs. unfold step in Hs. rewrite Ea in Hs. cbn in Hs. rewrite Est in Hs. cbn in Hs.
    destruct (sres ac) eqn:Esr; [done|]. destruct (kicked ac) eqn:Ek; [done|].
    assert (Hk : kickb s c = false) by (unfold kickb; by rewrite (kicks_lookup _ _ _ Ea), Ek).
    assert (Hsb : sresb s c = false) by (unfold sresb; by rewrite (sress_lookup _ _ _ Ea), Esr).
    destruct (k_wait _ _ (i3_k _ _ H3) c _ Hc ltac:(left) Hk Hsb term_claimable) as [H|H].
    - rewrite (term_quiet T s HI Hterm Hnp is_rq1) in H; [lia|]. intros []; try done. by left.
    - unfold wakeq in H. destruct (hsusp s); [|done]. by rewrite (term_cover T s HI Hterm Hnp Hfired) in H.
  Qed.
  Theorem terminal_sync_returns c st : stacks s !! c = Some st ->
    st = [FTop []] \/ st = [FPIdle] \/ exists f rest, st = FPark f :: rest.
  Proof.
    intros Hc. destruct (term_top T s HI Hterm Hnp c st Hc) as (fr & rest & -> & Hb).
    destruct fr; try done.
    - (* FTop [] *) destruct script; [|done]. left. by rewrite (op_bot_alone s c _ rest (i2_op _ H2) Hc eq_refl).
    - (* FPark f *) right; right. by eexists _, _.
    - (* FSBwait *) exfalso. by eapply term_no_waiter.
    - (* FROpark j *) exfalso. pose proof (runner_owned s c _ (ia_own _ HI) Hc ltac:(cbn; lia)) as Ho.
      by rewrite (term_no_runner T s HI Hterm Hnp Hfired) in Ho.
    - (* FPIdle *) right; left. by rewrite (op_bot_alone s c _ rest (i2_op _ H2) Hc eq_refl).
    - (* FY YPpark *) exfalso. destruct pc; try done. by eapply (term_no_ypark T HA s H2 Hterm Hfired).
  Qed.
End TerminalW.

(* C04 for one queue with futures: sync returns.  In a terminal state with all events fired every actor is done, or is a task
   parked awaiting a SchedulerFuture - any program, any number of pool runners *)
Theorem C04_sync_returns T (HA : all_cond T) (HC : claim_cond T) scripts npool nev tr s :
  run T (init scripts npool nev) tr = Some s -> terminal T s -> all_fired s ->
  forall c st, stacks s !! c = Some st -> st = [FTop []] \/ st = [FPIdle] \/ exists f rest, st = FPark f :: rest.
Proof. intros Hr Ht Hf c st. eapply terminal_sync_returns; try done. by eapply reachable_all3. Qed.
Print Assumptions C04_sync_returns.

Definition noaw_use (u : fuse) : bool := match u with UAwait => false | _ => true end.
Definition noaw_op (o : cop) : bool := match o with OFuture _ u | OSuspend _ u | OFutSync _ u => noaw_use u | _ => true end.
Definition noaw_fr (fr : frame) : bool :=
  match fr with FTop sc => forallb noaw_op sc | FUse _ u | FY _ _ _ u => noaw_use u | FAwRet _ | FPark _ | FPIdle => false | _ => true end.
Section NoAw.
  Context (T : ftables).
  Lemma step_noaw s a s' c : (forall st, stacks s !! c = Some st -> forallb noaw_fr st = true) -> step T s a = Some s' ->
    forall st, stacks s' !! c = Some st -> forallb noaw_fr st = true.
  Proof.
    intros HK Hstep. eapply (step_frames_pred T noaw_fr s a s'); [done| |exact Hstep|exact HK].
    intros fr Hf. destruct fr; try done; revert Hf; succs_split; try done.
    all: cbn; intros Hf; repeat (apply andb_true_iff in Hf as [-> Hf]); by rewrite ?Hf.
  Qed.
End NoAw.

(* the stack of a caller whose script never awaits keeps clear of the await frames *)
Lemma noaw_stack T scripts npool nev tr s c sc : scripts !! c = Some sc -> forallb noaw_op sc = true ->
  run T (init scripts npool nev) tr = Some s -> exists st, stacks s !! c = Some st /\ forallb noaw_fr st = true.
Proof.
  intros Hsc Hna Hr.
  assert (Hlen : c < length (stacks s)).
  { rewrite (run_stacks_len _ _ _ _ Hr). unfold stacks, init; cbn. rewrite fmap_length, app_length, fmap_length.
    apply lookup_lt_Some in Hsc. lia. }
  destruct (lookup_lt_is_Some_2 _ _ Hlen) as [st Hc]. exists st. split; [done|]. revert st Hc.
  revert Hr. apply (run_inv (fun s => forall st, stacks s !! c = Some st -> forallb noaw_fr st = true) T).
  - intros s0 a s1 H0 Hs. by eapply step_noaw.
  - intros st Hc. unfold stacks, init in Hc; cbn in Hc. rewrite list_lookup_fmap, lookup_app_l in Hc.
    + rewrite list_lookup_fmap, Hsc in Hc. cbn in Hc. injection Hc as <-. cbn. by rewrite Hna.
    + rewrite fmap_length. by eapply lookup_lt_Some.
Qed.

(* a caller whose script never awaits a future - it may desync, sync, poll futures a number of times and drop them, detach them,
   fire events - has finished its script in every terminal state with all events fired: any number of pool runners, ZERO included
   (with no pool runner its own later sync takes the queue of a dropped, woken future over: the scenario of finding F6) *)
Theorem noawait_caller_finishes T (HA : all_cond T) (HC : claim_cond T) scripts npool nev tr s c sc :
  scripts !! c = Some sc -> forallb noaw_op sc = true ->
  run T (init scripts npool nev) tr = Some s -> terminal T s -> all_fired s -> stacks s !! c = Some [FTop []].
Proof.
  intros Hsc Hna Hr Ht Hf. destruct (noaw_stack T _ _ _ _ _ _ _ Hsc Hna Hr) as (st & Hc & Hinv).
  destruct (C04_sync_returns T HA HC _ _ _ _ _ Hr Ht Hf c st Hc) as [->|[->|(f & rest & ->)]]; [done| |].
  - cbn in Hinv. done.
  - cbn in Hinv. done.
Qed.
Print Assumptions noawait_caller_finishes.
