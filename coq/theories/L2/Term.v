(* C06, the terminal theorem: in a reachable state where no actor can move, with every event fired and at least one pool
   runner, the queue is Idle and empty: no operation is left suspended *)
From stdpp Require Import list numbers option.
From RecordUpdate Require Import RecordUpdate.
From L2 Require Import Model Base Own Jobs Shape DwInv Pool Fut Wake WakeInv WakeLem WakeStep.
#[global] Unset Lia Cache.

Record all_cond (T : ftables) : Prop := { ac_own : own_cond T; ac_jobs : jobs_cond T; ac_wake : wake_cond T }.
Record Inv_all (s : state) : Prop := {
  ia_own : Inv_own s; ia_jobs : Inv_jobs s; ia_shape : Inv_shape s; ia_dw : Inv_dw s; ia_pool : Inv_pool s; ia_fut : Inv_fut s; ia_wake : Inv_wake s }.

Lemma wake_dw_cond T : wake_cond T -> dw_cond T.
Proof. intros HW. split. intros st. rewrite (wc_dw_wake _ HW). by destruct st. Qed.

Lemma init_wake scripts npool nev : Inv_wake (init scripts npool nev).
Proof.
  split; [|done]. intros c fr (st & Hc & Hin). apply nonmarker_ok.
  destruct (init_stacks _ _ _ _ _ Hc) as [->|[sc ->]]; apply elem_of_list_singleton in Hin as ->; done.
Qed.
Lemma init_all scripts npool nev : Inv_all (init scripts npool nev).
Proof. split; [apply init_own|apply init_jobs|apply init_shape|apply init_dw|apply init_pool|apply init_fut|apply init_wake]. Qed.

Section Reach.
  Context (T : ftables) (HA : all_cond T).
  Lemma step_all s a s' : Inv_all s -> step T s a = Some s' -> Inv_all s'.
  Proof.
    intros [H1 H2 H3 H4 H5 H7 H6] Hs. destruct HA as [A1 A2 A3]. split.
    - by eapply step_own.
    - by eapply step_jobs.
    - by eapply step_shape.
    - eapply step_dw; [by apply wake_dw_cond|done|done].
    - by eapply step_pool_inv.
    - by eapply step_fut_inv.
    - by eapply step_wake_inv.
  Qed.
  Theorem reachable_all scripts npool nev tr s : run T (init scripts npool nev) tr = Some s -> Inv_all s.
  Proof. apply (run_inv Inv_all T); [intros; by eapply step_all|apply init_all]. Qed.
  Lemma reachable_has_pool scripts npool nev tr s : npool >= 1 -> run T (init scripts npool nev) tr = Some s -> has_pool s.
  Proof.
    intros Hn Hr.
    assert (H : Inv_all s /\ has_pool s); [|by destruct H].
    revert Hr. apply (run_inv (fun s => Inv_all s /\ has_pool s) T).
    - intros s0 a s1 [HI Hp] Hs. split; [by eapply step_all|]. by eapply (step_pool_inv T s0 a s1 (ia_pool _ HI) Hs).
    - split; [apply init_all|by apply init_has_pool].
  Qed.
End Reach.

Definition blockable (fr : frame) : bool :=
  match fr with FTop [] | FPark _ | FROpark _ | FSBwait | FPIdle | FY YPpark _ _ _ => true | _ => false end.
Lemma getf_addlog s l f : getf (addlog s l) f = getf s f. Proof. done. Qed.
Lemma step_none_cases T s a ac fr rest : s.(actors) !! a = Some ac -> ac.(stack) = fr :: rest -> step T s a = None ->
  blockable fr = true \/ would_panic T s a = true.
Proof.
  intros Ea Est H. unfold would_panic. rewrite Ea, Est. unfold step in H. rewrite Ea in H. cbn in H. rewrite Est in H.
  destruct fr; step_unfold H; step_destr H.
  all: rewrite ?getf_addlog in *.
  all: try (by left).
  all: right; cbn.
  all: repeat match goal with E : _ = _ |- _ => rewrite E; clear E end.
  all: try done.
Qed.

Definition no_panic (T : ftables) (s : state) : Prop := forall a, would_panic T s a = false.
Definition all_fired (s : state) : Prop := forall e, (getev s e).(fired) = true.
Lemma all_fired_check s : forallb fired s.(evs) = true -> all_fired s.
Proof.
  intros H e. unfold getev. destruct (evs s !! e) as [c|] eqn:E; [|done]. cbn.
  apply elem_of_list_lookup_2 in E. rewrite forallb_forall in H. apply H. by apply elem_of_list_In.
Qed.

Lemma stacks_actor s c st : stacks s !! c = Some st -> exists ac, s.(actors) !! c = Some ac /\ ac.(stack) = st.
Proof. unfold stacks. rewrite list_lookup_fmap. destruct (actors s !! c) as [ac|]; cbn; [|done]. intros [= <-]. by exists ac. Qed.
Lemma np_zero_all P s : (forall c st, stacks s !! c = Some st -> cntf P st = 0) -> np P s = 0.
Proof.
  intros H. destruct (decide (np P s = 0)) as [|Hn]; [done|]. exfalso.
  assert (Hp : np P s > 0) by lia. apply npl_pos in Hp as (c & st & Hc & Hp). rewrite (H c st Hc) in Hp. lia.
Qed.
Lemma isbot_nonempty st : isbot (lastf st) -> st <> [].
Proof. intros [H|[sc H]] ->; done. Qed.

Section Terminal.
  Context (T : ftables) (HA : all_cond T).
  Context (s : state) (HI : Inv_all s) (Hterm : terminal T s) (Hnp : no_panic T s).

  (* every stack is non-empty and its top frame is one of the five blocking program points *)
  Lemma term_top c st : stacks s !! c = Some st -> exists fr rest, st = fr :: rest /\ blockable fr = true.
  Proof.
    intros Hc. pose proof (ip_bottom _ (ia_pool _ HI) c st Hc) as Hb. apply isbot_nonempty in Hb.
    destruct st as [|fr rest]; [done|]. exists fr, rest. split; [done|].
    destruct (stacks_actor s c _ Hc) as (ac & Ea & Est).
    destruct (step_none_cases T s c ac fr rest Ea Est (Hterm c)) as [?|Hp]; [done|]. by rewrite Hnp in Hp.
  Qed.
  (* hence no waker call, no reschedule, no schedule push and no wake_with is pending anywhere *)
  Lemma term_quiet P : (forall fr, P fr = true -> chain fr = true \/ toponly fr = true) -> np P s = 0.
  Proof.
    intros HP. apply np_zero_all. intros c st Hc. destruct (term_top c st Hc) as (fr & rest & -> & Hb).
    destruct (ia_shape _ HI c _ Hc) as (_ & H2 & H3). cbn in H2, H3.
    assert (Hcf : chain fr = false) by (by destruct fr). rewrite Hcf in H2.
    assert (Hpf : P fr = false).
    { destruct (P fr) eqn:E; [|done]. destruct (HP _ E) as [?|?]; [congruence|]. by destruct fr. }
    cbn. rewrite Hpf. cbn.
    assert (cntf P rest <= cntf chain rest + cntf toponly rest); [|lia].
    clear -HP. induction rest as [|x r IH]; cbn; [lia|]. destruct (P x) eqn:E; [|lia].
    destruct (HP _ E) as [-> | ->]; lia.
  Qed.

  Context (Hfired : all_fired s).
  Lemma term_npwake w : np (is_wake w) s = 0. Proof. apply term_quiet. intros []; try done. by left. Qed.
  Lemma term_cover e : cover s e = false.
  Proof.
    destruct (cover s e) eqn:E; [|done]. exfalso. apply cover_iff in E as [(Hf & _)|[(c & w & Hf & _)|(c & d & w & Hf & _)]].
    - by rewrite Hfired in Hf.
    - pose proof (np_pos_wake s c w Hf) as H. by rewrite term_npwake in H.
    - assert (H : np (fun fr => match fr with FWakeWith _ _ => true | _ => false end) s > 0).
      { apply np_pos_fsat. by exists c, (FWakeWith d w). }
      rewrite term_quiet in H; [lia|]. intros []; try done. by right.
  Qed.
  Lemma term_unfreg e w : unfreg s e w = false. Proof. unfold unfreg. by rewrite Hfired. Qed.

  (* nobody runs the queue: the only runner frame that blocks is the sync caller's park, and its wake-up is guaranteed *)
  Lemma term_no_runner : owned s.(qs) = false.
  Proof.
    destruct (owned (qs s)) eqn:Ho; [|done]. exfalso.
    pose proof (io_cnt _ (ia_own _ HI)) as Hc. rewrite Ho in Hc. cbn in Hc.
    assert (Hp : np marker s > 0) by lia. apply np_pos_fsat in Hp as (c & fr' & (st & Hst & Hin) & Hm).
    destruct (term_top c st Hst) as (fr & rest & -> & Hb).
    pose proof (shape_top_plain s c fr rest (ia_shape _ HI) Hst ltac:(by destruct fr)) as Hz.
    apply elem_of_cons in Hin as [->|Hin]; [|by rewrite (cntf_zero_all marker rest Hz fr' Hin) in Hm].
    destruct fr; try done. (* FROpark j *)
    pose proof (iw_frames _ (ia_wake _ HI) c (FROpark j) ltac:(eexists; split; [exact Hst|left])) as Hok. cbn in Hok.
    destruct (susp j) as [e|]; [|done].
    assert (Hgt : gt s c e = false) by (unfold gt; by rewrite term_unfreg, term_npwake).
    rewrite Hgt in Hok. destruct (is_wfu (qs s)); [done|]. rewrite orb_false_r in Hok.
    rewrite (term_quiet (is_unpark c)) in Hok by (intros []; try done; by left). rewrite orb_false_r in Hok.
    destruct (stacks_actor s c _ Hst) as (ac & Ea & Est). pose proof (Hterm c) as Hs. unfold step in Hs. rewrite Ea in Hs. cbn in Hs. rewrite Est in Hs.
    cbn in Hs. unfold tokb in Hok. rewrite (toks_lookup _ _ _ Ea) in Hok. cbn in Hok. by rewrite Hok in Hs.
  Qed.

  (* an idle pool runner would take a schedule entry *)
  Lemma term_insched : has_pool s -> s.(insched) = 0.
  Proof.
    intros (p & st & Hp & Hi). destruct (insched s) as [|n] eqn:En; [done|]. exfalso.
    destruct (ip_shape _ (ia_pool _ HI) p st Hp Hi) as [->|(pre & m & -> & Hm & _)].
    - destruct (stacks_actor s p _ Hp) as (ac & Ea & Est). pose proof (Hterm p) as Hs. unfold step in Hs. rewrite Ea in Hs. cbn in Hs.
      rewrite Est in Hs. cbn in Hs. rewrite En in Hs. by destruct (t_next (ft_base T) (qs s)).
    - assert (Hc : cntf marker (pre ++ [m; FPIdle]) >= 1).
      { rewrite cntf_app. cbn. assert (marker m = true) as -> by (by destruct m). lia. }
      pose proof (runner_owned s p _ (ia_own _ HI) Hp Hc) as Ho. by rewrite term_no_runner in Ho.
  Qed.

  Theorem terminal_idle_empty : has_pool s -> s.(qs) = Idle /\ s.(jobs) = [] /\ held s = [].
  Proof.
    intros HP. pose proof term_no_runner as Ho. pose proof (term_insched HP) as Hin.
    pose proof (iw_queue _ (ia_wake _ HI)) as HQ. unfold queue_ok in HQ.
    rewrite (term_quiet is_rq1), (term_quiet is_push), Hin in HQ by (intros []; try done; (by left) || (by right)).
    assert (Hh : held s = []) by (apply held_none; [apply (ia_own _ HI)|done]).
    destruct (qs s) eqn:Eq; try done.
    - destruct (jobs s) eqn:Ej; [done|]. cbn in HQ. destruct (hsusp s); [by rewrite term_cover in HQ|done].
    - destruct (hsusp s); [by rewrite term_cover in HQ|done].
    - destruct (hsusp s); [by rewrite term_cover in HQ|done].
    - by destruct (io_nopanic _ (ia_own _ HI)).
  Qed.
End Terminal.

(* C06, terminal form, for all programs, event timings and schedules, whoever ran the queue (pool thread, sync caller, polling task) *)
Theorem C06_terminal T (HA : all_cond T) scripts npool nev tr s :
  npool >= 1 -> run T (init scripts npool nev) tr = Some s ->
  terminal T s -> all_fired s ->
  s.(qs) = Idle /\ s.(jobs) = [] /\ held s = [].
Proof.
  intros Hn Hr Ht Hf. pose proof (reachable_all T HA _ _ _ _ _ Hr) as HI.
  eapply terminal_idle_empty; try done.
  - intros a. apply fut_no_panic; [apply (ac_own _ HA)|apply (ia_own _ HI)|apply (ia_fut _ HI)].
  - by eapply reachable_has_pool.
Qed.

(* C07: the code's panics (second take of a result, Panic arms of the tables, unexpected state in run_one_job_now) are unreachable *)
Theorem no_panic_reachable T (HA : all_cond T) scripts npool nev tr s a :
  run T (init scripts npool nev) tr = Some s -> would_panic T s a = false.
Proof.
  intros Hr. pose proof (reachable_all T HA _ _ _ _ _ Hr) as HI.
  apply fut_no_panic; [apply (ac_own _ HA)|apply (ia_own _ HI)|apply (ia_fut _ HI)].
Qed.

(* C07: the result of a scheduler future is delivered (Resolve f _ in the ghost log) at most once *)
Theorem resolve_at_most_once T (HA : all_cond T) scripts npool nev tr s f :
  run T (init scripts npool nev) tr = Some s -> nres f s.(log) <= 1.
Proof.
  intros Hr. pose proof (reachable_all T HA _ _ _ _ _ Hr) as HI. pose proof (if_one _ (ia_fut _ HI) f). lia.
Qed.

(* reading of [wbn]: every started operation has finished, except the open one *)
Lemma wbn_finished l : forall cur, wbn l = Some cur -> forall o, GStart o ∈ l -> GFinish o ∈ l \/ cur = Some o.
Proof.
  induction l as [|ev l IH]; intros cur H o Hin; [by apply elem_of_nil in Hin|].
  cbn in H. destruct (wbn l) as [c0|] eqn:E; cbn in H; [|done]. specialize (IH c0 eq_refl).
  apply elem_of_cons in Hin as [Heq|Hin].
  - subst ev. cbn in H. destruct c0; [done|]. injection H as <-. by right.
  - destruct (IH o Hin) as [Hf|Hc].
    + left. by right.
    + subst c0. destruct ev; cbn in H; try (injection H as <-; by right); try done.
      destruct (decide (o0 = o)) as [->|]; [|done]. left. left.
Qed.

(* detached / dropped / never-polled futures included: in a terminal state with all events fired and a pool runner, every
   operation that was scheduled has started and finished, in the order of scheduling *)
Theorem terminal_all_ran T (HA : all_cond T) scripts npool nev tr s :
  npool >= 1 -> run T (init scripts npool nev) tr = Some s -> terminal T s -> all_fired s ->
  starts s.(log) = pushes s.(log) /\ forall o, GPush o ∈ s.(log) -> GStart o ∈ s.(log) /\ GFinish o ∈ s.(log).
Proof.
  intros Hn Hr Ht Hf. destruct (C06_terminal T HA _ _ _ _ _ Hn Hr Ht Hf) as (Hq & Hj & Hh).
  pose proof (reachable_all T HA _ _ _ _ _ Hr) as HI. pose proof (ia_jobs _ HI) as HJ.
  pose proof (ij_fifo _ HJ) as H1. unfold pend in H1. rewrite Hh, Hj in H1. cbn in H1. rewrite app_nil_r in H1.
  pose proof (ij_log _ HJ) as H2. unfold inprog in H2. rewrite Hh, Hj in H2.
  split; [done|]. intros o Ho.
  assert (Hs : GStart o ∈ log s).
  { assert (o ∈ pushes (log s)).
    { clear -Ho. induction (log s) as [|ev l IH]; [by apply elem_of_nil in Ho|]. cbn. apply elem_of_app.
      apply elem_of_cons in Ho as [<-|Ho]; [right; left|left; by apply IH]. }
    rewrite H1 in H. clear -H. induction (log s) as [|ev l IH]; [by apply elem_of_nil in H|]. cbn in H.
    apply elem_of_app in H as [H|H]; [right; by apply IH|]. destruct ev; try (by apply elem_of_nil in H).
    apply elem_of_list_singleton in H as ->. left. }
  split; [done|]. by destruct (wbn_finished _ _ H2 o Hs).
Qed.
