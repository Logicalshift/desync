(* the stacks of the pool runners: idle, or exactly one drain episode (with waker calls above the job being polled) *)
From stdpp Require Import list numbers option.
From RecordUpdate Require Import RecordUpdate.
From L2 Require Import Model Base Arm Own Shape.
#[global] Unset Lia Cache.

Definition poolm (fr : frame) : bool :=
  match fr with FDRdeq | FDRrequeue _ | FDRpend | FDRfin | FJob _ _ KDrain => true | _ => false end.
Fixpoint lastf (st : list frame) : option frame := match st with [] => None | [x] => Some x | _ :: r => lastf r end.
Definition ispool (st : list frame) : Prop := lastf st = Some FPIdle.
Definition pshape (st : list frame) : Prop :=
  st = [FPIdle] \/ exists pre m, st = pre ++ [m; FPIdle] /\ poolm m = true /\ forallb chain pre = true.
Definition isbot (o : option frame) : Prop := o = Some FPIdle \/ exists sc, o = Some (FTop sc).
Record Inv_pool (s : state) : Prop := {
  ip_shape : forall c st, stacks s !! c = Some st -> ispool st -> pshape st;
  ip_bottom : forall c st, stacks s !! c = Some st -> isbot (lastf st);
}.
Definition has_pool (s : state) : Prop := exists p st, stacks s !! p = Some st /\ ispool st.

Lemma last_cons_ne x l : l <> [] -> lastf (x :: l) = lastf l.
Proof. by destruct l. Qed.
Lemma last_app_ne pre l : l <> [] -> lastf (pre ++ l) = lastf l.
Proof. intros H. induction pre as [|x pre IH]; [done|]. change ((x :: pre) ++ l) with (x :: (pre ++ l)). rewrite last_cons_ne; [done|by destruct pre, l]. Qed.

Definition pshape' (rest : list frame) : Prop := exists pre m, rest = pre ++ [m; FPIdle] /\ poolm m = true /\ forallb chain pre = true.
Lemma pshape_inv fr rest : pshape (fr :: rest) ->
  (fr = FPIdle /\ rest = []) \/ (poolm fr = true /\ rest = [FPIdle]) \/ (chain fr = true /\ pshape' rest).
Proof.
  intros [[= -> ->]|(pre & m & E & Hm & Hc)]; [by left|right].
  destruct pre as [|x pre]; cbn in E; injection E as -> ->; [by left|right].
  cbn in Hc. apply andb_true_iff in Hc as [? ?]. split; [done|]. by exists pre, m.
Qed.
Lemma pshape_chain pre rest : forallb chain pre = true -> pshape' rest -> pshape (pre ++ rest).
Proof.
  intros Hc (pre' & m & -> & Hm & Hc'). right. exists (pre ++ pre'), m. rewrite app_assoc. split; [done|]. split; [done|].
  by rewrite forallb_app, Hc, Hc'.
Qed.
Lemma pshape_m pre m : poolm m = true -> forallb chain pre = true -> pshape (pre ++ [m; FPIdle]).
Proof. intros Hm Hc. right. by exists pre, m. Qed.

Lemma pool_update s s' a old new :
  Inv_pool s -> stacks s !! a = Some old -> stacks s' = <[a := new]> (stacks s) ->
  (isbot (lastf old) -> isbot (lastf new) /\ (ispool new <-> ispool old)) ->
  (pshape old -> pshape new) -> Inv_pool s' /\ (has_pool s -> has_pool s').
Proof.
  intros [I1 I2] Ha Hs Hb Hps. destruct (Hb (I2 _ _ Ha)) as [Hb1 Hb2]. split; [split|].
  - apply (allstk_update (fun st => ispool st -> pshape st) s s' a old new I1 Ha Hs). intros H Hi. apply Hps, H, Hb2, Hi.
  - by apply (allstk_update (fun st => isbot (lastf st)) s s' a old new I2 Ha Hs).
  - intros (p & st & Hp & Hi). destruct (decide (p = a)) as [->|Hn].
    + exists a, new. split; [rewrite Hs, list_lookup_insert; [done|by eapply lookup_lt_Some]|]. rewrite Ha in Hp. injection Hp as <-. by apply Hb2.
    + exists p, st. split; [by rewrite Hs, list_lookup_insert_ne|done].
Qed.


(* the bottom frame stays (a script frame loses its head); only when the arm consumes the whole stack is there anything to check *)
Lemma lastf_arm s a l r :
  isbot (lastf (arm_old l ++ r)) -> isbot (lastf (arm_new s a l ++ r)) /\ (ispool (arm_new s a l ++ r) <-> ispool (arm_old l ++ r)).
Proof.
  unfold ispool. destruct r as [|x r]; [|by rewrite !last_app_ne]. rewrite !app_nil_r.
  destruct l; cbn; try (by intros [?|[? ?]]); try (split; [first [by left|right; by eexists]|done]).
  all: destruct c; by intros [?|[? ?]].
Qed.
Lemma poolm_ret_ready k : poolm (ret_ready k) = poolm (FJob (JPlain 0) WQueue k). Proof. by destruct k. Qed.
Lemma poolm_ret_pending k j : poolm (ret_pending k j) = poolm (FJob j WQueue k). Proof. by destruct k. Qed.
Lemma pshape_arm s a l r : pshape (arm_old l ++ r) -> pshape (arm_new s a l ++ r).
Proof.
  destruct l; cbn; intros Hp; apply pshape_inv in Hp as [[Ez1 Ez2]|[[Hm Ez2]|[Hc Hp']]]; try discriminate; subst.
  all: try (by left).
  all: rewrite <- ?app_assoc; cbn [app].
  all: try (apply (pshape_m []); [first [reflexivity|rewrite ?poolm_ret_ready, ?poolm_ret_pending; exact Hm]|reflexivity]).
  all: try (apply pshape_m; [exact Hm|first [apply chain_opt_wake|apply chain_fired_frames]]).
  all: try (apply (pshape_chain []); [reflexivity|exact Hp']).
  all: try (apply pshape_chain; [first [apply chain_opt_wake|apply chain_fired_frames]|exact Hp']).
  all: lazymatch goal with
       | |- pshape (?x :: ?y :: ?r) => apply (pshape_chain [x; y] r); [reflexivity|exact Hp']
       | |- pshape (?x :: ?r) => apply (pshape_chain [x] r); [reflexivity|exact Hp'] end.
Qed.

Section Pres.
  Context (T : ftables).
  Lemma step_pool_inv s a s' : Inv_pool s -> step T s a = Some s' -> Inv_pool s' /\ (has_pool s -> has_pool s').
  Proof.
    intros HI (l & r & Hst & Hs' & _)%step_arm.
    eapply (pool_update s s' a _ _ HI Hst Hs'); [apply lastf_arm|apply pshape_arm].
  Qed.
End Pres.

Lemma init_pool scripts npool nev : Inv_pool (init scripts npool nev).
Proof.
  split; intros c st [->|[sc ->]]%init_stacks; [by left|done|by left|right; by exists sc].
Qed.
Lemma init_has_pool scripts npool nev : npool >= 1 -> has_pool (init scripts npool nev).
Proof.
  intros Hn. exists (length scripts), [FPIdle]. split; [|done].
  unfold stacks, init; cbn. rewrite list_lookup_fmap, lookup_app_r by (by rewrite fmap_length).
  rewrite fmap_length, Nat.sub_diag. destruct npool; [lia|done].
Qed.
