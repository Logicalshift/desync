(* C06: the wake invariant across the steps of the SyncFuture on its owner task, which is not a
   runner: it registers and unregisters its own task waker and consumes its own park token *)
From stdpp Require Import list numbers option.
From RecordUpdate Require Import RecordUpdate.
From L2 Require Import Model Base Arm Own Jobs Shape DwInv Wake WakeInv WakeLem.
#[global] Unset Lia Cache.

Section Steps.
  Context (T : ftables) (HT : own_cond T) (HC : jobs_cond T) (HW : wake_cond T).
  Lemma ws_task_step s s' a fr0 fr1 r :
    Inv_own s -> Inv_shape s -> Inv_wake s -> stacks s !! a = Some ([fr0] ++ r) -> stacks s' = <[a := [fr1] ++ r]> (stacks s) ->
    relv fr0 = false -> marker fr0 = false -> chain fr0 = false -> relv fr1 = false -> marker fr1 = false ->
    s'.(qs) = s.(qs) -> s'.(jobs) = s.(jobs) -> s'.(insched) = s.(insched) -> s'.(dws) = s.(dws) -> s'.(dbl) = s.(dbl) ->
    (forall c, c <> a -> tokb s' c = tokb s c) ->
    (forall e, (getev s' e).(fired) = (getev s e).(fired) /\
       forall w, (forall c, w <> WTask c) -> (w ∈ (getev s' e).(wakers) <-> w ∈ (getev s e).(wakers))) ->
    Inv_wake s'.
  Proof.
    intros HO HS HI Hst Hs Hr0 Hm0 Hc0 Hr1 Hm1 Hq Hj Hi Hdw Hdb Htk Hev.
    pose proof (plain_top_not_runner s a _ _ HS Hst Hc0 Hm0) as Hna.
    assert (Hunf : forall e w, (forall c, w <> WTask c) -> unfreg s' e w = unfreg s e w).
    { intros e w Hw. unfold unfreg. destruct (Hev e) as [-> Hin]. f_equal. apply bool_decide_ext. by apply Hin. }
    assert (Hnp : forall P, (forall fr, P fr = true -> relv fr = true) -> np P s' = np P s).
    { intros P HP. eapply np_same; [exact Hst|exact Hs|]. cbn.
      destruct (P fr0) eqn:E0; [by rewrite (HP _ E0) in Hr0|]. destruct (P fr1) eqn:E1; [by rewrite (HP _ E1) in Hr1|done]. }
    assert (Hgd : forall e d, gd s' e d = gd s e d).
    { intros e d. unfold gd, dw_woken, getdw. rewrite Hdw, Hunf by done. f_equal. f_equal. f_equal. apply Hnp. by intros []. }
    eapply (wake_mono s s' a _ _ r HO HI Hst Hs); try done.
    - intros fr ->%elem_of_list_singleton. by apply nonmarker_ok.
    - intros _. apply tview_intro; [done|by rewrite (hsusp_jobs _ _ Hj)| | |intros e d _; by rewrite Hgd].
      + intros e w Hw. apply reg_mono; [rewrite Hunf; [done|by destruct Hw as [->|[c ->]] ]|]. rewrite Hnp; [done|by intros []].
      + intros c Hc. unfold unp. rewrite (Htk c (Hna c Hc)), Hnp; [done|by intros []].
    - intros e. apply (cover_keepX s s' a fr0 r [fr1] e Hst Hs).
      + intros w Hf Hin He. destruct (Hev e) as [-> Hw]. split; [done|]. apply Hw; [|done]. by intros c ->.
      + intros w. by rewrite (effq_same s s').
      + intros w. by rewrite (effw_same s s').
      + intros d _. by rewrite Hgd.
      + intros w ->. done.
      + intros d w ->. done.
    - rewrite Hnp; [done|by intros []].
    - rewrite Hnp, Hi; [done|by intros []].
  Qed.
End Steps.
Lemma Inv_shape_addlog s l : Inv_shape s -> Inv_shape (addlog s l). Proof. intros H c st Hc. by apply (H c st). Qed.

(* event cells that differ only in registered task wakers *)
Definition evs_task_eq (s s' : state) : Prop :=
  forall e, (getev s' e).(fired) = (getev s e).(fired) /\
     forall w, (forall c, w <> WTask c) -> (w ∈ (getev s' e).(wakers) <-> w ∈ (getev s e).(wakers)).
Lemma evs_task_eq_refl s s' : s'.(evs) = s.(evs) -> evs_task_eq s s'.
Proof. intros H e. unfold getev. by rewrite H. Qed.
Lemma evs_task_eq_evs s s1 s' : s'.(evs) = s1.(evs) -> evs_task_eq s s1 -> evs_task_eq s s'.
Proof. intros H H1 e. unfold getev. rewrite H. apply H1. Qed.
Lemma evs_task_eq_trans s1 s2 s3 : evs_task_eq s1 s2 -> evs_task_eq s2 s3 -> evs_task_eq s1 s3.
Proof. intros H1 H2 e. destruct (H1 e) as [F1 W1], (H2 e) as [F2 W2]. split; [congruence|]. intros w Hw. by rewrite W2, W1. Qed.
Lemma setev_ge s e c : length s.(evs) <= e -> setev s e c = s.
Proof. intros H. unfold setev. rewrite list_insert_ge by lia. by destruct s. Qed.
Lemma evs_reg_task s e a : evs_task_eq s (setev s e (getev s e <| wakers := WTask a :: (getev s e).(wakers) |>)).
Proof.
  destruct (decide (e < length s.(evs))) as [Hlt|Hge]; [|rewrite setev_ge by lia; by apply evs_task_eq_refl].
  intros e'. destruct (decide (e' = e)) as [->|Hne].
  - rewrite getev_setev_eq by done. cbn. split; [done|].
    intros w Hw. rewrite elem_of_cons. split; [intros [->|?]; [by destruct (Hw a)|done]|by right].
  - by rewrite getev_setev_ne.
Qed.
Lemma evs_rereg_task s e a :
  evs_task_eq s (setev s e (getev s e <| wakers := WTask a :: List.filter (fun w => negb (is_task a w)) (getev s e).(wakers) |>)).
Proof.
  destruct (decide (e < length s.(evs))) as [Hlt|Hge]; [|rewrite setev_ge by lia; by apply evs_task_eq_refl].
  intros e'. destruct (decide (e' = e)) as [->|Hne].
  - rewrite getev_setev_eq by done. cbn. split; [done|].
    intros w Hw. rewrite elem_of_cons, !elem_of_list_In, filter_In. split.
    + intros [->|[? _]]; [by destruct (Hw a)|done].
    + intros H. right. split; [done|]. destruct w; try done. by destruct (Hw c).
  - by rewrite getev_setev_ne.
Qed.
Lemma evs_unreg_task s e a : evs_task_eq s (setev s e (getev s e <| wakers := List.filter (fun w => negb (is_task a w)) (getev s e).(wakers) |>)).
Proof.
  destruct (decide (e < length s.(evs))) as [Hlt|Hge]; [|rewrite setev_ge by lia; by apply evs_task_eq_refl].
  intros e'. destruct (decide (e' = e)) as [->|Hne].
  - rewrite getev_setev_eq by done. cbn. split; [done|].
    intros w Hw. rewrite !elem_of_list_In, filter_In. split; [by intros [? _]|]. intros H. split; [done|].
    destruct w; try done. by destruct (Hw c).
  - by rewrite getev_setev_ne.
Qed.
