(* C08 on the real queue machinery: the safety invariant Inv_y of future_sync.  A call is a triple (o, f, r) of a ghost event GYnew:
   slot job, SchedulerFuture, queue_ready cell (the done cell is S r).  Every job is a user job or the slot job of its call, at a
   point of its three-step script that agrees with the two cells; every SyncFuture frame agrees with the ghost log about the life
   of its user future; every user-future event of the log lies inside the slot. *)
From stdpp Require Import list numbers option.
From RecordUpdate Require Import RecordUpdate.
From L2 Require Import Model Base Own Jobs Fut.
#[global] Unset Lia Cache.

Definition plainp (nev : nat) (p : fprim) : bool :=
  match p with PTouch => true | PAwait e => e <? nev | PAwaitEither e1 e2 => (e1 <? nev) && (e2 <? nev) | _ => false end.
Definition opwf (nev : nat) (o : cop) : bool :=
  match o with
  | OFuture b _ | OFutSync b _ => forallb (plainp nev) b
  | OFire e | OSuspend e _ => e <? nev
  | _ => true
  end.
Definition ywf (nev : nat) (scripts : list (list cop)) : Prop := Forall (fun sc => forallb (opwf nev) sc = true) scripts.

Notation triple := (nat * nat * nat)%type.
Fixpoint ynews (l : list gev) : list triple :=
  match l with [] => [] | GYnew o f r :: l' => (o, f, r) :: ynews l' | _ :: l' => ynews l' end.
Definition Ys (s : state) : list triple := ynews s.(log).
Fixpoint ysorted (Y : list triple) : Prop :=
  match Y with
  | [] => True
  | (o, f, r) :: Y' => (forall o' f' r', (o', f', r') ∈ Y' -> o' < o /\ f' < f /\ r' + 1 < r) /\ ysorted Y'
  end.
Definition sep (t t' : triple) : Prop :=
  t = t' \/ (t.1.1 < t'.1.1 /\ t.1.2 < t'.1.2 /\ t.2 + 1 < t'.2) \/ (t'.1.1 < t.1.1 /\ t'.1.2 < t.1.2 /\ t'.2 + 1 < t.2).
Lemma ysorted_sep Y : ysorted Y -> forall t t', t ∈ Y -> t' ∈ Y -> sep t t'.
Proof.
  induction Y as [|[[o f] r] Y IH]; cbn; [intros _ t t' H; by apply elem_of_nil in H|].
  intros [H1 H2] t t' [->|Ht]%elem_of_cons [->|Ht']%elem_of_cons.
  - by left.
  - destruct t' as [[o' f'] r']. destruct (H1 _ _ _ Ht') as (? & ? & ?). right; right. cbn. lia.
  - destruct t as [[o' f'] r']. destruct (H1 _ _ _ Ht) as (? & ? & ?). right; left. cbn. lia.
  - by apply IH.
Qed.
Lemma ynews_in l o f r : (o, f, r) ∈ ynews l <-> GYnew o f r ∈ l.
Proof.
  induction l as [|e l IH]; cbn; [by rewrite !elem_of_nil|].
  destruct e; rewrite ?elem_of_cons, IH; try (split; [by right|intros [?|?]; [discriminate|done] ]).
  split; (intros [H|H]; [left; congruence|by right]).
Qed.

Definition firedP (s : state) (e : nat) : Prop := (getev s e).(fired) = true.
Definition noy (s : state) (o : nat) : Prop := forall f r, (o, f, r) ∉ Ys s.
Definition slot (r f : nat) : list fprim := [PSendReady r; PAwaitDone (S r); PSignal f].

Definition usrp (nev : nat) (s : state) (p : fprim) : Prop :=
  match p with PSignal f => f < length s.(futs) /\ forall o r, (o, f, r) ∉ Ys s | _ => plainp nev p = true end.
Definition scok (nev : nat) (s : state) (o : nat) (st : jstate) (sc : list fprim) : Prop :=
  (forall f r, (o, f, r) ∈ Ys s ->
     sc = slot r f \/
     (st = Waiting /\ firedP s r /\ (sc = [PAwaitDone (S r); PSignal f] \/ (firedP s (S r) /\ (sc = [PSignal f] \/ sc = []))))) /\
  (noy s o -> Forall (usrp nev s) sc).
(* what a frame that is going to take the result of f needs *)
Definition futok (s : state) (f : nat) : Prop := f < length s.(futs) /\ forall o r, (o, f, r) ∈ Ys s -> GUFinish o ∈ s.(log).
Definition tkok (s : state) (tk : option nat) : Prop := match tk with Some f => futok s f | None => True end.
Definition jobok (nev : nat) (s : state) (j : job) : Prop :=
  jop j < s.(nextop) /\
  match j with JFut o st sc => scok nev s o st sc | JPlain o => noy s o | JSync o _ tk => noy s o /\ tkok s tk end.

Definition isYF (st : ystate) : Prop := match st with YFuture _ => True | YQueue _ => False end.
Definition ybody (st : ystate) : list fprim := match st with YFuture b | YQueue b => b end.
Definition yfrok (nev : nat) (s : state) (pc : ypc) (y : ydat) (st : ystate) (u : fuse) : Prop :=
  let o := y.(y_op) in
  (o, y.(y_f), y.(y_r)) ∈ Ys s /\ ~ firedP s (S y.(y_r)) /\ GYdrop o ∉ s.(log) /\
  (GUStart o ∈ s.(log) <-> isYF st) /\ (GUFinish o ∈ s.(log) <-> pc = YPfin) /\
  (GUCancel o ∈ s.(log) <-> (pc = YPdrop2 /\ isYF st)) /\
  (isYF st -> firedP s y.(y_r)) /\ forallb (plainp nev) (ybody st) = true /\ (pc = YPpark -> u = UAwait).

Definition frok (nev : nat) (s : state) (fr : frame) : Prop :=
  match fr with
  | FTop sc => forallb (opwf nev) sc = true
  | FD1 j | FJob j _ _ | FDQrequeue _ _ j | FDRrequeue j | FROpend j | FROcheck j | FROpark j | FDQlate j => jobok nev s j
  | FUse f _ | FAwRet f | FPark f | FDropRet f _ | FFS1 f => futok s f
  | FS1 op tk | FClosure op tk | FSDpush op tk | FSBreg op tk | FSBpush op tk => op < s.(nextop) /\ noy s op /\ tkok s tk
  | FFire e => e < nev
  | FY pc y st u => yfrok nev s pc y st u
  | _ => True
  end.

(* below, l is the log before the event *)
Definition urun (o : nat) (l : list gev) : Prop :=
  wbn l = Some (Some o) /\ GUStart o ∈ l /\ GUFinish o ∉ l /\ GUCancel o ∉ l /\ GYdrop o ∉ l.
Definition udone (o : nat) (l : list gev) : Prop :=
  (GUFinish o ∈ l \/ GYdrop o ∈ l) /\ (GUStart o ∈ l -> GUFinish o ∈ l \/ GUCancel o ∈ l).
Definition ycall (o : nat) (l : list gev) : Prop := exists f r, GYnew o f r ∈ l.
Definition evok (e : gev) (l : list gev) : Prop :=
  match e with
  | GUStart o => ycall o l /\ wbn l = Some (Some o) /\ GUStart o ∉ l /\ GYdrop o ∉ l
  | GUStep o | GUFinish o | GUCancel o => ycall o l /\ urun o l
  | GYdrop o => ycall o l /\ GYdrop o ∉ l /\ GUFinish o ∉ l /\ (GUStart o ∈ l -> GUCancel o ∈ l)
  | GFinish o => forall f r, GYnew o f r ∈ l -> udone o l
  | GSig f v => forall o r, GYnew o f r ∈ l -> v = o /\ udone o l
  | GResolve f v => forall o r, GYnew o f r ∈ l -> GUFinish o ∈ l
  | _ => True
  end.
Fixpoint logall (P : gev -> list gev -> Prop) (l : list gev) : Prop :=
  match l with [] => True | e :: r => P e r /\ logall P r end.
Lemma logall_split P l : logall P l -> forall l2 e l1, l = l2 ++ e :: l1 -> P e l1.
Proof.
  induction l as [|x l IH]; intros H l2 e l1 E; [by destruct l2|].
  destruct l2 as [|x2 l2]; cbn in E; injection E as -> ->; cbn in H; [tauto|]. eapply IH; [tauto|done].
Qed.

Lemma logall_in P l e : logall P l -> e ∈ l -> exists l2 l1, l = l2 ++ e :: l1 /\ P e l1.
Proof.
  intros H Hin. apply elem_of_list_split in Hin as (l2 & l1 & ->). exists l2, l1. split; [done|]. by eapply logall_split.
Qed.

Record Inv_y (nev : nat) (s : state) : Prop := {
  y_len : nev <= length s.(evs);
  y_rng : forall o f r, (o, f, r) ∈ Ys s -> o < s.(nextop) /\ f < length s.(futs) /\ nev <= r /\ r + 1 < length s.(evs);
  y_sorted : ysorted (Ys s);
  y_frames : forall c st fr, stacks s !! c = Some st -> fr ∈ st -> frok nev s fr;
  y_jobs : forall j, j ∈ s.(jobs) -> jobok nev s j;
  y_t1 : forall o f r, (o, f, r) ∈ Ys s -> firedP s r -> ~ firedP s (S r) -> wbn s.(log) = Some (Some o);
  y_t2 : forall o f r v, (o, f, r) ∈ Ys s -> GSig f v ∈ s.(log) -> v = o /\ firedP s (S r);
  y_t3 : forall o f r, (o, f, r) ∈ Ys s -> firedP s (S r) -> udone o s.(log);
  y_sigr : forall f v, GSig f v ∈ s.(log) -> f < length s.(futs);
  y_log : logall evok s.(log);
}.
