(* Zero pool runners, one awaiting caller: which frames occur, the result stays missing while drain_queue polls a job, and the
   queue is parked in WaitingForPoll only *)
From stdpp Require Import list numbers option.
From RecordUpdate Require Import RecordUpdate.
From L2 Require Import Model Base Own Jobs Shape DwInv Pool OpShape Fut Wake WakeInv WakeLem WakeStep1 Effect Term Task TaskInv Complete Zero.
#[global] Unset Lia Cache.

Record zero_cond (T : ftables) : Prop := {
  zc_deq : forall st, running st = true -> T.(ft_base).(t_dequeue_refuses) st = false;
  zc_poll_self : forall f, T.(t_poll) f (WaitingForPoll f) = (Running, PADrain);
  zc_poll_wait : forall f st st', T.(t_poll) f st = (st', PAWait) ->
     owned st = true \/ st = WaitingForWake \/ exists f', f' <> f /\ st = WaitingForPoll f';
}.

Definition stk_ok (c : nat) (st : list frame) : bool := if bool_decide (c = 0) then forallb ok0 st else forallb okf st.
Record Inv_zp (s : state) : Prop := {
  zp_stacks : forall c st, stacks s !! c = Some st -> stk_ok c st = true;
  zp_jobs : forallb wfjob s.(jobs) = true;
}.

Lemma wfsc_app_sig body f : sigfreeb body = true -> wfsc (body ++ [PSignal f]) = true.
Proof.
  induction body as [|p body IH]; cbn; [done|]. intros [Hp Hb]%andb_true_iff. specialize (IH Hb). by destruct p.
Qed.
Lemma wfsc_sig_last f sc : wfsc (PSignal f :: sc) = true -> sc = [].
Proof. cbn. by destruct sc. Qed.
Lemma ok0_succs s a fr : forallb wfjob s.(jobs) = true -> ok0 fr = true -> forallb ok0 (succs s a fr) = true.
Proof.
  intros Hj. destruct fr; try done; revert Hj; succs_split; try done; cbn; intros Hj Hk.
  - by rewrite Hk.
  - apply andb_true_iff in Hk as [Hu ->]. destruct u; try done; by rewrite (wfsc_app_sig _ _ Hu).
  - by apply andb_true_iff in Hj as [-> _].
  - by rewrite Hk.
  - destruct f0; try done; try (by rewrite Hk); by destruct l.
Qed.
Lemma okf_succs s a fr : okf fr = true -> forallb okf (succs s a fr) = true.
Proof. destruct fr; try done; succs_split; try done. cbn. by intros ->. Qed.

Section ZP.
  Context (T : ftables).
  Lemma step_zp s a s' : Inv_zp s -> step T s a = Some s' -> Inv_zp s'.
  Proof.
    intros [I1 I2] Hstep. split.
    - intros c st. unfold stk_ok. destruct (bool_decide (c = 0)) eqn:Ec.
      + apply (step_frames_pred T ok0 s a s'); [done|intros fr; by apply ok0_succs|done|].
        intros st0 Hc0. pose proof (I1 c st0 Hc0) as H. unfold stk_ok in H. by rewrite Ec in H.
      + apply (step_frames_pred T okf s a s'); [done|apply okf_succs|done|].
        intros st0 Hc0. pose proof (I1 c st0 Hc0) as H. unfold stk_ok in H. by rewrite Ec in H.
    - destruct (step_eff _ _ _ _ Hstep) as (fr & rest & Hst & E). pose proof (ef_jobs _ _ _ _ _ E) as Hj.
      assert (Hk : ok0 fr = true \/ okf fr = true).
      { pose proof (I1 a _ Hst) as Hk. unfold stk_ok in Hk. cbn in Hk. destruct (bool_decide (a = 0)); apply andb_true_iff in Hk as [? _]; auto. }
      destruct fr; try (by rewrite Hj); cbn in Hk; try (by destruct Hk).
      + rewrite Hj, forallb_app. cbn. rewrite I2. by destruct Hk as [->|?].
      + destruct Hj as [->|[j Hj] ]; [done|]. rewrite Hj in I2. by apply andb_true_iff in I2 as [_ ?].
      + rewrite Hj. cbn. rewrite I2. by destruct Hk as [->|?].
  Qed.
End ZP.
Lemma forallb_repl {A} (p : A -> bool) n x : p x = true -> forallb p (replicate n x) = true.
Proof. intros H. induction n; cbn; [done|]. by rewrite H. Qed.

Lemma forallb_in {A} (p : A -> bool) l x : forallb p l = true -> x ∈ l -> p x = true.
Proof. intros H Hin. rewrite forallb_forall in H. apply H. by apply elem_of_list_In. Qed.
(* the poller's own future still has its job somewhere: drain_queue cannot find the queue empty *)
Lemma zero_no_empty s a f rest : Inv_own s -> Inv_shape s -> Inv_fut s -> Inv_zp s -> Inv_task s ->
  stacks s !! a = Some (FDQdeq f :: rest) -> s.(jobs) = [] -> False.
Proof.
  intros HO HS HF HZ HT Hst Hj.
  assert (Ha0 : a = 0).
  { pose proof (zp_stacks _ HZ a _ Hst) as H. unfold stk_ok in H. case_bool_decide; [done|]. cbn in H. done. }
  pose proof (it_rn _ HT a _ _ Hst ltac:(left)) as Hrn. cbn in Hrn. apply bool_decide_eq_true in Hrn.
  pose proof (if_poll _ HF _ _ Hst) as Hpo. cbn in Hpo. apply andb_true_iff in Hpo as [Hadj _]. unfold adjok in Hadj. cbn in Hadj.
  destruct rest as [|y r]; [done|].
  assert (Hwy : wf f y = true) by (destruct y; try done; by destruct pc).
  assert (Hlt : f < length (futs s)) by (eapply (wf_in_range s a _ y f HF Hst); [right; left|done]).
  pose proof (it_sig _ HT f Hlt Hrn) as Hn. unfold nsig in Hn. rewrite Hj in Hn. cbn in Hn.
  assert (Hp : np (sgf f) s > 0) by lia. apply np_pos_fsat in Hp as (c & fr & (st & Hc & Hin) & Hsg).
  destruct (marker_unique s a _ _ HO Hst eq_refl) as [Hr Ho].
  destruct (marker fr) eqn:Hm.
  - destruct (decide (c = a)) as [->|Hne]; [|by rewrite (Ho c fr Hne ltac:(by exists st)) in Hm].
    rewrite Hst in Hc. injection Hc as <-. apply elem_of_cons in Hin as [->|Hin]; [done|]. by rewrite (Hr _ Hin) in Hm.
  - destruct fr; try done. (* FD1 *)
    destruct (decide (c = a)) as [->|Hne].
    + rewrite Hst in Hc. injection Hc as <-. apply elem_of_cons in Hin as [?|Hin]; [done|].
      destruct (HS a _ Hst) as (_ & _ & H3). change (cntf toponly (y :: r) = 0) in H3. by pose proof (cntf_zero_all toponly _ H3 _ Hin).
    + pose proof (zp_stacks _ HZ c _ Hc) as H. unfold stk_ok in H. rewrite bool_decide_false in H by congruence.
      by pose proof (forallb_in okf _ _ H Hin).
Qed.

Lemma rn2_nonmarker s fr : marker fr = false -> rn2_ok s fr = true. Proof. by destruct fr. Qed.
(* the frames of drain_queue whose successors carry the obligation *)
Definition rn2src (fr : frame) : bool :=
  match fr with FDQdeq _ | FDQrequeue _ _ _ | FDQtake2 _ _ | FDQstore _ _ | FJob _ _ (KDq _ _) => true | _ => false end.
Lemma rn2_succs s s' a fr x : rn2src fr = false -> rn2_ok s fr = true -> x ∈ succs s a fr -> rn2_ok s' x = true.
Proof.
  intros Hf Hk Hin. pose (rel y := match y with FDQrequeue _ _ _ | FDQtake2 _ _ | FDQwfp _ _ | FJob _ _ (KDq _ _) | FDQwfw _ _ | FDQempty1 _ | FDQempty2 _ => false | _ => true end).
  refine (_ (succs_forallb rel _ _ _ _ _ Hin)); [destruct x; try done; by destruct k|].
  destruct fr; try done; succs_split; done.
Qed.

Section RN2.
  Context (T : ftables) (HZ : zero_cond T).
  Lemma step_rn2 s a s' : Inv_own s -> Inv_shape s -> Inv_fut s -> Inv_zp s -> Inv_task s ->
    (forall c st fr, stacks s !! c = Some st -> fr ∈ st -> rn2_ok s fr = true) ->
    step T s a = Some s' -> forall c st fr, stacks s' !! c = Some st -> fr ∈ st -> rn2_ok s' fr = true.
  Proof.
    intros HO HS HF HZP HT I2 Hstep. destruct (step_eff _ _ _ _ Hstep) as (fr & rest & Hst & E).
    assert (Hok0 := I2 a _ _ Hst ltac:(left)). destruct (rn2src fr) eqn:Esrc; cycle 1.
    { (* rn2src fr = false: the pushed frames carry no obligation; the others keep theirs since no result arrives *)
      destruct (eff_frames _ _ _ _ _ E) as (new & Hs & Hnew & _).
      assert (Hn : forall y, y ∈ new -> y ∈ rest \/ rn2_ok s' y = true).
      { intros y Hy. destruct (Hnew _ Hy) as [Hw|[Hsu|Hr]]; [right; by destruct y|right; by eapply rn2_succs|by left]. }
      destruct (marker fr) eqn:Em; [by eapply (marked_runner_step rn2_ok s s' a _ _ _ rn2_nonmarker HO Hst Em Hs Hn)|].
      eapply (marked_other_step rn2_ok s s' a _ _ _ rn2_nonmarker Hst Hs Hn); [|exact I2].
      assert (Hres : forall f, res (getf s f) = FNone -> res (getf s' f) = FNone).
      { intros f Hr. destruct (ef_res _ _ _ _ _ E f Hr) as [?|(o & r & w & k & ->)]; done. }
      intros y _. destruct y; try done; cbn; try (destruct k; try done); rewrite ?orb_true_iff, ?bool_decide_eq_true; intuition. }
    clear E. destruct fr; try discriminate Esrc; step_at Hstep Hst.
    all: try discriminate Hstep. all: injection Hstep as <-. all: pop_cont_split.
    all: try (match goal with k : kont |- _ => destruct k end; try discriminate Esrc).
    all: cbn in Hok0; try discriminate Hok0.
    all: eapply (marked_runner_step rn2_ok s _ a _ _ _ rn2_nonmarker HO Hst eq_refl); [solve_stacks|].
    all: intros fr0 Hin; cbn [ret_ready ret_pending] in Hin; rewrite ?elem_of_app in Hin;
         repeat (first [ apply elem_of_cons in Hin as [->|Hin]; [right|]
                       | destruct Hin as [Hin|Hin]; [right; first [ destruct (fwaker (getf s f0)); [apply elem_of_list_singleton in Hin as ->|by apply elem_of_nil in Hin]
                                                                  | unfold wake_frames in Hin; apply elem_of_list_fmap in Hin as (? & -> & _) ] |] ]);
         [..|first [by left|left; by right] ]; try reflexivity.
    all: cbn [rn2_ok ret_pending]; rewrite ?orb_true_iff in *.
    (* the result cannot have arrived while the job polled returned Pending *)
    all: try (lazymatch goal with Hst : stacks _ !! _ = Some (FDQtake2 _ _ :: _) |- false = true => apply bool_decide_eq_true in Hok0; congruence end).
    all: try (destruct Hok0 as [Hok0|Hok0]; [|discriminate Hok0]).
    all: try (apply bool_decide_eq_true in Hok0).
    all: try (lazymatch goal with Hst : stacks _ !! _ = Some (?x :: _) |- _ =>
              lazymatch x with FDQdeq _ => idtac | FDQstore _ _ => idtac end;
              pose proof (it_rn _ HT a _ x Hst ltac:(left)) as Hrn; cbn in Hrn; apply bool_decide_eq_true in Hrn end).
    (* a signal inside a job polled by drain_queue: the job's own future only as the last prim *)
    all: try (lazymatch goal with Hst : stacks _ !! _ = Some (FJob (JFut _ Waiting (PSignal ?f0 :: ?l)) _ (KDq ?f1 _) :: _) |- _ =>
              assert (Hwf : wfsc (PSignal f0 :: l) = true) by
                (pose proof (zp_stacks _ HZP a _ Hst) as Hk; unfold stk_ok in Hk; case_bool_decide; cbn in Hk; [by apply andb_true_iff in Hk as [? _]|done]);
              destruct (decide (f0 = f1)) as [->|Hnf];
              [ right; by rewrite (wfsc_sig_last _ _ Hwf)
              | left; apply bool_decide_eq_true; match goal with |- res (getf ?s1 ?fq) = _ =>
                  rewrite (getf_futs s1 (setf s f0 {| res := FSome _; fwaker := None |}) fq eq_refl) end;
                unfold getf, setf; cbn; rewrite list_lookup_insert_ne by done; exact Hok0 ] end).
    all: try (left).
    all: try (apply bool_decide_eq_true).
    all: try (match goal with |- res (getf ?s1 ?fq) = _ => rewrite (getf_futs s1 s fq eq_refl); first [exact Hok0|exact Hrn] end).
    (* drain_queue never finds the queue empty *)
    - exfalso. destruct (runner_working s a _ HO Hst ltac:(cbn; lia)) as [H1 H2]. rewrite (zc_deq _ HZ) in E; [done|by apply owned_running].
    - exfalso. by eapply (zero_no_empty s a f rest).
    - eapply res_none_setf; [reflexivity|by intros _ ?|exact Hrn].
  Qed.
End RN2.

Definition awaits0 (s : state) (f : nat) : Prop := exists st0, stacks s !! 0 = Some st0 /\ (FAwRet f ∈ st0 \/ FPark f ∈ st0).
Record Inv_zq (s : state) : Prop := {
  zq_nowfw : s.(qs) <> WaitingForWake;
  zq_wfp : forall f, s.(qs) = WaitingForPoll f -> (getf s f).(res) = FNone /\ awaits0 s f;
}.
Lemma wq_keeps T (HW : wake_cond T) st st' c : T.(t_wake_queue) st = (st', c) -> st <> Panicked -> st <> WaitingForWake ->
  st' <> WaitingForWake /\ (forall f, st' = WaitingForPoll f -> st = WaitingForPoll f) /\ (forall f, st = WaitingForPoll f -> st' = st).
Proof.
  intros E Hp Hw. destruct st; try done.
  - rewrite (wc_wq_idle _ HW) in E. injection E as <- <-. done.
  - pose proof (wc_wq_pending _ HW) as H. rewrite E in H. cbn in H. subst. done.
  - pose proof (wc_wq_running _ HW Running eq_refl) as H. rewrite E in H. cbn in H. subst. done.
  - pose proof (wc_wq_wfu _ HW) as H. rewrite E in H. cbn in H. subst. done.
  - rewrite (wc_wq_wfp _ HW) in E. injection E as <- <-. split; [done|]. split; [by intros ? [= ->]|done].
  - pose proof (wc_wq_running _ HW AwokenWhileRunning eq_refl) as H. rewrite E in H. cbn in H. subst. done.
Qed.
Lemma wt_keeps T (HW : wake_cond T) st : st <> Panicked -> st <> WaitingForWake ->
  let st' := T.(t_wake_thread) st in
  st' <> WaitingForWake /\ (forall f, st' = WaitingForPoll f -> st = WaitingForPoll f) /\ (forall f, st = WaitingForPoll f -> st' = st).
Proof.
  intros Hp Hw. cbn. destruct st; try done.
  - by rewrite (wc_wt_other _ HW) by (by left).
  - by rewrite (wc_wt_other _ HW) by (right; by left).
  - by rewrite (wc_wt_running _ HW).
  - by rewrite (wc_wt_wfu _ HW).
  - rewrite (wc_wt_other _ HW) by (right; right; by eexists). split; [done|]. split; [by intros ? [= ->]|done].
  - by rewrite (wc_wt_running _ HW).
Qed.
Lemma rq_keeps T (HW : wake_cond T) st ne st' p : T.(ft_base).(t_resched) st ne = (st', p) -> st <> WaitingForWake ->
  st' <> WaitingForWake /\ (forall f, st' = WaitingForPoll f -> st = WaitingForPoll f) /\ (forall f, st = WaitingForPoll f -> st' = st).
Proof.
  intros E Hw. destruct (decide (st = Idle)) as [->|Hn].
  - rewrite (wc_resched_idle _ HW) in E. destruct ne; injection E as <- <-; done.
  - rewrite (wc_resched_other _ HW _ _ _ _ E Hn). done.
Qed.
Lemma ds_keeps T (HW : wake_cond T) st st' act : T.(ft_base).(t_desync) st = (st', act) -> st <> WaitingForWake ->
  st' <> WaitingForWake /\ (forall f, st' = WaitingForPoll f -> st = WaitingForPoll f) /\ (forall f, st = WaitingForPoll f -> st' = st).
Proof.
  intros E Hw. destruct (decide (st = Idle)) as [->|Hn].
  - rewrite (wc_desync_idle _ HW) in E. injection E as <- <-. done.
  - rewrite (wc_desync_other _ HW _ _ _ E Hn). done.
Qed.

Lemma awaits0_other s s' a old new f : a <> 0 -> stacks s !! a = Some old -> stacks s' = <[a := new]> (stacks s) -> awaits0 s f -> awaits0 s' f.
Proof. intros Hne Ha Hs (st0 & H0 & Hin). exists st0. split; [|done]. by rewrite Hs, list_lookup_insert_ne. Qed.
Lemma awaits0_self s s' old new f : stacks s !! 0 = Some old -> stacks s' = <[0 := new]> (stacks s) ->
  (FAwRet f ∈ new \/ FPark f ∈ new) -> awaits0 s' f.
Proof. intros Ha Hs Hin. exists new. split; [|done]. rewrite Hs, list_lookup_insert; [done|by eapply lookup_lt_Some]. Qed.

Section ZQ.
  Context (T : ftables) (HT : own_cond T) (HW : wake_cond T) (HZ : zero_cond T).
  Lemma step_qs_zero s a s' fr rest : Inv_own s -> Inv_zp s -> (forall c st fr, stacks s !! c = Some st -> fr ∈ st -> rn2_ok s fr = true) ->
    s.(qs) <> WaitingForWake -> step T s a = Some s' -> stacks s !! a = Some (fr :: rest) ->
    s'.(qs) <> WaitingForWake /\
    (forall f, s'.(qs) = WaitingForPoll f -> s.(qs) = WaitingForPoll f \/ exists d, fr = FDQwfp f d) /\
    (forall f, s.(qs) = WaitingForPoll f -> s'.(qs) = WaitingForPoll f \/ (a = 0 /\ exists f', fr = FSFpoll f')).
  Proof.
    intros HO HZP I2 Q1 Hstep Hst. destruct (step_eff _ _ _ _ Hstep) as (fr0 & rest0 & Hst0 & E).
    rewrite Hst in Hst0. injection Hst0 as <- <-.
    destruct (w_qs fr) eqn:Eq; [|rewrite (ef_qs _ _ _ _ _ E Eq); by auto]. clear E.
    pose proof (io_nopanic _ HO) as Hnp. pose proof (zp_stacks _ HZP a _ Hst) as Hk. unfold stk_ok in Hk.
    assert (Hrn := I2 a _ _ Hst ltac:(left)).
    destruct fr; try discriminate Eq; try discriminate Hrn; cbn [forallb ok0 okf] in Hk; try (by destruct (bool_decide (a = 0))).
    all: step_at Hstep Hst. all: try discriminate Hstep. all: injection Hstep as <-. all: cbn.
    all: try match goal with
      | E : t_wake_queue _ _ = (_, _) |- _ => pose proof (wq_keeps _ HW _ _ _ E Hnp Q1) as (K1 & K2 & K3)
      | E : t_resched _ _ _ = (_, _) |- _ => pose proof (rq_keeps _ HW _ _ _ _ E Q1) as (K1 & K2 & K3)
      | E : t_desync _ _ = (_, _) |- _ => pose proof (ds_keeps _ HW _ _ _ E Q1) as (K1 & K2 & K3)
      | |- context [t_wake_thread _ _] => pose proof (wt_keeps _ HW _ Hnp Q1) as (K1 & K2 & K3)
      end.
    all: try (split; [exact K1|split; [intros f0 Hq; left; by apply K2|intros f0 Hq; left; rewrite (K3 _ Hq); exact Hq] ]).
    all: try (by auto).
    all: try (apply (oc_poll _ HT) in E0; cbn in E0).
    all: try (assert (Hrun := runner_owned s a _ HO Hst ltac:(cbn; lia))).
    all: split; [|split].
    all: try (intros f0 Hq; by rewrite Hq in Hrun).
    all: try (intros f0 [= <-]; right; by eexists).
    all: try (destruct E0 as (_ & _ & ->)).
    all: try (subst q; by auto).
    all: try done.
    intros f0 _. right. destruct (bool_decide (a = 0)) eqn:Ea0; [|done]. apply bool_decide_eq_true in Ea0. split; [done|by eexists].
  Qed.
  Lemma step_zq s a s' : Inv_own s -> Inv_op s -> Inv_fut s -> Inv_zp s ->
    (forall c st fr, stacks s !! c = Some st -> fr ∈ st -> rn2_ok s fr = true) -> Inv_zq s ->
    step T s a = Some s' -> Inv_zq s'.
  Proof.
    intros HO HP HF HZP I2 [Q1 Q2] Hstep. destruct (step_eff _ _ _ _ Hstep) as (fr & rest & Hst & E).
    destruct (step_qs_zero s a s' fr rest HO HZP I2 Q1 Hstep Hst) as (K1 & K2 & _).
    split; [done|]. intros f Hq. pose proof (zp_stacks _ HZP a _ Hst) as Hk. unfold stk_ok in Hk.
    destruct (ef_stack _ _ _ _ _ E) as (pre & rest' & Hs & Hb & Hpop & _).
    destruct (K2 f Hq) as [Hq0|[d ->]]; cycle 1.
    { (* FDQwfp: the queue starts waiting for the caller's poll; the await frame lies right below *)
      assert (Hrn := I2 a _ _ Hst ltac:(left)). cbn in Hrn. apply bool_decide_eq_true in Hrn.
      destruct (bool_decide (a = 0)) eqn:Ea0; [apply bool_decide_eq_true in Ea0 as ->|done].
      split; [by destruct (ef_res _ _ _ _ _ E f Hrn) as [?|(? & ? & ? & ? & ?)]|].
      rewrite (Hpop eq_refl) in Hs. eapply awaits0_self; [exact Hst|exact Hs|]. left. apply elem_of_app. right.
      pose proof (if_poll _ HF _ _ Hst) as Hpo. cbn in Hpo. apply andb_true_iff in Hpo as [Hpo _].
      destruct rest as [|y rest0]; [done|]. cbn in Hk. apply andb_true_iff in Hk as [Hy _].
      destruct y; try discriminate Hpo; try discriminate Hy. apply bool_decide_eq_true in Hpo as ->. left. }
    destruct (Q2 f Hq0) as [Hr (st0 & H0 & Hin)].
    assert (Hno : owned (qs s) = false) by (by rewrite Hq0). split.
    - (* nobody runs the queue: no job signals *)
      destruct (ef_res _ _ _ _ _ E f Hr) as [?|(o & r & w & k & ->)]; [done|].
      by rewrite (runner_owned s a _ HO Hst ltac:(cbn; lia)) in Hno.
    - destruct (decide (a = 0)) as [->|Hne]; [|eapply awaits0_other; [exact Hne|exact Hst|exact Hs|by exists st0] ].
      rewrite Hst in H0. injection H0 as <-. destruct (isaw fr || pops fr) eqn:Esp; cycle 1.
      { (* neither: the await frame lies below the top frame and stays *) apply orb_false_iff in Esp as [Ea Ep]. eapply awaits0_self; [exact Hst|exact Hs|]. rewrite (Hpop Ep), !elem_of_app.
           destruct Hin as [[<-|?]%elem_of_cons|[<-|?]%elem_of_cons]; try discriminate Ea; auto. }
      (* the await frame is on top (FAwRet -> FPark -> poll again), or a poll is about to return *)
      clear E K2 Hb Hpop Hs. rewrite bool_decide_true in Hk by done.
      destruct fr; try discriminate Esp; step_at Hstep Hst.
      all: try discriminate Hstep. all: injection Hstep as <-. all: pop_cont_split.
      all: (eapply awaits0_self; [exact Hst|solve_stacks|]).
      all: try (clear -Hin; rewrite !elem_of_cons in *; naive_solver).
      (* the continuation popped by a Ready poll belongs to the future polled, whose result was there *)
      all: pose proof (if_poll _ HF _ _ Hst) as Hpo; cbn in Hpo; apply andb_true_iff in Hpo as [Hpo _]; apply bool_decide_eq_true in Hpo as ->.
      all: assert (Hne : f <> f0) by congruence; clear -Hin Hne; rewrite !elem_of_cons in *; naive_solver.
  Qed.
End ZQ.
