(* C08: preservation of the frame / job clauses of Inv_y *)
From stdpp Require Import list numbers option.
From RecordUpdate Require Import RecordUpdate.
From L2 Require Import Model Base Own Jobs Fut Sig YDefs YMono YStep1.
#[global] Unset Lia Cache.

Lemma consumer_unique s a sa f : Inv_fut s -> stacks s !! a = Some sa -> cntf (wf f) sa >= 1 ->
  cntf (wf f) sa = 1 /\ forall c sc, c <> a -> stacks s !! c = Some sc -> cntf (wf f) sc = 0.
Proof.
  intros HF Ha Hw. pose proof (if_one _ HF f) as H1. unfold tot, np in H1.
  pose proof (npl_insert (wf f) (stacks s) a sa [] Ha) as Hu. cbn [cntf] in Hu. split; [lia|].
  intros c sc Hne Hc. assert (Hc' : <[a := []]> (stacks s) !! c = Some sc) by (by rewrite list_lookup_insert_ne).
  pose proof (npl_ge (wf f) _ _ _ Hc'). lia.
Qed.

Lemma triple_eq nev s t t' : Inv_y nev s -> t ∈ Ys s -> t' ∈ Ys s -> (t.1.1 = t'.1.1 \/ t.1.2 = t'.1.2 \/ t.2 = t'.2) -> t = t'.
Proof.
  intros HY H1 H2 He. destruct (ysorted_sep _ (y_sorted _ _ HY) _ _ H1 H2) as [?|[?|?]]; [done|lia|lia].
Qed.
Lemma triple_cells nev s t t' : Inv_y nev s -> t ∈ Ys s -> t' ∈ Ys s -> S t.2 <> t'.2.
Proof.
  intros HY H1 H2 He. destruct (ysorted_sep _ (y_sorted _ _ HY) _ _ H1 H2) as [?|[?|?]]; [subst; lia|lia|lia].
Qed.

Definition lsame (s s' : state) : Prop := forall e, e ∈ s'.(log) -> e ∈ s.(log) \/ yev_of e = None.
Lemma frok_quiet nev s s' fr : Inv_y nev s -> ext s s' -> fsame s s' -> lsame s s' -> frok nev s fr -> frok nev s' fr.
Proof.
  intros HY X Hf Hl. apply (frok_ext nev s s' X); [intros o f r Hin; by destruct (y_rng _ _ HY _ _ _ Hin) as (_ & _ & _ & ?)|].
  intros pc y st u _. split; [apply Hf|]. intros e He Hin. destruct (Hl _ Hin) as [?|Hn]; [done|]. by rewrite Hn in He.
Qed.

Lemma yev_known nev s e o : Inv_y nev s -> e ∈ s.(log) -> yev_of e = Some o -> exists f r, (o, f, r) ∈ Ys s.
Proof.
  intros HY Hin He. destruct (logall_in _ _ _ (y_log _ _ HY) Hin) as (l2 & l1 & El & Hok).
  assert (Hc : ycall o l1) by (destruct e; try discriminate He; cbn in He; injection He as ->; cbn in Hok; tauto).
  destruct Hc as (f & r & Hc). exists f, r. apply ynews_in. rewrite El. apply elem_of_app. right. by right.
Qed.
Lemma noy_fresh nev s s' o : Inv_y nev s -> Ys s' = Ys s -> s.(nextop) <= o -> noy s' o.
Proof. intros HY E Ho f r Hin. rewrite E in Hin. destruct (y_rng _ _ HY _ _ _ Hin) as (? & _). lia. Qed.
Lemma nof_fresh nev s s' f : Inv_y nev s -> Ys s' = Ys s -> length s.(futs) <= f -> forall o r, (o, f, r) ∉ Ys s'.
Proof. intros HY E Hf o r Hin. rewrite E in Hin. destruct (y_rng _ _ HY _ _ _ Hin) as (_ & ? & _). lia. Qed.
Lemma frok_other nev s s' fr F (N : list gev) : Inv_y nev s -> ext s s' ->
  (forall e, firedP s' e -> firedP s e \/ e = F) -> (forall e, e ∈ s'.(log) -> e ∈ s.(log) \/ e ∈ N) ->
  (forall pc y st u, fr = FY pc y st u -> S y.(y_r) <> F /\ forall e, e ∈ N -> yev_of e <> Some y.(y_op)) ->
  frok nev s fr -> frok nev s' fr.
Proof.
  intros HY X Hf Hl Hfy. apply (frok_ext nev s s' X); [intros o f r Hin; by destruct (y_rng _ _ HY _ _ _ Hin) as (_ & _ & _ & ?)|].
  intros pc y st u E. destruct (Hfy _ _ _ _ E) as [H1 H2]. split.
  - intros H. by destruct (Hf _ H).
  - intros e He Hin. destruct (Hl _ Hin) as [?|Hn]; [done|]. by destruct (H2 _ Hn).
Qed.
(* each call has one consumer of its SchedulerFuture: its SyncFuture frame *)
Lemma fy_other nev s a pc0 y0 st0 u0 rest : Inv_fut s -> Inv_y nev s -> stacks s !! a = Some (FY pc0 y0 st0 u0 :: rest) ->
  forall c st fr pc y st' u, stacks s !! c = Some st -> fr ∈ st -> (c <> a \/ fr ∈ rest) -> fr = FY pc y st' u ->
  y.(y_op) <> y0.(y_op) /\ y.(y_r) <> y0.(y_r).
Proof.
  intros HF HY Ha c st fr pc y st' u Hc Hin Hpos ->.
  destruct (consumer_unique s a _ y0.(y_f) HF Ha) as [H1 Ho]; [cbn; rewrite bool_decide_true by done; lia|].
  assert (Hw : y.(y_f) <> y0.(y_f)).
  { intros E. assert (Hp : cntf (wf y0.(y_f)) st > 0) by (apply cntf_pos; eexists; split; [exact Hin|cbn; by apply bool_decide_eq_true]).
    destruct (decide (c = a)) as [->|Hne]; [|rewrite (Ho c st Hne Hc) in Hp; lia].
    rewrite Ha in Hc. injection Hc as <-. destruct Hpos as [?|Hr]; [done|]. cbn in H1. rewrite bool_decide_true in H1 by done.
    assert (cntf (wf y0.(y_f)) rest > 0) by (apply cntf_pos; eexists; split; [exact Hr|cbn; by apply bool_decide_eq_true]). lia. }
  destruct (y_frames _ _ HY a _ _ Ha ltac:(left)) as (T0 & _). destruct (y_frames _ _ HY c _ _ Hc Hin) as (T1 & _).
  split; intros E; apply Hw; by pose proof (triple_eq nev s _ _ HY T1 T0 ltac:(cbn; auto)) as [= _ ? _].
Qed.

Lemma yev_fresh nev s e o : Inv_y nev s -> s.(nextop) <= o -> yev_of e = Some o -> e ∉ s.(log).
Proof. intros HY Ho He Hin. destruct (yev_known nev s e o HY Hin He) as (f & r & Ht). destruct (y_rng _ _ HY _ _ _ Ht) as (? & _). lia. Qed.
Lemma fired_new_cell (L : list evcell) k : k < 2 -> fired (default ev0 ((L ++ [ev_new; ev_new]) !! (length L + k))) = false.
Proof. intros Hk. rewrite lookup_app_r by lia. replace (length L + k - length L) with k by lia. by destruct k as [|[|k]]; [..|lia]. Qed.

Lemma ydec (Y : list triple) o : (exists f r, (o, f, r) ∈ Y) \/ (forall f r, (o, f, r) ∉ Y).
Proof.
  induction Y as [|[[o' f'] r'] Y IH]; [right; intros f r H; by apply elem_of_nil in H|].
  destruct (decide (o' = o)) as [->|Hne]; [left; exists f', r'; left|].
  destruct IH as [(f & r & H)|H]; [left; exists f, r; by right|right].
  intros f r [[= ? _ _]|Hin]%elem_of_cons; [done|by eapply H].
Qed.
(* user bodies are plain: a job at send(queue_ready) / poll(done_recv) / signal of a SyncFuture's future is the slot job of a call *)
Lemma slot_job_ready nev s op r l : jobok nev s (JFut op Waiting (PSendReady r :: l)) ->
  exists f, (op, f, r) ∈ Ys s /\ l = [PAwaitDone (S r); PSignal f].
Proof.
  intros [_ [H2 H3]]. destruct (ydec (Ys s) op) as [(f & r' & Hin)|Hn].
  - destruct (H2 _ _ Hin) as [E|[_ [_ [E|[_ [E|E]]]]]]; try discriminate E. injection E as -> ->. by exists f.
  - specialize (H3 Hn). inversion H3 as [|? ? Hp _]. discriminate Hp.
Qed.
Lemma slot_job_done nev s op d l : jobok nev s (JFut op Waiting (PAwaitDone d :: l)) ->
  exists f r, (op, f, r) ∈ Ys s /\ d = S r /\ l = [PSignal f].
Proof.
  intros [_ [H2 H3]]. destruct (ydec (Ys s) op) as [(f & r' & Hin)|Hn].
  - destruct (H2 _ _ Hin) as [E|[_ [_ [E|[_ [E|E]]]]]]; try discriminate E. injection E as -> ->. by exists f, r'.
  - specialize (H3 Hn). inversion H3 as [|? ? Hp _]. discriminate Hp.
Qed.
Lemma slot_job_sig nev s op f l : Inv_y nev s -> jobok nev s (JFut op Waiting (PSignal f :: l)) -> forall o r, (o, f, r) ∈ Ys s ->
  o = op /\ l = [] /\ firedP s (S r).
Proof.
  intros HY [_ [H2 H3]] o r Ht. destruct (ydec (Ys s) op) as [(f' & r' & Hin)|Hn].
  - destruct (H2 _ _ Hin) as [E|[_ [_ [E|[Hf [E|E]]]]]]; try discriminate E. injection E as -> ->.
    pose proof (triple_eq nev s _ _ HY Ht Hin ltac:(cbn; auto)) as [= -> ->]. done.
  - specialize (H3 Hn). inversion H3 as [|? ? Hp _]. cbn in Hp. destruct Hp as [_ Hp]. by destruct (Hp o r).
Qed.

Lemma fy_step_frames nev s s' a pc0 y st0 u0 rest new : Inv_fut s -> Inv_y nev s -> ext s s' ->
  stacks s !! a = Some (FY pc0 y st0 u0 :: rest) -> stacks s' = <[a := new]> (stacks s) ->
  (forall e, firedP s' e -> firedP s e \/ e = S y.(y_r)) ->
  (forall e, e ∈ s'.(log) -> e ∈ s.(log) \/ yev_of e = Some y.(y_op)) ->
  (forall fr, fr ∈ new -> fr ∈ rest \/ frok nev s' fr) ->
  forall c st fr, stacks s' !! c = Some st -> fr ∈ st -> frok nev s' fr.
Proof.
  intros HF HY X Ha Hs Hf Hl Hnew. apply (frames_update_top (fun s _ => frok nev s) s s' a _ _ _ Ha Hs (y_frames _ _ HY)); [|exact Hnew].
  intros c st fr Hc Hin Hpos. apply (frok_ext nev s s' X); [intros o f r Ht; by destruct (y_rng _ _ HY _ _ _ Ht) as (_ & _ & _ & ?)|].
  intros pc y' st' u' ->. destruct (fy_other nev s a _ _ _ _ _ HF HY Ha c st _ _ _ _ _ Hc Hin Hpos eq_refl) as [No Nr]. split.
  - intros H. destruct (Hf _ H) as [?|E]; [done|]. exfalso. apply Nr. lia.
  - intros e He H. destruct (Hl _ H) as [?|E]; [done|]. exfalso. apply No. congruence.
Qed.
Lemma yfrok_move nev s s' pc pc' y st st' u ev : ymove y.(y_op) pc st ev pc' st' -> (pc = YPrecv -> firedP s y.(y_r)) ->
  Ys s' = Ys s -> (forall e, firedP s' e <-> firedP s e) -> s'.(log) = ev :: s.(log) -> yfrok nev s pc y st u -> yfrok nev s' pc' y st' u.
Proof.
  intros Hm Hr EY Ef El (H1 & H2 & H3 & H4 & H5 & H6 & H7 & H8 & _). unfold yfrok. rewrite EY, El, !elem_of_cons, !Ef.
  destruct Hm; cbn in *; try apply andb_true_iff in H8 as [_ H8]; intuition congruence.
Qed.

Section FJ.
  Context (nev : nat) (T : ftables).
  Lemma step_y_fj s a s' : Inv_fut s -> Inv_y nev s -> step T s a = Some s' ->
    (forall c st fr, stacks s' !! c = Some st -> fr ∈ st -> frok nev s' fr) /\ (forall j, j ∈ jobs s' -> jobok nev s' j).
  Proof.
    intros HF HY Hstep. pose proof (step_ext T _ _ _ Hstep) as X.
    assert (Hrng : forall o f r, (o, f, r) ∈ Ys s -> r + 1 < length (evs s)) by (intros o f r Hin; by destruct (y_rng _ _ HY _ _ _ Hin) as (_ & _ & _ & ?)).
    assert (Hjq : forall j, j ∈ jobs s -> jobok nev s' j) by (intros j Hj; by apply (jobok_ext nev s _ X Hrng), (y_jobs _ _ HY)).
    destruct (step_yeff T _ _ _ Hstep) as (fr0 & rest & Hst & Heff).
    pose proof (y_frames _ _ HY a _ _ Hst (elem_of_list_here _ _)) as Hk.
    destruct Heff as [? new lg ? Hs _ El Hl _ Hev _ _ Hfr Hjb|fr1 F lg1 k1 [e|op r sc w k|y st u|y st u]| |? ? ? ? ? ? ? Hm Hfi]; cbn [frok] in Hk.
    - (* a quiet step *) assert (Hfs : fsame s s') by (intros e; by apply firedP_fmap).
      destruct (lognew_plain _ _ _ Hl) as [Hy0 Hl0].
      assert (Hls : lsame s s') by (intros e; rewrite El, elem_of_app; intros [?%Hl0|?]; [by right|by left]).
      assert (EY : Ys s' = Ys s) by (unfold Ys; by rewrite El, ynews_app, Hy0).
      assert (Hfresh : fresh_ids s s') by (split; [intros o; by apply (noy_fresh nev s)|intros f; by apply (nof_fresh nev s)]).
      pose proof (frok_quiet nev s s' _ HY X Hfs Hls Hk) as Hk'.
      split; [|intros j Hj; by apply (Hjb nev j Hj)].
      apply (frames_update_top (fun s _ => frok nev s) s s' a _ _ _ Hst Hs (y_frames _ _ HY)); [intros; by eapply frok_quiet|].
      intros x Hx. destruct (proj1 (list.Forall_forall _ _) (Hfr nev) x Hx) as [?|Hc]; [by left|right; by apply Hc].
    - (* an external event fires *) split; [|exact Hjq].
      eapply (frames_update_top (fun s _ => frok nev s) s _ a _ _ _ Hst); [exact (stacks_fire_cell (addlog s _) _ _ _)|exact (y_frames _ _ HY)| |].
      + intros c st fr Hc Hin _. apply (frok_other nev s _ fr e [] HY X); [intros e1; apply (firedP_fire (addlog s _))|by left|].
        intros pc y st' u ->. split; [|intros ? []%elem_of_nil]. destruct (y_frames _ _ HY c _ _ Hc Hin) as (Ht & _).
        destruct (y_rng _ _ HY _ _ _ Ht) as (_ & _ & ? & _). lia.
      + intros fr [Hin|Hin]%elem_of_app; [right; by eapply frok_wake_frames|by left].
    - (* queue_ready is sent *) split; [|exact Hjq]. destruct (slot_job_ready _ _ _ _ _ Hk) as (f' & Ht & ->).
      eapply (frames_update_top (fun s _ => frok nev s) s _ a _ _ _ Hst); [exact (stacks_fire_cell (addlog s _) _ _ _)|exact (y_frames _ _ HY)| |].
      + intros c st fr Hc Hin _. apply (frok_other nev s _ fr r [] HY X); [intros e1; apply (firedP_fire (addlog s _))|by left|].
        intros pc y st' u0 ->. split; [|intros ? []%elem_of_nil]. destruct (y_frames _ _ HY c _ _ Hc Hin) as (Ht' & _).
        exact (triple_cells nev s _ _ HY Ht' Ht).
      + intros fr [Hin|[->|Hin]%elem_of_cons]%elem_of_app; [right; by eapply frok_wake_frames| |by left].
        right. eapply jobok_tail; [| |apply (jobok_ext nev s _ X Hrng); exact Hk]; [intros ? [=]|intros ? [= <-]; apply (firedP_fire (addlog s _)); by right].
    - (* task_finished is sent: from now on the SyncFuture is its SchedulerFuture *)
      split; [|exact Hjq]. destruct Hk as (H1 & H2 & H3 & H4 & H5 & H6 & H7 & H8 & _).
      eapply (fy_step_frames nev s _ a _ _ _ _ _ _ HF HY X Hst); [exact (stacks_fire_cell (addlog s _) _ _ _)|intros e1; apply (firedP_fire (addlog s _))|by left|].
      intros fr [Hin|[->|Hin]%elem_of_cons]%elem_of_app; [right; by eapply frok_wake_frames| |by left].
      right. split; [by destruct (y_rng _ _ HY _ _ _ H1) as (_ & ? & _)|].
      intros o r Ht. pose proof (triple_eq nev s _ _ HY Ht H1 ltac:(cbn; auto)) as [= -> ->]. by apply H5.
    - (* drop of task_finished *) split; [|exact Hjq].
      eapply (fy_step_frames nev s _ a _ _ _ _ _ _ HF HY X Hst); [exact (stacks_fire_cell (addlog s _) _ _ _)|intros e1; apply (firedP_fire (addlog s _))| |].
      + intros e1 [->|He]%elem_of_cons; [by right|by left].
      + intros fr [Hin|Hin]%elem_of_app; [right; by eapply frok_wake_frames|by left].
    - (* future_sync: the slot job and the SyncFuture *) split; [|exact Hjq].
      apply andb_true_iff in Hk as [Hop Hos]. cbn in Hop. lazymatch type of X with ext s ?x => set (s1 := x) in * end.
      assert (Hfs : fsame s s1) by (intros e0; apply fired_app_back).
      assert (Hno : forall e, yev_of e = Some (nextop s) -> e ∉ log s1) by (intros e He [->|Hin]%elem_of_cons; [done|by eapply (yev_fresh nev s e)]).
      eapply (frames_update_top (fun s _ => frok nev s) s _ a _ _ _ Hst); [unfold s1; solve_stacks|exact (y_frames _ _ HY)| |].
      + intros c st fr Hc Hin _. apply (frok_quiet nev s s1 fr HY X Hfs).
        intros e0 [->|He]%elem_of_cons; [by right|by left].
      + intros fr [->|[->|[->|Hin]%elem_of_cons]%elem_of_cons]%elem_of_cons; [right|right|by right|by left].
        * split; [cbn; lia|]. split.
          -- intros f r [[= -> ->]|Hin]%elem_of_cons; [by left|]. destruct (y_rng _ _ HY _ _ _ Hin) as (? & _). lia.
          -- intros Hn. destruct (Hn (length (futs s)) (length (evs s))). left.
        * split; [left|]. split.
          { unfold firedP, getev; cbn. replace (S (length (evs s))) with (length (evs s) + 1) by lia. by rewrite fired_new_cell by lia. }
          split; [by apply Hno|]. split; [split; [intros H; by apply Hno in H|done]|].
          split; [split; [intros H; by apply Hno in H|done]|]. split; [split; [intros H; by apply Hno in H|intros [? _]; done]|done].
    - (* the user future is created / polled / completes / is destroyed *) split; [|exact Hjq].
      eapply (fy_step_frames nev s _ a _ _ _ _ _ _ HF HY X Hst); [solve_stacks|by left| |].
      + intros e1 [->|?]%elem_of_cons; [right; by destruct Hm|by left].
      + intros fr [->|Hin]%elem_of_cons; [right|by left]. apply (yfrok_move nev s _ _ _ _ _ _ _ _ Hm Hfi); [unfold Ys; cbn; by destruct Hm|done|done|exact Hk].
  Qed.
End FJ.
