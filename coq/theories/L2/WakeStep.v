(* C06: the wake invariant is preserved by every step *)
From stdpp Require Import list numbers option.
From RecordUpdate Require Import RecordUpdate.
From L2 Require Import Model Base Arm Own Jobs Shape DwInv Wake WakeInv WakeLem WakeStep1 WakeStep2 WakeStep3 WakeStep4 WakeStep5.
#[global] Unset Lia Cache.

Section Pres.
  Context (T : ftables) (HT : own_cond T) (HC : jobs_cond T) (HW : wake_cond T).

  Lemma step_wake_inv s a s' : Inv_own s -> Inv_jobs s -> Inv_shape s -> Inv_dw s -> Inv_wake s -> step T s a = Some s' -> Inv_wake s'.
  Proof.
    intros HO HJ HS HD HI (l & r & A)%step_arm. destruct l.
    (* the arms that touch what the invariant reads: each has its lemma *)
    all: lazymatch type of A with astep _ _ _ ?l _ _ =>
      lazymatch l with
      | AD2 => exact (ws_push T s s' a _ r (or_introl eq_refl) A HO HI) | ARQ2 => exact (ws_push T s s' a _ r (or_intror eq_refl) A HO HI)
      | AD1sched _ _ => exact (ws_fd1_sched T HW s s' a _ _ r A HO HI)
      | ASBpushIdle _ _ => exact (ws_sbpush_idle T s s' a _ _ r A HO HI)
      | ARQ1push _ => astep_open A; eapply (ws_rq1 T HW s s' a _ true r HO HI); eassumption
      | ARQ1none _ => astep_open A; eapply (ws_rq1 T HW s s' a _ false r HO HI); eassumption
      | AUnpark _ => exact (ws_unpark T s s' a _ r A HO HI)
      | APark _ => astep_open A; eapply (ws_unparked s s' a _ _ r HO HS HI Hst Hs); [by eexists|done|by intros fr [->|[->|[]%elem_of_nil]%elem_of_cons]%elem_of_cons|done..]
      | AROpark _ => exact (ws_ropark T s s' a _ r A HO HI)
      | AWQresched _ => astep_open A; eapply (ws_wake_queue T HT HW s s' a _ true r HO HI); eassumption
      | AWQquiet _ => astep_open A; eapply (ws_wake_queue T HT HW s s' a _ false r HO HI); eassumption
      | AWTask _ => exact (ws_wake_task T s s' a _ r A HO HI)
      | AWThread _ => exact (ws_wake_thread T HT HW s s' a _ r A HO HI)
      | AWDrainNow _ ?st _ _ =>
          astep_open A; destruct Hg as [E0 E1]; rewrite (wc_dw_wake _ HW) in E1; destruct st; try discriminate E1; injection E1 as <-;
          eapply (ws_wake_drain s s' a _ _ _ true r HO HD HI Hst E0); done
      | AWDrainLater _ ?st _ _ =>
          astep_open A; destruct Hg as [E0 E1]; rewrite (wc_dw_wake _ HW) in E1; destruct st; try discriminate E1; injection E1 as <-;
          eapply (ws_wake_drain s s' a _ _ _ false r HO HD HI Hst E0); done
      | AWDoubleSome _ _ _ => exact (ws_wake_double_some T s s' a _ _ _ r A HO HI)
      | AWDoubleNone _ => exact (ws_wake_double_none T s s' a _ r A HO HI)
      | AWakeWithNow _ _ ?st _ _ =>
          pose proof A as (_ & _ & [_ E1] & _); rewrite (wc_dw_wake_with _ HW) in E1; destruct st; try discriminate E1; injection E1 as <-;
          exact (ws_wake_with_now T s s' a _ _ _ r HO HI A)
      | AWakeWithLater _ _ ?st _ _ =>
          pose proof A as (_ & _ & [_ E1] & _); rewrite (wc_dw_wake_with _ HW) in E1; destruct st; try discriminate E1; injection E1 as <-;
          by apply (ws_wake_with_later T s s' a _ _ _ _ r HO HD HI A)
      | AFire _ => astep_open A; eapply (ws_fire s s' a _ [] _ r HO HI Hst); [by rewrite app_nil_r|done|by intros ? ?%elem_of_nil|done..]
      | AYdrop2 _ _ _ => astep_open A; eapply (ws_fire s s' a _ [] _ r HO HI Hst); [by rewrite app_nil_r|done|by intros ? ?%elem_of_nil|done..]
      | AYfin _ _ _ => astep_open A; eapply (ws_fire s s' a _ [_] _ r HO HI Hst Hs); [done|by intros ? ->%elem_of_list_singleton|done..]
      (* the runner's arms *)
      | ADQdeqJob _ _ _ => exact (ws_dqdeq T s s' a _ _ _ r A HO)
      | AJobSignal _ _ _ _ _ => exact (ws_signal T s s' a _ _ _ _ _ r A HO HI)
      | AJobSend _ _ _ _ _ => exact (ws_send_ready T s s' a _ _ _ _ _ r A HO HI)
      | ADQempty2 _ => astep_open A; exact (ws_release_idle s s' a _ r HO HI Hst ltac:(cbn; lia) Hs Eq Ej)
      | ADQidle _ => astep_open A; exact (ws_release_idle s s' a _ r HO HI Hst ltac:(cbn; lia) Hs Eq Ej)
      | ASIidle => astep_open A; exact (ws_release_idle s s' a _ r HO HI Hst ltac:(cbn; lia) Hs Eq Ej)
      | ASDidle => astep_open A; exact (ws_release_idle s s' a _ r HO HI Hst ltac:(cbn; lia) Hs Eq Ej)
      | ADQwfw _ _ =>
          astep_open A; eapply (ws_dq_park s s' a _ _ WQueue r HO HI Hst eq_refl (top_ok s a _ _ HI Hst) Hs); [done|exists 0; by left|done..]
      | ADQwfp ?f _ =>
          astep_open A; eapply (ws_dq_park s s' a _ _ _ r HO HI Hst eq_refl (top_ok s a _ _ HI Hst) Hs); [|exists f; by right|done..];
          cbn; unfold dbl_q, getdbl; by rewrite Edb, lookup_app_r, Nat.sub_diag by lia
      | AJobAwait _ _ _ _ _ =>
          astep_open A; eapply (ws_register s s' a _ _ _ _ r HO HI Hst eq_refl Hs Eq);
          rewrite (unfreg_evs (setev s _ _) s') by exact Eev; by apply unfreg_register
      | AJobEither _ _ _ _ _ _ =>
          astep_open A; apply orb_false_iff in Hg as [Hg _]; eapply (ws_register s s' a _ _ _ _ r HO HI Hst eq_refl Hs Eq);
          rewrite (unfreg_evs (setev (setev s _ _) _ _) s') by exact Eev; by apply unfreg_reg_mono, unfreg_register
      | AJobDone _ ?e _ ?w _ =>
          astep_open A; eapply (ws_register s s' a _ _ _ _ r HO HI Hst eq_refl Hs Eq);
          rewrite (unfreg_evs (setev s e (addw s e w is_anytask)) s') by exact Eev;
          unfold unfreg; rewrite getev_setev_eq by (by apply getev_fired_range); cbn; rewrite Hg; cbn; apply bool_decide_eq_true; left
      (* the owner task of a SyncFuture *)
      | AYpark _ _ _ =>
          astep_open A; eapply (ws_task_step s s' a _ _ r HO HS HI Hst Hs); try done;
          [intros c Hne; exact (tokb_insert_ne s s' c a false Etk Hne)|by apply evs_task_eq_refl]
      | AYrecvPending _ _ _ =>
          astep_open A; eapply (ws_task_step s s' a _ _ r HO HS HI Hst Hs); try done;
          [intros c _; by rewrite (tokb_toks s s')|eapply (evs_task_eq_evs s (setev s _ _) s'); [exact Eev|apply evs_rereg_task] ]
      | AYuserAwait _ _ _ _ =>
          astep_open A; eapply (ws_task_step s s' a _ _ r HO HS HI Hst Hs); try done;
          [intros c _; by rewrite (tokb_toks s s')|eapply (evs_task_eq_evs s (setev s _ _) s'); [exact Eev|apply evs_reg_task] ]
      | AYuserEither _ _ _ _ _ =>
          astep_open A; eapply (ws_task_step s s' a _ _ r HO HS HI Hst Hs); try done;
          [intros c _; by rewrite (tokb_toks s s')|eapply (evs_task_eq_evs s (setev (setev s _ _) _ _) s'); [exact Eev|eapply evs_task_eq_trans; apply evs_reg_task] ]
      | AYdrop1Queue _ _ _ =>
          astep_open A; eapply (ws_task_step s s' a _ _ r HO HS HI Hst Hs); try done;
          [intros c _; by rewrite (tokb_toks s s')|eapply (evs_task_eq_evs s (setev s _ _) s'); [exact Eev|apply evs_unreg_task] ]
      | _ => idtac
      end end.
    (* the other arms leave events, drain / double wakers, tokens and the waker-call frames alone *)
    all: astep_open A; try destruct k; try destruct c.
    (* [ATopFutSync] allocates the two oneshot cells of the call: 2 fresh event cells, every other arm 0 *)
    all: assert (Q : qview s s') by
           (first [eapply (qview_intro s s' a _ _ 0 Hst Hs); [reflexivity|by rewrite app_nil_r|done..]
                  |eapply (qview_intro s s' a _ _ 2 Hst Hs); [reflexivity|done..] ]).
    all: pose proof HI as [IF IQ]; split.
    (* the frame obligations: only the new frames of a runner; for the others also that the runner's obligations survive *)
    all: try (lazymatch goal with |- forall c fr, fsat _ c fr -> _ =>
              first [ eapply (frames_runner_arm s s' a _ _ r HO Hst ltac:(cbn; lia) Hs)
                    | eapply (frames_other_arm s s' a _ _ r HO IF Hst Hs); [|intros Hown; apply (tview_quiet s s' Q)] ] end).
    all: try (lazymatch goal with |- forall fr, fr ∈ _ -> _ =>
              intros fr0 Hin; repeat (apply elem_of_cons in Hin as [->|Hin]); [..|by apply elem_of_nil in Hin]; try reflexivity; try (cbn; by apply bool_decide_eq_true) end).
    all: try (lazymatch goal with |- forall e, hsusp _ = Some e -> _ =>
              intros ?e ?He; unfold hsusp; rewrite Ej; first [eassumption | by apply hsusp_push] end).
    (* a table consulted by an actor that does not run the queue leaves an owned queue state alone *)
    all: try (lazymatch goal with |- qs _ = qs _ =>
              rewrite Eq; first [ reflexivity
                                | pose proof (wc_desync_owned _ HW _ Hown) as Hd; rewrite Hg in Hd; exact Hd
                                | destruct_and?; tbl_facts HT; destruct_and?; congruence ] end).
    (* a runner's new frame whose obligation is the old top frame's *)
    all: try (lazymatch goal with |- frame_ok _ _ _ = true =>
              lazymatch type of Hst with _ = Some ((?fr0 :: _) ++ _) =>
                refine (frame_ok_quiet s s' Q a fr0 Eq _ (top_ok s a fr0 _ HI Hst)); intros ?e ?He; unfold hsusp; rewrite Ej; exact He end end).
    (* requeue: the parked job becomes the head; run_one_job_now: Pending -> check -> park *)
    all: try (lazymatch goal with |- frame_ok _ _ _ = true =>
              pose proof (top_ok s a _ _ HI Hst) as Hok0; cbn in Hok0 |- *; destruct (susp j) as [e|] eqn:Es; [|done];
              unfold hsusp, awoken in *; rewrite ?Ej, ?Eq; cbn; rewrite ?Es, ?(q_gd _ _ Q), ?(q_gq _ _ Q), ?(q_gt _ _ Q) end).
    all: try exact Hok0.
    all: try (lazymatch type of Hg with
              | t_roj_pend _ _ = _ /\ _ =>
                  destruct Hg as [Hg Hu]; rewrite Hu; apply orb_true_iff in Hok0 as [Ha|Hgt]; [|done];
                  destruct (qs s) eqn:Eqs; try done; apply (wc_roj_pend_awoken _ HW) in Hg; by destruct q
              | t_roj_park _ _ = PKPark => apply (wc_roj_park _ HW) in Hg; by rewrite Hg in *
              end).
    (* the queue obligation: nothing it reads has changed, or the queue is (still, now) owned *)
    all: try exact (queue_ok_quiet_same s s' Q Eq Ej Ei IQ).
    all: try (apply queue_ok_owned; rewrite Eq; first [ by apply (runner_owned s a _ HO Hst); cbn; lia
                                                      | destruct_and?; tbl_facts HT; destruct_and?; by subst ]).
    all: try (apply (queue_ok_quiet_same s s' Q); [rewrite Eq; destruct_and?; tbl_facts HT; intuition congruence|exact Ej|exact Ei|exact IQ]).
    all: try (eapply (queue_ok_quiet_stale s s' Q T HW); [apply Hg|exact Eq|exact Ej|exact IQ]).
    (* push_back onto a queue that is not Idle *)
    all: try (eapply (queue_ok_quiet_push s s' Q); [ | |exact Ej|exact Ei|exact IQ];
              [ rewrite Eq; first [reflexivity | eapply (wc_desync_other _ HW); [exact Hg|]; intros Hi; rewrite Hi, (wc_desync_idle _ HW) in Hg; congruence]
              | first [ exact Hg | intros Hi; rewrite Hi, (wc_desync_idle _ HW) in Hg; congruence ] ]).
    (* left: AROpendCheck / AROpendPoll, ADRpendPark / ADRpendMore, ADRfinDone / ADRfinMore - the Pending arms of the runner:
       it keeps the queue, or parks it on the guarantee its obligation gave *)
    all: destruct (runner_working s a _ HO Hst ltac:(cbn; lia)) as [Hrun Hnw]; pose proof (top_ok s a _ _ HI Hst) as Hok0; cbn in Hok0.
    all: lazymatch type of Hg with
         | t_roj_pend _ _ = _ /\ _ =>
             apply queue_ok_owned; rewrite Eq; destruct Hg as [Hg _], (oc_roj_pend _ HT _ Hrun Hnw) as (? & Hrp & ?); rewrite Hrp in Hg; by injection Hg as <-
         | is_wfw _ = true =>
             unfold queue_ok; rewrite Eq, (hsusp_jobs _ _ Ej); destruct (t_drain_pend T (qs s)) eqn:Ed; try done;
             destruct (hsusp s) as [e|]; [|done]; rewrite (q_cover _ _ Q);
             apply orb_true_iff in Hok0 as [Ha|Hgq]; [|by apply gq_cover]; exfalso; unfold awoken in Ha;
             destruct (qs s) eqn:Eqs; try done; by apply (wc_drain_pend_awoken _ HW)
         | is_wfw _ = false =>
             apply queue_ok_owned; rewrite Eq; destruct (oc_drain_pend _ HT (qs s) Hrun Hnw) as [Hd|[Hd _]]; [|done]; cbn zeta in Hd; by rewrite Hd in Hg
         | t_drain_fin _ _ _ = (_, true) =>
             apply (wc_drain_fin _ HW) in Hg as [-> Hem]; [|by apply owned_running]; apply bool_decide_eq_true in Hem;
             unfold queue_ok; by rewrite Eq, Ej, Hem
         | t_drain_fin _ _ _ = (_, false) =>
             apply queue_ok_owned; rewrite Eq; by apply (oc_drain_fin _ HT _ _ _ _ Hrun Hnw) in Hg as [Hg _]
         end.
  Qed.
End Pres.
