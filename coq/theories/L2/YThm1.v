(* C08 (1): who polls the user future, and who sends queue_ready - step-level facts *)
From stdpp Require Import list numbers option.
From RecordUpdate Require Import RecordUpdate.
From L2 Require Import Model Base Own Jobs Fut Sig YDefs YMono YStep1 YStep2 YStep3 YInv YThm.
#[global] Unset Lia Cache.

Section S1.
  Context (nev : nat) (T : ftables).
  (* an event of the user future of call o is produced only by a step of the actor whose top frame is the SyncFuture of that call
     (frames never move between actors: it is the caller of future_sync), and only when queue_ready has been sent and
     task_finished has not *)
  Theorem user_event_step s a s' l e o : Inv_y nev s -> step T s a = Some s' -> s'.(log) = l ++ s.(log) -> e ∈ l -> user_ev e = Some o ->
    exists pc y st u rest, stacks s !! a = Some (FY pc y st u :: rest) /\ y.(y_op) = o /\
      GYnew o y.(y_f) y.(y_r) ∈ s.(log) /\ firedP s y.(y_r) /\ ~ firedP s (S y.(y_r)).
  Proof.
    intros HY Hstep Hl Hin He. destruct (step_yeff T _ _ _ Hstep) as (fr & rest & Hst & Heff).
    pose proof (y_frames _ _ HY a _ _ Hst (elem_of_list_here _ _)) as Hy.
    destruct Heff as [? new lg ? _ _ El Hlg _ _ _ _ _ _|? F lg k Hfi| |pc y st u ev pc' st' Hm Hfi].
    - (* a quiet step *) rewrite El in Hl. apply app_inv_tail in Hl as <-. apply (lognew_plain _ _ _ Hlg) in Hin. by destruct e.
    - (* a cell is fired *) apply (app_inv_tail _ lg) in Hl as <-. destruct Hfi; [by apply elem_of_nil in Hin..|by apply elem_of_list_singleton in Hin as ->].
    - (* future_sync *) apply (app_inv_tail _ [_]) in Hl as <-. by apply elem_of_list_singleton in Hin as ->.
    - (* an event of the user future *) apply (app_inv_tail _ [_]) in Hl as <-. apply elem_of_list_singleton in Hin as ->.
      destruct Hy as (H1 & H2 & H3 & H4 & H5 & H6 & H7 & H8 & _). assert (y_op y = o) as <- by (by destruct Hm; injection He).
      eexists _, _, _, _, _. split; [exact Hst|]. split; [done|]. split; [by apply ynews_in|]. split; [|done].
      destruct Hm; [by apply Hfi|by apply H7..].
  Qed.

  (* queue_ready of a call is sent only by a step of that call's slot job *)
  Theorem ready_sent_step s a s' o f r : Inv_y nev s -> step T s a = Some s' -> (o, f, r) ∈ Ys s -> ~ firedP s r -> firedP s' r ->
    exists sc w k rest, stacks s !! a = Some (FJob (JFut o Waiting (PSendReady r :: sc)) w k :: rest).
  Proof.
    intros HY Hstep Ht Hn Hf. destruct (step_yeff T _ _ _ Hstep) as (fr & rest & Hst & Heff).
    pose proof (y_frames _ _ HY a _ _ Hst (elem_of_list_here _ _)) as Hy.
    destruct (yeff_fired _ _ _ _ _ Heff) as [Hs|(F & lg & k0 & HF & Hs)]; [by destruct Hn; apply Hs|].
    apply Hs in Hf as [?|Hr]; [done|]. subst F. destruct HF as [e|op r sc w k|y st u|y st u]; cbn [frok] in Hy.
    - (* FFire: an external event *) destruct (y_rng _ _ HY _ _ _ Ht) as (_ & _ & ? & _). lia.
    - (* PSendReady *) destruct (slot_job_ready _ _ _ _ _ Hy) as (f' & Ht' & ->).
      pose proof (triple_eq nev s _ _ HY Ht Ht' ltac:(cbn; auto)) as [= -> _]. by eexists _, _, _, _.
    - (* YPfin: a done cell *) destruct Hy as (H1 & _). by destruct (triple_cells nev s _ _ HY H1 Ht).
    - (* YPdrop2: a done cell *) destruct Hy as (H1 & _). by destruct (triple_cells nev s _ _ HY H1 Ht).
  Qed.
End S1.
