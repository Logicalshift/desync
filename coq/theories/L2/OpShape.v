(* ([FSBdone], the last section of sync_background, is NOT counted: during the waiter's take-over it lies below the frames of the
   sync_drain-style loop [FSDloop ..]) *)
(* stack shape of callers: the script frame FTop (pool: FPIdle) is the bottom frame, and at most one operation-level frame of the
   operation in progress is on the stack (so a parked sync caller has no await frame below it, and vice versa) *)
From stdpp Require Import list numbers option.
From RecordUpdate Require Import RecordUpdate.
From L2 Require Import Model Base Arm Own Shape.
#[global] Unset Lia Cache.

Definition botfr (fr : frame) : bool := match fr with FTop _ | FPIdle => true | _ => false end.
Fixpoint afterbot (st : list frame) : list frame := match st with [] => [] | fr :: r => if botfr fr then r else afterbot r end.
Definition opfr (fr : frame) : bool :=
  match fr with
  | FUse _ _ | FAwRet _ | FPark _ | FDropRet _ _ | FFS1 _ | FY _ _ _ _
  | FS1 _ _ | FClosure _ _ | FSIidle | FSDpush _ _ | FSDloop | FSDidle | FSBreg _ _ | FSBpush _ _ | FSBwait | FSBclaim
  | FROdeq | FROpend _ | FROcheck _ | FROpark _ | FJob _ _ KRoj => true
  | _ => false
  end.
Definition opshape (st : list frame) : Prop := afterbot st = [] /\ cntf opfr st <= 1.
Definition Inv_op (s : state) : Prop := forall c st, stacks s !! c = Some st -> opshape st.

Lemma afterbot_nobot pre r : cntf botfr pre = 0 -> afterbot (pre ++ r) = afterbot r.
Proof. induction pre as [|x pre IH]; cbn; [done|]. destruct (botfr x); [lia|]. intros H. by apply IH. Qed.
Lemma afterbot_opfr st : afterbot st = [] -> botfr (default FD2 (head st)) = true -> cntf opfr st = 0.
Proof. destruct st as [|x r]; cbn; [done|]. intros H Hb. rewrite Hb in H. subst r. by destruct x. Qed.

Lemma opfr_ret_ready k : opfr (ret_ready k) = opfr (FJob (JPlain 0) WQueue k). Proof. by destruct k. Qed.
Lemma opfr_ret_pending k j : opfr (ret_pending k j) = opfr (FJob j WQueue k). Proof. by destruct k. Qed.
Lemma botfr_ret_ready k : botfr (ret_ready k) = false. Proof. by destruct k. Qed.
Lemma botfr_ret_pending k j : botfr (ret_pending k j) = false. Proof. by destruct k. Qed.

Lemma opshape_arm s a l r : opshape (arm_old l ++ r) -> opshape (arm_new s a l ++ r).
Proof.
  unfold opshape. destruct l; cbn; intros [H1 H2]; try subst r.
  all: rewrite ?botfr_ret_ready, ?botfr_ret_pending, ?opfr_ret_ready, ?opfr_ret_pending; cbn.
  all: rewrite <- ?app_assoc, ?afterbot_nobot by (first [by apply cntf_opt_wake|by apply cntf_fired_frames|by apply cntf_cont_fr]).
  all: rewrite ?cntf_app, ?cntf_opt_wake, ?cntf_fired_frames by done; cbn.
  all: try (split; [done|lia]).
  all: destruct c; cbn in *; split; first [done|lia].
Qed.

Section Pres.
  Context (T : ftables).
  Lemma step_op s a s' : Inv_op s -> step T s a = Some s' -> Inv_op s'.
  Proof. apply allstk_step. intros l r _. apply opshape_arm. Qed.
End Pres.
Lemma init_op scripts npool nev : Inv_op (init scripts npool nev).
Proof. apply allstk_init; [|intros sc]; split; cbn; lia || done. Qed.
Lemma op_top_only s a fr rest : Inv_op s -> stacks s !! a = Some (fr :: rest) -> opfr fr = true -> cntf opfr rest = 0.
Proof. intros HI Ha Ho. destruct (HI a _ Ha) as [_ H]. cbn in H. rewrite Ho in H. lia. Qed.
Lemma op_bot_alone s a fr rest : Inv_op s -> stacks s !! a = Some (fr :: rest) -> botfr fr = true -> rest = [].
Proof. intros HI Ha Hb. destruct (HI a _ Ha) as [H _]. cbn in H. by rewrite Hb in H. Qed.
