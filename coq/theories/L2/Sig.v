(* C07: a result is delivered only after it was signalled, and the delivered value is the one the signalling operation gave
   (the model uses the operation's id as its value) *)
From stdpp Require Import list numbers option.
From RecordUpdate Require Import RecordUpdate.
From L2 Require Import Model Base Arm Own Fut.
#[global] Unset Lia Cache.

Fixpoint has_sig (f v : nat) (l : list gev) : bool :=
  match l with [] => false | GSig f' v' :: r => (bool_decide (f' = f) && bool_decide (v' = v)) || has_sig f v r | _ :: r => has_sig f v r end.
(* every Resolve f v in the log (newest first) has a Sig f v further down (older) *)
Fixpoint sigok (l : list gev) : bool :=
  match l with [] => true | GResolve f v :: r => has_sig f v r && sigok r | _ :: r => sigok r end.

Record Inv_sig (s : state) : Prop := {
  is_cell : forall f v, (getf s f).(res) = FSome v -> has_sig f v s.(log) = true;
  is_log : sigok s.(log) = true;
}.

Lemma has_sig_app f v l1 l2 : has_sig f v (l1 ++ l2) = has_sig f v l1 || has_sig f v l2.
Proof. induction l1 as [|[] l1 IH]; cbn; try done. by rewrite IH, orb_assoc. Qed.

Section Pres.
  Context (T : ftables).
  Lemma step_sig s a s' : Inv_sig s -> step T s a = Some s' -> Inv_sig s'.
  Proof.
    intros [I1 I2] (l & r & _ & _ & Hg & He)%step_arm.
    pose proof (e_futs _ _ _ _ _ He) as Hf. pose proof (e_log _ _ _ _ _ He) as Hl. clear He. split.
    - intros fq vq Hr. rewrite Hl, has_sig_app. destruct l; cbn [arm_futs] in Hf.
      all: lazymatch type of Hf with
           | _ = futs _ => rewrite (getf_futs s' s fq Hf) in Hr
           | _ = futs _ ++ _ => rewrite (getf_alloc s s' _ fq Hf ltac:(repeat constructor)) in Hr
           | _ = <[?f := ?c]> _ => rewrite (getf_futs s' (setf s f c) fq Hf) in Hr; apply res_setf in Hr as [[-> Hr]|Hr]; cbn in Hr
           end.
      all: try discriminate Hr; try (by rewrite (I1 _ _ Hr), orb_true_r).
      (* the signalled cell *)
      injection Hr as <-. cbn. by rewrite !bool_decide_true.
    - (* a Resolve is logged only for a cell that holds the value *)
      rewrite Hl. destruct l; cbn in Hg |- *; rewrite ?I2; try done.
      all: rewrite ?andb_true_r; apply I1; first [apply Hg|done].
  Qed.
End Pres.
Lemma init_sig scripts npool nev : Inv_sig (init scripts npool nev).
Proof. split; [|done]. intros f v. unfold getf, init; cbn. by rewrite lookup_nil. Qed.

Lemma sigok_resolve l : sigok l = true -> forall l1 f v l2, l = l1 ++ GResolve f v :: l2 -> has_sig f v l2 = true.
Proof.
  induction l as [|ev l IH]; intros H l1 f v l2 E; [by destruct l1|].
  destruct l1 as [|x l1]; cbn in E; injection E as -> ->.
  - cbn in H. by apply andb_true_iff in H as [? _].
  - apply (IH ltac:(destruct x; cbn in H; try done; by apply andb_true_iff in H as [_ ?]) l1 f v l2 eq_refl).
Qed.
Lemma has_sig_in f v l : has_sig f v l = true -> GSig f v ∈ l.
Proof.
  induction l as [|ev l IH]; cbn; [done|]. destruct ev; try (intros H; right; by apply IH).
  rewrite orb_true_iff, andb_true_iff. intros [[H1 H2]|H]; [|right; by apply IH].
  apply bool_decide_eq_true in H1 as ->. apply bool_decide_eq_true in H2 as ->. left.
Qed.

Theorem resolve_after_signal T scripts npool nev tr s l1 f v l2 :
  run T (init scripts npool nev) tr = Some s -> s.(log) = l1 ++ GResolve f v :: l2 -> GSig f v ∈ l2.
Proof.
  intros Hr Hl.
  assert (HI : Inv_sig s) by (revert Hr; apply (run_inv Inv_sig T); [intros; by eapply step_sig|apply init_sig]).
  apply has_sig_in. by eapply sigok_resolve; [apply (is_log _ HI)|].
Qed.
