(* C01 part 2 / C02: where a started-and-unfinished future operation can be (in the runner's hand or at the head of the
   queue), exclusivity of Start..Finish in the ghost log, and FIFO order of Starts. *)
From stdpp Require Import list numbers option.
From RecordUpdate Require Import RecordUpdate.
From L2 Require Import Model Base Arm Own.
#[global] Unset Lia Cache.

Definition fresh (j : job) : bool := match j with JFut _ Waiting _ => false | _ => true end.
Definition susp (j : job) : option nat :=
  match j with JFut _ Waiting (PAwait e :: _) | JFut _ Waiting (PAwaitEither e _ :: _) | JFut _ Waiting (PAwaitDone e :: _) => Some e | _ => None end.
Definition jop (j : job) : nat := match j with JPlain o | JFut o _ _ | JSync o _ _ => o end.
Definition wop (j : job) : option nat := match j with JFut o Waiting _ => Some o | _ => None end.
(* the job a frame holds; a sync_immediate closure counts as a (virtual) plain job in hand *)
Definition hjob (fr : frame) : option job :=
  match fr with
  | FJob j _ _ | FDRrequeue j | FDQrequeue _ _ j | FROpend j | FROcheck j | FROpark j => Some j
  | FClosure op _ => Some (JPlain op)
  | _ => None
  end.
Definition pjob (fr : frame) : option job :=
  match fr with FDRrequeue j | FDQrequeue _ _ j | FROpend j | FROcheck j | FROpark j => Some j | _ => None end.
Definition handfr (fr : frame) : bool := bool_decide (is_Some (hjob fr)).
Definition badpark (fr : frame) : bool := match pjob fr with Some j => negb (bool_decide (is_Some (susp j))) | None => false end.

Fixpoint hjobs (st : list frame) : list job :=
  match st with [] => [] | fr :: r => match hjob fr with Some j => j :: hjobs r | None => hjobs r end end.
Fixpoint heldl (L : list (list frame)) : list job := match L with [] => [] | st :: r => hjobs st ++ heldl r end.
Definition held (s : state) : list job := heldl (stacks s).

Lemma hjobs_app a b : hjobs (a ++ b) = hjobs a ++ hjobs b.
Proof. induction a as [|x a IH]; cbn; [done|]. destruct (hjob x); cbn; by rewrite IH. Qed.
Lemma hand_marker fr : handfr fr = true -> marker fr = true.
Proof. destruct fr; cbn; try done; unfold handfr; cbn; intros H; by apply bool_decide_eq_true in H as [? ?]. Qed.
Lemma hjobs_nil st : cntf marker st = 0 -> hjobs st = [].
Proof.
  induction st as [|x st IH]; cbn; [done|]. intros H.
  destruct (hjob x) eqn:E.
  - assert (marker x = true) by (apply hand_marker; unfold handfr; rewrite E; by apply bool_decide_eq_true). rewrite H0 in H. lia.
  - apply IH. destruct (marker x); lia.
Qed.
Lemma heldl_nil L : npl marker L = 0 -> heldl L = [].
Proof. induction L as [|x L IH]; cbn; [done|]. intros H. rewrite hjobs_nil, IH by lia. done. Qed.

Lemma heldl_insert_same L a old new : L !! a = Some old -> hjobs new = hjobs old -> heldl (<[a := new]> L) = heldl L.
Proof.
  revert a; induction L as [|x L IH]; intros [|a]; cbn; try done.
  - intros [= ->] ->. done.
  - intros H1 H2. change (hjobs x ++ heldl (<[a:=new]> L) = hjobs x ++ heldl L). by rewrite (IH a).
Qed.
Lemma heldl_runner L a st : L !! a = Some st -> npl marker L <= cntf marker st -> heldl L = hjobs st.
Proof.
  revert a; induction L as [|x L IH]; intros [|a]; cbn; try done.
  - intros [= ->] H. rewrite heldl_nil by lia. by rewrite app_nil_r.
  - intros H1 H2. pose proof (npl_ge marker _ _ _ H1). rewrite hjobs_nil by lia. cbn. apply (IH a); [done|lia].
Qed.
Lemma heldl_runner_insert L a st new : L !! a = Some st -> npl marker L <= cntf marker st -> heldl (<[a := new]> L) = hjobs new.
Proof.
  revert a; induction L as [|x L IH]; intros [|a]; cbn; try done.
  - intros [= ->] H. rewrite heldl_nil by lia. by rewrite app_nil_r.
  - intros H1 H2. pose proof (npl_ge marker _ _ _ H1). rewrite hjobs_nil by lia.
    change ([] ++ heldl (<[a:=new]> L) = hjobs new). cbn. apply (IH a); [done|lia].
Qed.

Definition trans (cur : option nat) (ev : gev) : option (option nat) :=
  match ev with
  | GStart o => match cur with None => Some (Some o) | Some _ => None end
  | GFinish o => match cur with Some o' => if decide (o = o') then Some None else None | None => None end
  | _ => Some cur
  end.
(* [wbn l = Some cur]: in the log (newest first) every Start o is followed by Finish o before any other Start;
   [cur] = the operation that is started and not finished *)
Fixpoint wbn (l : list gev) : option (option nat) := match l with [] => Some None | ev :: l' => cur ← wbn l'; trans cur ev end.
Fixpoint pushes (l : list gev) : list nat :=
  match l with [] => [] | ev :: l' => pushes l' ++ match ev with GPush o => [o] | _ => [] end end.
Fixpoint starts (l : list gev) : list nat :=
  match l with [] => [] | ev :: l' => starts l' ++ match ev with GStart o => [o] | _ => [] end end.
Fixpoint fops (l : list job) : list nat :=
  match l with [] => [] | j :: r => (if fresh j then [jop j] else []) ++ fops r end.
Lemma fops_app a b : fops (a ++ b) = fops a ++ fops b.
Proof. induction a as [|x a IH]; cbn; [done|]. by rewrite IH, app_assoc. Qed.

Definition inprog (s : state) : option nat :=
  match held s with j :: _ => wop j | [] => match s.(jobs) with j :: _ => wop j | [] => None end end.
Definition pend (s : state) : list nat := fops (held s) ++ fops s.(jobs).
Definition allfresh (l : list job) : Prop := forallb fresh l = true.
Definition badpush (fr : frame) : bool := match fr with FD1 j => negb (fresh j) | _ => false end.

Record jobs_cond (T : ftables) : Prop := {
  jc_sync_imm : forall st e st', T.(ft_base).(t_sync) st e = (st', SAImmediate) -> e = true;
}.

Record Inv_jobs (s : state) : Prop := {
  ij_tail : allfresh (tail s.(jobs));
  ij_head : forall j js, s.(jobs) = j :: js -> fresh j = true \/ is_Some (susp j);
  ij_busy : held s <> [] -> allfresh s.(jobs);
  ij_park : np badpark s = 0;
  ij_push : np badpush s = 0;
  ij_log : wbn s.(log) = Some (inprog s);
  ij_fifo : pushes s.(log) = starts s.(log) ++ pend s;
}.

Lemma held_other_step s s' a old new :
  stacks s !! a = Some old -> stacks s' = <[a := new]> (stacks s) -> hjobs new = hjobs old -> held s' = held s.
Proof. intros Ha Hs Hj. unfold held. rewrite Hs. by eapply heldl_insert_same. Qed.
Lemma held_runner_step s a fr rest :
  Inv_own s -> stacks s !! a = Some (fr :: rest) -> marker fr = true ->
  held s = hjobs [fr] /\ hjobs rest = [] /\ (forall s' new, stacks s' = <[a := new]> (stacks s) -> held s' = hjobs new).
Proof.
  intros [I1 _ _] Ha Hm.
  assert (Hle : npl marker (stacks s) <= cntf marker (fr :: rest)).
  { fold (np marker s). rewrite I1. cbn. rewrite Hm. pose proof (b2n_owned_le (qs s)). lia. }
  assert (Hr : cntf marker rest = 0).
  { pose proof (npl_ge marker _ _ _ Ha) as H. fold (np marker s) in H. rewrite I1 in H. cbn in H. rewrite Hm in H.
    pose proof (b2n_owned_le (qs s)). lia. }
  assert (Hrn : hjobs rest = []) by (by apply hjobs_nil).
  split; [|split; [done|]].
  - unfold held. rewrite (heldl_runner _ a _ Ha Hle). cbn. rewrite Hrn. by destruct (hjob fr).
  - intros s' new Hs. unfold held. rewrite Hs. by apply (heldl_runner_insert _ a (fr :: rest)).
Qed.
Lemma held_none s : Inv_own s -> owned s.(qs) = false -> held s = [].
Proof. intros [I1 _ _] Ho. unfold held. apply heldl_nil. fold (np marker s). by rewrite I1, Ho. Qed.
Lemma held_acquire_step s a old :
  Inv_own s -> owned s.(qs) = false -> stacks s !! a = Some old ->
  held s = [] /\ hjobs old = [] /\ (forall s' new, stacks s' = <[a := new]> (stacks s) -> held s' = hjobs new).
Proof.
  intros HO Ho Ha. split; [by apply held_none|]. split.
  - apply hjobs_nil. by eapply not_owned_no_marker.
  - intros s' new Hs. unfold held. rewrite Hs. apply (heldl_runner_insert _ a old new Ha).
    destruct HO as [I1 _ _]. fold (np marker s). rewrite I1, Ho. cbn. lia.
Qed.

Lemma fresh_wop j : fresh j = true -> wop j = None. Proof. by destruct j as [| ? [] ?|]. Qed.
Lemma susp_wop j : is_Some (susp j) -> exists o, wop j = Some o.
Proof. destruct j as [| o [] [|[] ?]|]; cbn; intros [? ?]; try done; by exists o. Qed.
Lemma allfresh_app l j : allfresh l -> fresh j = true -> allfresh (l ++ [j]).
Proof. unfold allfresh. intros H1 H2. rewrite forallb_app, H1. cbn. by rewrite H2. Qed.
Lemma allfresh_tail_app l j : allfresh (tail l) -> fresh j = true -> allfresh (tail (l ++ [j])).
Proof. destruct l as [|x l]; cbn; [done|]. apply allfresh_app. Qed.
Lemma head_app {P : job -> Prop} l x : (forall j js, l = j :: js -> P j) -> P x -> forall j js, l ++ [x] = j :: js -> P j.
Proof. intros H Hx j js. destruct l as [|y l]; cbn; intros [= <- <-]; [done|]. by eapply H. Qed.
Lemma fops_fresh l : allfresh l -> fops l = jop <$> l.
Proof. unfold allfresh. induction l as [|x l IH]; cbn; [done|]. intros [H1 H2]%andb_true_iff. by rewrite H1, IH. Qed.
Lemma head_wop_fresh l : allfresh l -> match l with [] => None | j :: _ => wop j end = None.
Proof. destruct l as [|j l]; [done|]. unfold allfresh; cbn. intros [H _]%andb_true_iff. by apply fresh_wop. Qed.
Lemma allfresh_cons j l : allfresh (j :: l) <-> fresh j = true /\ allfresh l.
Proof. unfold allfresh; cbn. by rewrite andb_true_iff. Qed.
Lemma head_wop_app l x : fresh x = true ->
  match l ++ [x] with [] => None | j :: _ => wop j end = match l with [] => None | j :: _ => wop j end.
Proof. intros H. destruct l; cbn; [by apply fresh_wop|done]. Qed.
Lemma allfresh_tail l : allfresh l -> allfresh (tail l).
Proof. destruct l; [done|]. by intros [_ H]%allfresh_cons. Qed.
Lemma allfresh_head (l : list job) : allfresh l -> forall j js, l = j :: js -> fresh j = true \/ is_Some (susp j).
Proof. intros H j js ->. left. by apply allfresh_cons in H as [H _]. Qed.

Lemma hjobs_opt_wake ow : hjobs (opt_wake ow) = []. Proof. by destruct ow. Qed.
Lemma hjobs_wake_frames ws : hjobs (wake_frames ws) = [].
Proof. induction ws as [|w ws IH]; [done|]. exact IH. Qed.

Lemma hjobs_fired_frames s e : hjobs (fired_frames s e) = []. Proof. apply hjobs_wake_frames. Qed.
Lemma hjobs_cont_fr c : hjobs (cont_fr c) = []. Proof. by destruct c. Qed.

(* the jobs in hand across a step: unchanged when the arm's frames hold the same jobs before and after; those of the arm's
   frames alone when the actor is the runner (its top frame is the marker) or takes the queue (nobody owned it) *)
Lemma held_arm s s' a l r :
  Inv_own s -> stacks s !! a = Some (arm_old l ++ r) -> stacks s' = <[a := arm_new s a l ++ r]> (stacks s) ->
  (hjobs (arm_new s a l) = hjobs (arm_old l) -> held s' = held s) /\
  (cntf marker (arm_old l) >= 1 \/ owned s.(qs) = false -> held s = hjobs (arm_old l) /\ held s' = hjobs (arm_new s a l)).
Proof.
  intros HO Ha Hs. split.
  - intros E. eapply held_other_step; [done..|]. by rewrite !hjobs_app, E.
  - intros Hc. pose proof (npl_ge marker _ _ _ Ha) as Hge. rewrite cntf_app in Hge. fold (np marker s) in Hge.
    assert (Hle : np marker s <= cntf marker (arm_old l)).
    { rewrite (io_cnt _ HO). destruct Hc as [?| ->]; [pose proof (b2n_owned_le (qs s))|cbn]; lia. }
    assert (Hr : hjobs r = []) by (apply hjobs_nil; lia).
    unfold held. rewrite Hs, (heldl_runner _ a _ Ha), (heldl_runner_insert _ a _ _ Ha), !hjobs_app, Hr, !app_nil_r by (rewrite cntf_app; unfold np in Hle; lia).
    done.
Qed.

Lemma badpark_arm s a l : cntf badpark (arm_old l) = 0 -> cntf badpark (arm_new s a l) = 0.
Proof. destruct l; try destruct k; cbn; rewrite ?cntf_app, ?cntf_opt_wake, ?cntf_fired_frames by done; cbn; lia. Qed.
Lemma badpush_arm s a l : cntf badpush (arm_old l) = 0 -> cntf badpush (arm_new s a l) = 0.
Proof. destruct l; try destruct k; cbn; rewrite ?cntf_app, ?cntf_opt_wake, ?cntf_fired_frames by done; cbn; lia. Qed.

Section Pres.
  Context (T : ftables) (HT : own_cond T) (HC : jobs_cond T).

  Lemma step_jobs s a s' : Inv_own s -> Inv_jobs s -> step T s a = Some s' -> Inv_jobs s'.
  Proof.
    intros HO [Jtail Jhead Jbusy Jpark Jpush Jlog Jfifo] (l & r & Hst & Hs' & Hg & He)%step_arm.
    pose proof (npl_ge badpark _ _ _ Hst) as Hbp. fold (np badpark s) in Hbp. rewrite Jpark, cntf_app in Hbp.
    pose proof (npl_ge badpush _ _ _ Hst) as Hbq. fold (np badpush s) in Hbq. rewrite Jpush, cntf_app in Hbq.
    destruct (held_arm s s' a l r HO Hst Hs') as [Hsame Hrun].
    assert (Jpark' : np badpark s' = 0) by (pose proof (np_arm badpark s s' a l r Hst Hs'); pose proof (badpark_arm s a l); lia).
    assert (Jpush' : np badpush s' = 0) by (pose proof (np_arm badpush s s' a l r Hst Hs'); pose proof (badpush_arm s a l); lia).
    clear Jpark Jpush. unfold inprog, pend in *. pose proof (e_jobs _ _ _ _ _ He) as Ej. pose proof (e_log _ _ _ _ _ He) as El. clear Hst Hs' He.
    destruct l; try destruct k; cbn [arm_old arm_new arm_jobs arm_log arm_guard app] in *.
    all: first [ assert (Hh : held s' = held s) by
                   (apply Hsame; cbn; rewrite ?hjobs_app, ?hjobs_opt_wake, ?hjobs_fired_frames, ?hjobs_cont_fr; reflexivity)
               | destruct Hrun as [Hh0 Hh1]; [left; cbn; lia|]
               | destruct Hrun as [Hh0 Hh1]; [right; tbl_facts HT; intuition|] ]; clear Hsame; try clear Hrun.
    (* a job parked in the consumed frame is suspended; a job about to be pushed is fresh *)
    all: try (lazymatch type of Hbp with cntf badpark (?fr :: _) + _ <= 0 =>
              lazymatch eval cbn in (pjob fr) with Some ?j =>
                assert (Hsj : is_Some (susp j)) by
                  (cbn in Hbp; destruct (bool_decide (is_Some (susp j))) eqn:Eb; [by apply bool_decide_eq_true in Eb|cbn in Hbp; lia]) end end).
    all: try (lazymatch type of Hbq with cntf badpush [FD1 ?j] + _ <= 0 =>
                assert (Hfj : fresh j = true) by (destruct (fresh j) eqn:Ef; [done|]; cbn in Ef, Hbq; rewrite Ef in Hbq; cbn in Hbq; lia) end).
    all: clear Hbp Hbq.
    all: split; [| | |done|done| |]; unfold inprog, pend; rewrite Ej, ?El; clear Ej El.
    all: rewrite ?Hh; rewrite ?Hh1; try rewrite Hh0 in *.
    all: cbn -[wbn pushes starts fops held allfresh] in *.
    all: rewrite ?hjobs_app, ?hjobs_opt_wake, ?hjobs_fired_frames; cbn -[wbn pushes starts fops held allfresh].
    all: try done.
    (* ij_tail, ij_head, ij_busy for push_back *)
    all: try (apply allfresh_tail_app; done).
    all: try (apply head_app; [done|by left]).
    all: try (intros Hne; apply allfresh_app; [by apply Jbusy|done]).
    all: cbn [wbn pushes starts mbind option_bind]; rewrite ?Jlog, ?Jfifo; cbn [mbind option_bind trans].
    all: try (rewrite fops_app; cbn [fops]; rewrite ?Hfj; cbn [app fresh jop]; rewrite ?app_nil_r, <- ?app_assoc; done).
    all: try (destruct (held s) eqn:Eh; [|rewrite (fresh_wop j0)]; done).
    all: try (assert (Haf : allfresh (jobs s)) by (apply Jbusy; done)).
    all: try rewrite (head_wop_fresh _ Haf).
    all: rewrite ?app_nil_r; cbn [fops fresh jop app]; rewrite ?app_nil_r, <- ?app_assoc; cbn [app].
    all: rewrite ?decide_True by done.
    all: try done.
    all: try (rewrite head_wop_app by done; done).
    (* dequeue: the head of the queue goes into the runner's hand; requeue: a suspended job goes back to the head *)
    all: try (lazymatch type of Hg with _ /\ jobs _ = _ => destruct Hg as [_ E0] end; rewrite E0 in *; cbn [tail] in Jtail;
              first [ by apply allfresh_tail | by apply allfresh_head | done | cbn [fops]; rewrite <- ?app_assoc; done ]).
    all: try (intros j0 js [= <- <-]; by right).
    (* left: AS1imm, whose closure counts as a job in hand - sync_immediate runs only on an empty queue *)
    all: apply (jc_sync_imm _ HC) in Hg; apply bool_decide_eq_true in Hg; rewrite Hg in *; done.
  Qed.
End Pres.

Lemma held_init scripts npool nev : held (init scripts npool nev) = [].
Proof. apply heldl_nil. fold (np marker (init scripts npool nev)). by rewrite np_init. Qed.
Lemma init_jobs scripts npool nev : Inv_jobs (init scripts npool nev).
Proof.
  split; try done; try (by rewrite np_init).
  - unfold inprog. by rewrite held_init.
  - unfold pend. by rewrite held_init.
Qed.

(* reading of [wbn]: after a Start o (newer events = l1) no other Start happens before Finish o *)
Lemma wbn_exclusive l1 : forall l2 o c, wbn (l1 ++ GStart o :: l2) = Some c -> GFinish o ∉ l1 ->
  (forall o', GStart o' ∉ l1) /\ c = Some o.
Proof.
  induction l1 as [|ev l1 IH]; intros l2 o c; cbn.
  - intros H _. split; [intros o' H'; by apply elem_of_nil in H'|].
    destruct (wbn l2) as [[?|]|]; cbn in H; congruence.
  - intros H Hnf. destruct (wbn (l1 ++ GStart o :: l2)) as [cur|] eqn:E; cbn in H; [|done].
    destruct (IH l2 o cur E) as [Hns ->]; [intros Hin; apply Hnf; by right|].
    destruct ev; cbn in H; try done.
    all: try (injection H as <-; split; [|done]; intros o' [?|?]%elem_of_cons; [done|by eapply Hns]).
    destruct (decide (o0 = o)) as [->|]; [exfalso; apply Hnf; left|done].
Qed.
Lemma wbn_suffix l1 l2 c : wbn (l1 ++ l2) = Some c -> exists c2, wbn l2 = Some c2.
Proof.
  revert c; induction l1 as [|ev l1 IH]; intros c; cbn; [by eexists|].
  destruct (wbn (l1 ++ l2)) eqn:E; cbn; [|done]. intros _. by eapply IH.
Qed.

Section Reach.
  Context (T : ftables) (HT : own_cond T) (HC : jobs_cond T).
  Theorem reachable_jobs scripts npool nev tr s : run T (init scripts npool nev) tr = Some s -> Inv_own s /\ Inv_jobs s.
  Proof.
    apply (run_inv (fun s => Inv_own s /\ Inv_jobs s) T).
    - intros s0 a s' [HO HJ] Hs. split; [by eapply step_own|by eapply step_jobs].
    - split; [apply init_own|apply init_jobs].
  Qed.

  (* C01 across awaits, on the ghost log (newest first): once o has Started, nothing else Starts until Finish o *)
  Theorem log_exclusive scripts npool nev tr s l1 l2 o :
    run T (init scripts npool nev) tr = Some s -> s.(log) = l1 ++ GStart o :: l2 -> GFinish o ∉ l1 -> forall o', GStart o' ∉ l1.
  Proof.
    intros Hr Hl Hnf. apply reachable_jobs in Hr as [_ HJ]. pose proof (ij_log _ HJ) as H. rewrite Hl in H.
    by apply (wbn_exclusive l1 l2 o _ H Hnf).
  Qed.
  (* ... and the open operation is where the invariant says: in the runner's hand, else at the head of the queue *)
  Theorem open_op_location scripts npool nev tr s l1 l2 o :
    run T (init scripts npool nev) tr = Some s -> s.(log) = l1 ++ GStart o :: l2 -> GFinish o ∉ l1 ->
    (exists j r, held s = j :: r /\ wop j = Some o) \/ (held s = [] /\ exists j r, s.(jobs) = j :: r /\ wop j = Some o).
  Proof.
    intros Hr Hl Hnf. apply reachable_jobs in Hr as [_ HJ]. pose proof (ij_log _ HJ) as H. rewrite Hl in H.
    destruct (wbn_exclusive l1 l2 o _ H Hnf) as [_ Ho]. unfold inprog in Ho.
    destruct (held s) as [|j r]; [right|left; by exists j, r].
    split; [done|]. destruct (jobs s) as [|j r]; [done|]. by exists j, r.
  Qed.
  (* C02: operations Start in the order their jobs were pushed *)
  Theorem fifo scripts npool nev tr s :
    run T (init scripts npool nev) tr = Some s -> starts s.(log) `prefix_of` pushes s.(log).
  Proof. intros Hr. apply reachable_jobs in Hr as [_ HJ]. rewrite (ij_fifo _ HJ). by eexists. Qed.
End Reach.
