(* C07, complete form: with at least one pool runner, in a reachable state in which no actor is enabled and every event is fired,
   every caller has finished its script (every awaiting task was woken, every blocked sync caller was released) *)
From stdpp Require Import list numbers option.
From RecordUpdate Require Import RecordUpdate.
From L2 Require Import Model Base Own Jobs Shape DwInv Pool OpShape Fut Wake WakeInv WakeLem WakeStep1 Term TaskPend Task TaskInv YTask.
#[global] Unset Lia Cache.

Record Inv_all2 (s : state) : Prop := { i2_all : Inv_all s; i2_op : Inv_op s; i2_task : Inv_task s; i2_ytw : Inv_ytw s }.
Lemma init_all2 scripts npool nev : Inv_all2 (init scripts npool nev).
Proof. split; [apply init_all|apply init_op|apply init_task|apply init_ytw]. Qed.
Lemma step_all2 T (HA : all_cond T) s a s' : Inv_all2 s -> step T s a = Some s' -> Inv_all2 s'.
Proof.
  intros [H1 H2 H3 H4] Hs. split; [by eapply step_all|by eapply step_op| |by eapply step_ytw].
  eapply step_task; [apply (ia_own _ H1)|apply (ia_fut _ H1)|exact H2|exact H3|exact Hs].
Qed.
Theorem reachable_all2 T (HA : all_cond T) scripts npool nev tr s : run T (init scripts npool nev) tr = Some s -> Inv_all2 s.
Proof. apply (run_inv Inv_all2 T); [intros; by eapply step_all2|apply init_all2]. Qed.

Lemma heldl_none L c st fr : heldl L = [] -> L !! c = Some st -> fr ∈ st -> hjob fr = None.
Proof.
  revert c; induction L as [|x L IH]; intros [|c]; cbn; try done.
  - intros [H _]%app_eq_nil [= ->] Hin. clear -H Hin. induction st as [|y st IHs]; [by apply elem_of_nil in Hin|].
    cbn in H. destruct (hjob y) eqn:E; [done|]. apply elem_of_cons in Hin as [->|Hin]; [done|by apply IHs].
  - intros [_ H]%app_eq_nil Hc Hin. by eapply IH.
Qed.

Section Terminal.
  Context (T : ftables) (HA : all_cond T).
  Context (s : state) (H2 : Inv_all2 s) (Hterm : terminal T s) (Hfired : all_fired s) (HP : has_pool s).
  Let HI := i2_all _ H2.
  Let Hnp : no_panic T s := fun a => fut_no_panic T s a (ac_own _ HA) (ia_own _ HI) (ia_fut _ HI).

  (* no job is left anywhere: queue, hands, schedule_job_desync frames *)
  Lemma term_no_job (P : frame -> bool) (Q : job -> bool) cntq :
    (forall fr, P fr = true -> is_Some (hjob fr) \/ toponly fr = true) ->
    np P s + cntq s.(jobs) >= 1 -> cntq [] = 0 -> False.
  Proof.
    intros HPf Hn Hz. destruct (terminal_idle_empty T s HI Hterm Hnp Hfired HP) as (_ & Hj & Hh).
    rewrite Hj, Hz in Hn. assert (Hp : np P s > 0) by lia. apply np_pos_fsat in Hp as (c & fr & (st & Hc & Hin) & Hpf).
    destruct (HPf _ Hpf) as [[j Hj']|Ht].
    - unfold held in Hh. by rewrite (heldl_none _ c st fr Hh Hc Hin) in Hj'.
    - assert (Hq : np toponly s > 0) by (apply np_pos_fsat; exists c, fr; split; [by exists st|done]).
      rewrite (term_quiet T s HI Hterm Hnp toponly) in Hq; [lia|]. intros ? ?. by right.
  Qed.

  (* nothing is in flight: only the park token can still wake a task *)
  Lemma term_tpend c ac : s.(actors) !! c = Some ac -> ac.(token) = false -> tpend s c = false.
  Proof.
    intros Ea Etok. rewrite tpend_quiet; [|apply (term_quiet T s HI Hterm Hnp); intros []; try done; by left|apply (term_npwake T s HI Hterm Hnp)].
    unfold tokb. by rewrite (toks_lookup _ _ _ Ea), Etok.
  Qed.

  (* the owner of a SyncFuture is never left asleep after a Pending poll: the wake-up it waits for is under way *)
  Lemma term_no_ypark c y st u rest : stacks s !! c = Some (FY YPpark y st u :: rest) -> False.
  Proof.
    intros Hc. destruct (stacks_actor s c _ Hc) as (ac & Ea & Est).
    pose proof (Hterm c) as Hs. unfold step in Hs. rewrite Ea in Hs. cbn in Hs. rewrite Est in Hs. cbn in Hs.
    destruct (token ac) eqn:Etok; [done|].
    pose proof (i2_ytw _ H2 c _ _ Hc ltac:(left)) as Hy. cbn [yob] in Hy.
    assert (Hq : forall e, twr s c e = false).
    { intros e. apply not_true_is_false. rewrite twr_true, (term_tpend c ac Ea Etok), (term_unfreg s Hfired). by intros [|]. }
    destruct st as [b|rs]; cbn [yguar] in Hy; [by rewrite Hq in Hy|]. destruct rs as [|p b]; [done|]. destruct p; try done; [by rewrite Hq in Hy|].
    apply twr2_true in Hy as [Hy|[Hy _]]; [by rewrite (term_tpend c ac Ea Etok) in Hy|by rewrite (term_unfreg s Hfired) in Hy].
  Qed.

  Theorem terminal_complete c st : stacks s !! c = Some st -> st = [FTop []] \/ st = [FPIdle].
  Proof.
    intros Hc. destruct (term_top T s HI Hterm Hnp c st Hc) as (fr & rest & -> & Hb).
    destruct (stacks_actor s c _ Hc) as (ac & Ea & Est).
    pose proof (Hterm c) as Hs. unfold step in Hs. rewrite Ea in Hs. cbn in Hs. rewrite Est in Hs.
    destruct fr; try done; cbn in Hs.
    - (* FTop [] *) destruct script; [|done]. left. by rewrite (op_bot_alone s c _ rest (i2_op _ H2) Hc eq_refl).
    - (* FPark f *) exfalso. destruct (token ac) eqn:Etok; [done|].
      pose proof (it_tw _ (i2_task _ H2) c _ Hc) as Htw. cbn in Htw.
      apply tw_true in Htw as [Htw|Hcell]; [by rewrite (term_tpend c ac Ea Etok) in Htw|]. pose proof Hcell as [Hr _].
      assert (Hlt : f < length (futs s)) by (by apply (cell_in_range s c f)).
      pose proof (it_sig _ (i2_task _ H2) f Hlt Hr) as Hn. unfold nsig in Hn.
      eapply (term_no_job (sgf f) (sgj f) (cnts f)); [|exact Hn|done].
      intros fr Hf. destruct fr; try done; (left; by eexists) || (by right).
    - (* FSBwait *) exfalso. destruct (sres ac) eqn:Esr; [done|].
      pose proof (it_sb _ (i2_task _ H2) c _ Hc) as Hsb. unfold sb_ok in Hsb. cbn in Hsb.
      assert (Hsr : sresb s c = false) by (unfold sresb; by rewrite (sress_lookup _ _ _ Ea), Esr).
      rewrite Hsr in Hsb. cbn in Hsb. apply posb_true in Hsb. unfold nsb in Hsb.
      eapply (term_no_job (sbf c) (sbj c) (cntb c)); [|lia|done].
      intros fr Hf. destruct fr; try done; (left; by eexists) || (by right).
    - (* FROpark j *) exfalso. pose proof (runner_owned s c _ (ia_own _ HI) Hc ltac:(cbn; lia)) as Ho.
      by rewrite (term_no_runner T s HI Hterm Hnp Hfired) in Ho.
    - (* FPIdle *) right. by rewrite (op_bot_alone s c _ rest (i2_op _ H2) Hc eq_refl).
    - (* FY YPpark: the owner of a SyncFuture, asleep after a Pending poll *) exfalso. destruct pc; try done. by eapply term_no_ypark.
  Qed.
End Terminal.

Theorem C07_complete T (HA : all_cond T) scripts npool nev tr s :
  npool >= 1 -> run T (init scripts npool nev) tr = Some s -> terminal T s -> all_fired s ->
  forall c st, stacks s !! c = Some st -> st = [FTop []] \/ st = [FPIdle].
Proof.
  intros Hn Hr Ht Hf. eapply terminal_complete; try done; [by eapply reachable_all2|by eapply reachable_has_pool].
Qed.
