(* The step function by cases.  An [arm] names one path through [step]: it carries the parameters of the frames it consumes and
   the table outcomes that select it.  [step_arm] gives, for a successful step, the arm taken, the frames it replaces on top of the
   actor's stack, the condition under which it is taken and every other component of the new state as a function of the old one.
   An invariant is then preserved arm by arm, looking only at the components it reads. *)
From stdpp Require Import list numbers option.
From RecordUpdate Require Import RecordUpdate.
From L2 Require Import Model Base.

(* the await / drop-loop continuation under a poll that returns Ready ([pop_cont]) *)
Inductive cont := CNone | CAw (f : nat) | CDrop (f k : nat) | CY (y : ydat) (st : ystate) (u : fuse).
Definition cont_fr (c : cont) : list frame :=
  match c with CNone => [] | CAw f => [FAwRet f] | CDrop f k => [FDropRet f k] | CY y st u => [FY YPsfret y st u] end.

Inductive arm :=
| ATopDesync (os : list cop) | ATopFuture (body : list fprim) (u : fuse) (os : list cop)
| ATopSuspend (e : nat) (u : fuse) (os : list cop) | ATopSync (os : list cop) | ATopFire (e : nat) (os : list cop)
| ATopFutSync (body : list fprim) (u : fuse) (os : list cop)
| AD1sched (j : job) (q : qstate) | AD1none (j : job) (q : qstate) | AD2
| AUseDone (f : nat) (u : fuse) | AUseAwait (f : nat) | AUseSync (f : nat) | AUseDrop (f k : nat)
| AAwRet (f : nat) | APark (f : nat) | ADropRet (f k : nat)
| AFS1none (f : nat) | AFS1ready (f v : nat)
| AFire (e : nat) | AUnpark (c : nat) | ADQlate (j : job)
| ASFpollWait (f : nat) (q : qstate) | ASFpollDrain (f : nat) (q : qstate) | ASFpollReady (f v : nat) (c : cont)
| ADQtakeNone (f : nat) | ADQtakeReady (f v : nat) (c : cont)
| ADQdeqEmpty (f : nat) | ADQdeqJob (f : nat) (j : job) (js : list job)
| ADQrequeue (f d : nat) (j : job)
| ADQtake2None (f d : nat) | ADQtake2Ready (f d v : nat) (c : cont)
| ADQwfw (f d : nat) | ADQstore (f d : nat) | ADQwfp (f d : nat)
| ADQempty1 (f : nat) | ADQempty2 (f : nat) | ADQidle (f : nat)
| AWakeWithNow (d : nat) (w : waker) (st st' : dwstate) (slot : option waker)
| AWakeWithLater (d : nat) (w : waker) (st st' : dwstate) (slot : option waker)
| AS1imm (op : nat) (tk : option nat) (q : qstate) | AS1drain (op : nat) (tk : option nat) (q : qstate)
| AS1bg (op : nat) (tk : option nat) (q : qstate)
| AClosure (op : nat) (tk : option nat) | AClosureTake (op f v : nat) | ASIidle
| ASDpush (op : nat) (tk : option nat) | ASDloopDone | ASDloopMore | ASDidle
| ASBreg (op : nat) (tk : option nat) | ASBpushIdle (op : nat) (tk : option nat) | ASBpushBusy (op : nat) (tk : option nat)
| ASBwaitDone | ASBwaitKick | ASBdone | ASBclaimOk (q : qstate) | ASBclaimFail
| AROdeqEmpty | AROdeqJob (j : job) (js : list job)
| AROpendCheck (j : job) (q : qstate) | AROpendPoll (j : job) (q : qstate)
| AROcheckBreak (j : job) | AROcheckPark (j : job) | AROpark (j : job)
| ARQ1push (q : qstate) | ARQ1none (q : qstate) | ARQ2
| APIdleTake (n : nat) (q : qstate) | APIdleSkip (n : nat)
| ADRdeqEmpty | ADRdeqJob (j : job) (js : list job) | ADRrequeue (j : job)
| ADRpendPark | ADRpendMore | ADRfinDone (q : qstate) | ADRfinMore (q : qstate)
| AJobPlain (op : nat) (w : waker) (k : kont) | AJobCreate (op : nat) (sc : list fprim) (w : waker) (k : kont)
| AJobFinish (op : nat) (w : waker) (k : kont)
(* [AJobAdv]: the first primitive of the job completes without any effect *)
| AJobAdv (op : nat) (p : fprim) (r : list fprim) (w : waker) (k : kont)
| AJobAwait (op e : nat) (r : list fprim) (w : waker) (k : kont)
| AJobEither (op e1 e2 : nat) (r : list fprim) (w : waker) (k : kont)
| AJobDone (op e : nat) (r : list fprim) (w : waker) (k : kont)
| AJobSend (op e : nat) (r : list fprim) (w : waker) (k : kont)
| AJobSignal (op f : nat) (r : list fprim) (w : waker) (k : kont)
| AJobSync (op c : nat) (tk : option nat) (w : waker) (k : kont) | AJobSyncTake (op c f v : nat) (w : waker) (k : kont)
| AWQresched (q : qstate) | AWQquiet (q : qstate) | AWThread (c : nat) | AWTask (c : nat)
| AWDrainNow (d : nat) (st st' : dwstate) (slot : option waker) | AWDrainLater (d : nat) (st st' : dwstate) (slot : option waker)
| AWDoubleSome (k : nat) (w1 w2 : waker) | AWDoubleNone (k : nat)
| AYuse (y : ydat) (st : ystate) (u : fuse)
| AYpendPark (y : ydat) (st : ystate) | AYpendAgain (y : ydat) (st : ystate) (k : nat) | AYpendDrop (y : ydat) (st : ystate) (u : fuse)
| AYpark (y : ydat) (st : ystate) (u : fuse)
| AYpoll (y : ydat) (body : list fprim) (u : fuse)
(* [AYgoto]: a move of the SyncFuture's program point alone *)
| AYgoto (pc pc' : ypc) (y : ydat) (st : ystate) (u : fuse)
| AYrecvReady (y : ydat) (body : list fprim) (u : fuse) | AYrecvPending (y : ydat) (body : list fprim) (u : fuse)
| AYuserFinish (y : ydat) (u : fuse) | AYuserAdv (y : ydat) (p : fprim) (b : list fprim) (u : fuse)
| AYuserAwait (y : ydat) (e : nat) (b : list fprim) (u : fuse) | AYuserEither (y : ydat) (e1 e2 : nat) (b : list fprim) (u : fuse)
| AYfin (y : ydat) (st : ystate) (u : fuse)
| AYdrop1Queue (y : ydat) (body : list fprim) (u : fuse) | AYdrop1Future (y : ydat) (b : list fprim) (u : fuse)
| AYdrop2 (y : ydat) (st : ystate) (u : fuse).

Definition upolls (u : fuse) : bool := match u with UAwait | UDropAfter (S _) => true | _ => false end.
Definition ygoto (pc : ypc) (st : ystate) : option ypc :=
  match pc, st with
  | YPloop, YFuture _ | YPsfret, YFuture _ | YPrecv, YFuture _ => Some YPuser
  | YPsfret, YQueue _ => Some YPrecv
  | YPuser, YQueue _ => Some YPloop
  | _, _ => None
  end.
Definition prim_ready (s : state) (p : fprim) : Prop :=
  match p with
  | PTouch => True
  | PAwait e | PAwaitDone e => (getev s e).(fired) = true
  | PAwaitEither e1 e2 => (getev s e1).(fired) || (getev s e2).(fired) = true
  | _ => False
  end.
(* the user future of a SyncFuture steps over every primitive that is not an await *)
Definition uprim_ready (s : state) (p : fprim) : Prop :=
  match p with
  | PAwait e => (getev s e).(fired) = true
  | PAwaitEither e1 e2 => (getev s e1).(fired) || (getev s e2).(fired) = true
  | _ => True
  end.

Definition arm_old (l : arm) : list frame :=
  match l with
  | ATopDesync os => [FTop (ODesync :: os)] | ATopFuture body u os => [FTop (OFuture body u :: os)]
  | ATopSuspend e u os => [FTop (OSuspend e u :: os)] | ATopSync os => [FTop (OSync :: os)] | ATopFire e os => [FTop (OFire e :: os)]
  | ATopFutSync body u os => [FTop (OFutSync body u :: os)]
  | AD1sched j _ | AD1none j _ => [FD1 j] | AD2 => [FD2]
  | AUseDone f u => [FUse f u] | AUseAwait f => [FUse f UAwait] | AUseSync f => [FUse f USync] | AUseDrop f k => [FUse f (UDropAfter (S k))]
  | AAwRet f => [FAwRet f] | APark f => [FPark f] | ADropRet f k => [FDropRet f k]
  | AFS1none f | AFS1ready f _ => [FFS1 f]
  | AFire e => [FFire e] | AUnpark c => [FUnpark c] | ADQlate j => [FDQlate j]
  | ASFpollWait f _ | ASFpollDrain f _ => [FSFpoll f] | ASFpollReady f _ c => FSFpoll f :: cont_fr c
  | ADQtakeNone f => [FDQtake f] | ADQtakeReady f _ c => FDQtake f :: cont_fr c
  | ADQdeqEmpty f | ADQdeqJob f _ _ => [FDQdeq f]
  | ADQrequeue f d j => [FDQrequeue f d j]
  | ADQtake2None f d => [FDQtake2 f d] | ADQtake2Ready f d _ c => FDQtake2 f d :: cont_fr c
  | ADQwfw f d => [FDQwfw f d] | ADQstore f d => [FDQstore f d] | ADQwfp f d => [FDQwfp f d]
  | ADQempty1 f => [FDQempty1 f] | ADQempty2 f => [FDQempty2 f] | ADQidle f => [FDQidle f]
  | AWakeWithNow d w _ _ _ | AWakeWithLater d w _ _ _ => [FWakeWith d w]
  | AS1imm op tk _ | AS1drain op tk _ | AS1bg op tk _ => [FS1 op tk]
  | AClosure op tk => [FClosure op tk] | AClosureTake op f _ => [FClosure op (Some f)] | ASIidle => [FSIidle]
  | ASDpush op tk => [FSDpush op tk] | ASDloopDone | ASDloopMore => [FSDloop] | ASDidle => [FSDidle]
  | ASBreg op tk => [FSBreg op tk] | ASBpushIdle op tk | ASBpushBusy op tk => [FSBpush op tk]
  | ASBwaitDone | ASBwaitKick => [FSBwait] | ASBdone => [FSBdone] | ASBclaimOk _ | ASBclaimFail => [FSBclaim]
  | AROdeqEmpty | AROdeqJob _ _ => [FROdeq]
  | AROpendCheck j _ | AROpendPoll j _ => [FROpend j]
  | AROcheckBreak j | AROcheckPark j => [FROcheck j] | AROpark j => [FROpark j]
  | ARQ1push _ | ARQ1none _ => [FRQ1] | ARQ2 => [FRQ2]
  | APIdleTake _ _ | APIdleSkip _ => [FPIdle]
  | ADRdeqEmpty | ADRdeqJob _ _ => [FDRdeq] | ADRrequeue j => [FDRrequeue j]
  | ADRpendPark | ADRpendMore => [FDRpend] | ADRfinDone _ | ADRfinMore _ => [FDRfin]
  | AJobPlain op w k => [FJob (JPlain op) w k] | AJobCreate op sc w k => [FJob (JFut op NotCreated sc) w k]
  | AJobFinish op w k => [FJob (JFut op Waiting []) w k]
  | AJobAdv op p r w k => [FJob (JFut op Waiting (p :: r)) w k]
  | AJobAwait op e r w k => [FJob (JFut op Waiting (PAwait e :: r)) w k]
  | AJobEither op e1 e2 r w k => [FJob (JFut op Waiting (PAwaitEither e1 e2 :: r)) w k]
  | AJobDone op e r w k => [FJob (JFut op Waiting (PAwaitDone e :: r)) w k]
  | AJobSend op e r w k => [FJob (JFut op Waiting (PSendReady e :: r)) w k]
  | AJobSignal op f r w k => [FJob (JFut op Waiting (PSignal f :: r)) w k]
  | AJobSync op c tk w k => [FJob (JSync op c tk) w k] | AJobSyncTake op c f _ w k => [FJob (JSync op c (Some f)) w k]
  | AWQresched _ | AWQquiet _ => [FWake WQueue] | AWThread c => [FWake (WThread c)] | AWTask c => [FWake (WTask c)]
  | AWDrainNow d _ _ _ | AWDrainLater d _ _ _ => [FWake (WDrain d)]
  | AWDoubleSome k _ _ | AWDoubleNone k => [FWake (WDouble k)]
  | AYuse y st u => [FY YPuse y st u]
  | AYpendPark y st => [FY YPpend y st UAwait] | AYpendAgain y st k => [FY YPpend y st (UDropAfter (S k))]
  | AYpendDrop y st u => [FY YPpend y st u]
  | AYpark y st u => [FY YPpark y st u]
  | AYpoll y body u => [FY YPloop y (YQueue body) u]
  | AYgoto pc _ y st u => [FY pc y st u]
  | AYrecvReady y body u | AYrecvPending y body u => [FY YPrecv y (YQueue body) u]
  | AYuserFinish y u => [FY YPuser y (YFuture []) u] | AYuserAdv y p b u => [FY YPuser y (YFuture (p :: b)) u]
  | AYuserAwait y e b u => [FY YPuser y (YFuture (PAwait e :: b)) u]
  | AYuserEither y e1 e2 b u => [FY YPuser y (YFuture (PAwaitEither e1 e2 :: b)) u]
  | AYfin y st u => [FY YPfin y st u]
  | AYdrop1Queue y body u => [FY YPdrop1 y (YQueue body) u] | AYdrop1Future y b u => [FY YPdrop1 y (YFuture b) u]
  | AYdrop2 y st u => [FY YPdrop2 y st u]
  end.

Definition fired_frames (s : state) (e : nat) : list frame := wake_frames (rev (getev s e).(wakers)).

Definition arm_new (s : state) (a : nat) (l : arm) : list frame :=
  let op := s.(nextop) in let f0 := length s.(futs) in let r0 := length s.(evs) in
  match l with
  | ATopDesync os => [FD1 (JPlain op); FTop os]
  | ATopFuture body u os => [FD1 (JFut op NotCreated (body ++ [PSignal f0])); FUse f0 u; FTop os]
  | ATopSuspend e u os => [FD1 (JFut op NotCreated ([PSignal f0; PAwait e] ++ [PSignal (S f0)])); FUse f0 u; FTop os]
  | ATopSync os => [FS1 op None; FTop os] | ATopFire e os => [FFire e; FTop os]
  | ATopFutSync body u os =>
      [FD1 (JFut op NotCreated [PSendReady r0; PAwaitDone (S r0); PSignal f0]);
       FY YPuse {| y_op := op; y_f := f0; y_r := r0 |} (YQueue body) u; FTop os]
  | AD1sched _ _ => [FD2] | AD1none _ _ | AD2 | AUseDone _ _ => []
  | AUseAwait f => [FSFpoll f; FAwRet f] | AUseSync f => [FFS1 f] | AUseDrop f k => [FSFpoll f; FDropRet f k]
  | AAwRet f => [FPark f] | APark f => [FSFpoll f; FAwRet f] | ADropRet f k => [FUse f (UDropAfter k)]
  | AFS1none f => [FS1 op (Some f)] | AFS1ready _ _ => []
  | AFire e => fired_frames s e | AUnpark _ | ADQlate _ => []
  | ASFpollWait _ _ => [] | ASFpollDrain f _ => [FDQtake f] | ASFpollReady _ _ _ => []
  | ADQtakeNone f => [FDQdeq f] | ADQtakeReady f _ _ => [FDQidle f]
  | ADQdeqEmpty f => [FDQempty1 f] | ADQdeqJob f j _ => [FJob j (WDrain (length s.(dws))) (KDq f (length s.(dws)))]
  | ADQrequeue f d _ => [FDQtake2 f d]
  | ADQtake2None f d => [FDQstore f d] | ADQtake2Ready f d _ _ => [FDQwfw f d]
  | ADQwfw _ d => [FWakeWith d WQueue] | ADQstore f d => [FDQwfp f d] | ADQwfp _ d => [FWakeWith d (WDouble (length s.(dbl)))]
  | ADQempty1 f => [FDQempty2 f] | ADQempty2 _ | ADQidle _ => [FRQ1]
  | AWakeWithNow _ w _ _ _ => [FWake w] | AWakeWithLater _ _ _ _ _ => []
  | AS1imm op tk _ => [FClosure op tk] | AS1drain op tk _ => [FSDpush op tk] | AS1bg op tk _ => [FSBreg op tk]
  | AClosure _ _ | AClosureTake _ _ _ => [FSIidle] | ASIidle => [FRQ1]
  | ASDpush _ _ => [FSDloop] | ASDloopDone => [FSDidle] | ASDloopMore => [FROdeq] | ASDidle => [FRQ1]
  | ASBreg op tk => [FSBpush op tk] | ASBpushIdle _ _ => [FRQ1; FSBwait] | ASBpushBusy _ _ => [FSBwait]
  | ASBwaitDone => [FSBdone] | ASBwaitKick => [FSBclaim] | ASBdone => [] | ASBclaimOk _ => [FSDloop; FSBdone] | ASBclaimFail => [FSBwait]
  | AROdeqEmpty => [FSDloop] | AROdeqJob j _ => [FJob j (WThread a) KRoj]
  | AROpendCheck j _ => [FROcheck j] | AROpendPoll j _ => [FJob j (WThread a) KRoj]
  | AROcheckBreak j => [FJob j (WThread a) KRoj] | AROcheckPark j => [FROpark j] | AROpark j => [FROcheck j]
  | ARQ1push _ => [FRQ2] | ARQ1none _ | ARQ2 => []
  | APIdleTake _ _ => [FDRdeq; FPIdle] | APIdleSkip _ => [FPIdle]
  | ADRdeqEmpty => [FDRfin] | ADRdeqJob j _ => [FJob j WQueue KDrain] | ADRrequeue _ => [FDRpend]
  | ADRpendPark => [] | ADRpendMore => [FDRdeq] | ADRfinDone _ => [] | ADRfinMore _ => [FDRdeq]
  | AJobPlain _ _ k | AJobFinish _ _ k | AJobSync _ _ _ _ k | AJobSyncTake _ _ _ _ _ k => [ret_ready k]
  | AJobCreate op sc w k => [FJob (JFut op Waiting sc) w k]
  | AJobAdv op _ r w k => [FJob (JFut op Waiting r) w k]
  | AJobAwait op e r _ k => [ret_pending k (JFut op Waiting (PAwait e :: r))]
  | AJobEither op e1 e2 r _ k => [ret_pending k (JFut op Waiting (PAwaitEither e1 e2 :: r))]
  | AJobDone op e r _ k => [ret_pending k (JFut op Waiting (PAwaitDone e :: r))]
  | AJobSend op e r w k => fired_frames s e ++ [FJob (JFut op Waiting r) w k]
  | AJobSignal op f r w k => opt_wake (getf s f).(fwaker) ++ [FJob (JFut op Waiting r) w k]
  | AWQresched _ => [FRQ1] | AWQquiet _ => [] | AWThread c | AWTask c => [FUnpark c]
  | AWDrainNow _ _ _ slot => opt_wake slot | AWDrainLater _ _ _ _ => []
  | AWDoubleSome _ w1 w2 => [FWake w1; FWake w2] | AWDoubleNone _ => []
  | AYuse y st u => [FY (if upolls u then YPloop else YPdrop1) y st u]
  | AYpendPark y st => [FY YPpark y st UAwait] | AYpendAgain y st k => [FY YPuse y st (UDropAfter k)]
  | AYpendDrop y st u => [FY YPdrop1 y st u]
  | AYpark y st u => [FY YPloop y st u]
  | AYpoll y body u => [FSFpoll y.(y_f); FY YPsfret y (YQueue body) u]
  | AYgoto _ pc' y st u => [FY pc' y st u]
  | AYrecvReady y body u => [FY YPuser y (YFuture body) u] | AYrecvPending y body u => [FY YPpend y (YQueue body) u]
  | AYuserFinish y u => [FY YPfin y (YFuture []) u] | AYuserAdv y _ b u => [FY YPuser y (YFuture b) u]
  | AYuserAwait y e b u => [FY YPpend y (YFuture (PAwait e :: b)) u]
  | AYuserEither y e1 e2 b u => [FY YPpend y (YFuture (PAwaitEither e1 e2 :: b)) u]
  | AYfin y _ u => fired_frames s (S y.(y_r)) ++ [FUse y.(y_f) u]
  | AYdrop1Queue y body u => [FY YPdrop2 y (YQueue body) u] | AYdrop1Future y b u => [FY YPdrop2 y (YFuture b) u]
  | AYdrop2 y _ _ => fired_frames s (S y.(y_r))
  end.

(* when the arm is taken; [rest] is the stack below the frames the arm consumes *)
Definition arm_guard (T : ftables) (s : state) (a : nat) (rest : list frame) (l : arm) : Prop :=
  let B := T.(ft_base) in
  let popped f v c := (getf s f).(res) = FSome v /\ (c = CNone -> nocont rest) in
  let empty := B.(t_dequeue_refuses) s.(qs) = true \/ s.(jobs) = [] in
  let nonempty j js := B.(t_dequeue_refuses) s.(qs) = false /\ s.(jobs) = j :: js in
  match l with
  | AD1sched _ q => B.(t_desync) s.(qs) = (q, DASchedule) | AD1none _ q => B.(t_desync) s.(qs) = (q, DANone)
  | AUseDone _ u => u = UDetach \/ u = UDropAfter 0
  | APark _ | AROpark _ | AYpark _ _ _ => toks s !! a = Some true
  | AFS1none f | ADQtakeNone f | ADQtake2None f _ => (getf s f).(res) = FNone
  | AFS1ready f v => (getf s f).(res) = FSome v
  | ASFpollWait f q => (getf s f).(res) = FNone /\ T.(t_poll) f s.(qs) = (q, PAWait)
  | ASFpollDrain f q => (getf s f).(res) = FNone /\ T.(t_poll) f s.(qs) = (q, PADrain)
  | ASFpollReady f v c | ADQtakeReady f v c | ADQtake2Ready f _ v c => popped f v c
  | ADQdeqEmpty _ | AROdeqEmpty | ADRdeqEmpty => empty
  | ADQdeqJob _ j js | AROdeqJob j js | ADRdeqJob j js => nonempty j js
  | AWakeWithNow d _ st st' slot => getdw s d = (st, slot) /\ T.(t_dw_wake_with) st = (st', true)
  | AWakeWithLater d _ st st' slot => getdw s d = (st, slot) /\ T.(t_dw_wake_with) st = (st', false)
  | AS1imm _ _ q => B.(t_sync) s.(qs) (bool_decide (s.(jobs) = [])) = (q, SAImmediate)
  | AS1drain _ _ q => B.(t_sync) s.(qs) (bool_decide (s.(jobs) = [])) = (q, SADrain)
  | AS1bg _ _ q => B.(t_sync) s.(qs) (bool_decide (s.(jobs) = [])) = (q, SABackground)
  | AClosure _ tk | AJobSync _ _ tk _ _ => forall f, tk = Some f -> (getf s f).(res) = FNone
  | AClosureTake _ f v | AJobSyncTake _ _ f v _ _ => (getf s f).(res) = FSome v
  | ASDloopDone | ASBwaitDone => sress s !! a = Some true
  | ASDloopMore => sress s !! a = Some false
  | ASBwaitKick => sress s !! a = Some false /\ kicks s !! a = Some true
  | ASBpushIdle _ _ => s.(qs) = Idle | ASBpushBusy _ _ => s.(qs) <> Idle
  | ASBclaimOk q => B.(t_claim) s.(qs) = Some q | ASBclaimFail => B.(t_claim) s.(qs) = None
  | AROpendCheck _ q => T.(t_roj_pend) s.(qs) = Some q /\ is_wfu q = true
  | AROpendPoll _ q => T.(t_roj_pend) s.(qs) = Some q /\ is_wfu q = false
  | AROcheckBreak _ => T.(t_roj_park) s.(qs) = PKBreak | AROcheckPark _ => T.(t_roj_park) s.(qs) = PKPark
  | ARQ1push q => B.(t_resched) s.(qs) (negb (bool_decide (s.(jobs) = []))) = (q, true)
  | ARQ1none q => B.(t_resched) s.(qs) (negb (bool_decide (s.(jobs) = []))) = (q, false)
  | APIdleTake n q => s.(insched) = S n /\ B.(t_next) s.(qs) = Some q
  | APIdleSkip n => s.(insched) = S n /\ B.(t_next) s.(qs) = None
  | ADRpendPark => is_wfw (T.(t_drain_pend) s.(qs)) = true | ADRpendMore => is_wfw (T.(t_drain_pend) s.(qs)) = false
  | ADRfinDone q => B.(t_drain_fin) s.(qs) (bool_decide (s.(jobs) = [])) = (q, true)
  | ADRfinMore q => B.(t_drain_fin) s.(qs) (bool_decide (s.(jobs) = [])) = (q, false)
  | AJobAdv _ p _ _ _ => prim_ready s p
  | AJobAwait _ e _ _ _ | AJobDone _ e _ _ _ => (getev s e).(fired) = false
  | AJobEither _ e1 e2 _ _ _ | AYuserEither _ e1 e2 _ _ => (getev s e1).(fired) || (getev s e2).(fired) = false
  | AWQresched q => T.(t_wake_queue) s.(qs) = (q, true) | AWQquiet q => T.(t_wake_queue) s.(qs) = (q, false)
  | AWDrainNow d st st' slot => getdw s d = (st, slot) /\ T.(t_dw_wake) st = (st', true)
  | AWDrainLater d st st' slot => getdw s d = (st, slot) /\ T.(t_dw_wake) st = (st', false)
  | AWDoubleSome k w1 w2 => getdbl s k = Some (w1, w2) | AWDoubleNone k => getdbl s k = None
  | AYpendDrop _ _ u => upolls u = false
  | AYgoto pc pc' _ st _ => ygoto pc st = Some pc'
  | AYrecvReady y _ _ => (getev s y.(y_r)).(fired) = true | AYrecvPending y _ _ => (getev s y.(y_r)).(fired) = false
  | AYuserAdv _ p _ _ => uprim_ready s p
  | AYuserAwait _ e _ _ => (getev s e).(fired) = false
  | _ => True
  end.

Definition arm_qs (T : ftables) (s : state) (l : arm) : qstate :=
  match l with
  | AD1sched _ q | AD1none _ q | ASFpollWait _ q | ASFpollDrain _ q | AS1imm _ _ q | AS1drain _ _ q | AS1bg _ _ q | ASBclaimOk q
  | AROpendCheck _ q | AROpendPoll _ q | ARQ1push q | ARQ1none q | APIdleTake _ q | ADRfinDone q | ADRfinMore q
  | AWQresched q | AWQquiet q => q
  | ADQwfw _ _ => WaitingForWake | ADQwfp f _ => WaitingForPoll f
  | ADQempty2 _ | ADQidle _ | ASIidle | ASDidle => Idle
  | ADRpendPark | ADRpendMore => T.(t_drain_pend) s.(qs)
  | AWThread _ => T.(t_wake_thread) s.(qs)
  | _ => s.(qs)
  end.
Definition arm_jobs (s : state) (a : nat) (l : arm) : list job :=
  match l with
  | AD1sched j _ | AD1none j _ => s.(jobs) ++ [j]
  | ASDpush op tk | ASBpushIdle op tk | ASBpushBusy op tk => s.(jobs) ++ [JSync op a tk]
  | ADQdeqJob _ _ js | AROdeqJob _ js | ADRdeqJob _ js => js
  | ADQrequeue _ _ j | ADRrequeue j => j :: s.(jobs)
  | _ => s.(jobs)
  end.
Definition arm_insched (s : state) (l : arm) : nat :=
  match l with
  | AD2 | ARQ2 => S s.(insched) | APIdleTake n _ | APIdleSkip n => n | ASBclaimOk _ => 0
  | _ => s.(insched)
  end.
Definition addw (s : state) (e : nat) (w : waker) (keep : waker -> bool) : evcell :=
  getev s e <| wakers := w :: List.filter keep (getev s e).(wakers) |>.
Definition arm_evs (s : state) (a : nat) (l : arm) : list evcell :=
  let fire e := <[e := {| fired := true; wakers := [] |}]> s.(evs) in
  let reg e w := <[e := getev s e <| wakers := w :: (getev s e).(wakers) |>]> s.(evs) in
  let reg2 e1 e2 w := evs (let s1 := setev s e1 (getev s e1 <| wakers := w :: (getev s e1).(wakers) |>) in
                            setev s1 e2 (getev s1 e2 <| wakers := w :: (getev s1 e2).(wakers) |>)) in
  match l with
  | ATopFutSync _ _ _ => s.(evs) ++ [ev_new; ev_new]
  | AFire e | AJobSend _ e _ _ _ => fire e
  | AYfin y _ _ | AYdrop2 y _ _ => fire (S y.(y_r))
  | AJobAwait _ e _ w _ => reg e w | AYuserAwait _ e _ _ => reg e (WTask a)
  | AJobEither _ e1 e2 _ w _ => reg2 e1 e2 w | AYuserEither _ e1 e2 _ _ => reg2 e1 e2 (WTask a)
  | AJobDone _ e _ w _ => <[e := addw s e w is_anytask]> s.(evs)
  | AYrecvPending y _ _ => <[y.(y_r) := addw s y.(y_r) (WTask a) (fun w => negb (is_task a w))]> s.(evs)
  | AYdrop1Queue y _ _ =>
      <[y.(y_r) := getev s y.(y_r) <| wakers := List.filter (fun w => negb (is_task a w)) (getev s y.(y_r)).(wakers) |>]> s.(evs)
  | _ => s.(evs)
  end.
Definition arm_futs (s : state) (a : nat) (l : arm) : list fcell :=
  let take f := <[f := getf s f <| res := FReturned |>]> s.(futs) in
  let store f := <[f := getf s f <| fwaker := Some (WTask a) |>]> s.(futs) in
  match l with
  | ATopFuture _ _ _ | ATopFutSync _ _ _ => s.(futs) ++ [fc0] | ATopSuspend _ _ _ => s.(futs) ++ [fc0; fc0]
  | AFS1ready f _ | ASFpollReady f _ _ | ADQtakeReady f _ _ | ADQtake2Ready f _ _ _ | AClosureTake _ f _ | AJobSyncTake _ _ f _ _ _ => take f
  | ASFpollWait f _ | ADQstore f _ | ADQempty1 f => store f
  | AJobSignal op f _ _ _ => <[f := {| res := FSome op; fwaker := None |}]> s.(futs)
  | _ => s.(futs)
  end.
Definition arm_dws (s : state) (l : arm) : list (dwstate * option waker) :=
  match l with
  | ADQdeqJob _ _ _ => s.(dws) ++ [(DWNotWoken, None)]
  | AWakeWithNow d _ _ st' slot | AWDrainLater d _ st' slot => <[d := (st', slot)]> s.(dws)
  | AWakeWithLater d w _ st' _ => <[d := (st', Some w)]> s.(dws)
  | AWDrainNow d _ st' _ => <[d := (st', None)]> s.(dws)
  | _ => s.(dws)
  end.
Definition arm_dbl (s : state) (a : nat) (l : arm) : list (option (waker * waker)) :=
  match l with
  | ADQwfp _ _ => s.(dbl) ++ [Some (WQueue, WTask a)]
  | AWDoubleSome k _ _ => <[k := None]> s.(dbl)
  | _ => s.(dbl)
  end.
(* the ghost events the arm adds, newest first *)
Definition arm_log (s : state) (l : arm) : list gev :=
  match l with
  | ATopFutSync _ _ _ => [GYnew s.(nextop) (length s.(futs)) (length s.(evs))]
  | AD1sched j _ | AD1none j _ => [GPush (match j with JPlain o | JFut o _ _ | JSync o _ _ => o end)]
  | AFS1ready f v | ASFpollReady f v _ | ADQtakeReady f v _ | ADQtake2Ready f _ v _ => [GResolve f v]
  | AS1imm op _ _ | ASDpush op _ | ASBpushIdle op _ | ASBpushBusy op _ => [GPush op]
  | AClosure op _ | AJobPlain op _ _ | AJobSync op _ _ _ _ => [GFinish op; GStart op]
  | AClosureTake op f v | AJobSyncTake op _ f v _ _ => [GFinish op; GResolve f v; GStart op]
  | AJobCreate op _ _ _ => [GStart op] | AJobFinish op _ _ => [GFinish op]
  | AJobSignal op f _ _ _ => [GSig f op]
  | AYrecvReady y _ _ => [GUStart y.(y_op)] | AYuserFinish y _ => [GUFinish y.(y_op)] | AYuserAdv y _ _ _ => [GUStep y.(y_op)]
  | AYdrop1Future y _ _ => [GUCancel y.(y_op)] | AYdrop2 y _ _ => [GYdrop y.(y_op)]
  | _ => []
  end.
Definition arm_nextop (s : state) (l : arm) : nat :=
  match l with
  | ATopDesync _ | ATopFuture _ _ _ | ATopSuspend _ _ _ | ATopSync _ | ATopFutSync _ _ _ | AFS1none _ => S s.(nextop)
  | _ => s.(nextop)
  end.
Definition arm_toks (s : state) (a : nat) (l : arm) : list bool :=
  match l with
  | APark _ | AROpark _ | AYpark _ _ _ => <[a := false]> (toks s)
  | AUnpark c => <[c := true]> (toks s)
  | _ => toks s
  end.
Definition arm_sress (s : state) (a : nat) (l : arm) : list bool :=
  match l with
  | ASDpush _ _ | ASBpushIdle _ _ | ASBpushBusy _ _ => <[a := false]> (sress s)
  | AJobSync _ c _ _ _ | AJobSyncTake _ c _ _ _ _ => <[c := true]> (sress s)
  | _ => sress s
  end.
Definition arm_kicks (s : state) (a : nat) (l : arm) : list bool :=
  match l with
  | ASBreg _ _ => <[a := true]> (kicks s) | ASBwaitKick => <[a := false]> (kicks s)
  | ARQ1push _ | ARQ1none _ => (fun _ => true) <$> kicks s
  | _ => kicks s
  end.

Record arm_eff (T : ftables) (s : state) (a : nat) (l : arm) (s' : state) : Prop := {
  e_qs : s'.(qs) = arm_qs T s l;
  e_jobs : s'.(jobs) = arm_jobs s a l;
  e_insched : s'.(insched) = arm_insched s l;
  e_evs : s'.(evs) = arm_evs s a l;
  e_futs : s'.(futs) = arm_futs s a l;
  e_dws : s'.(dws) = arm_dws s l;
  e_dbl : s'.(dbl) = arm_dbl s a l;
  e_log : s'.(log) = arm_log s l ++ s.(log);
  e_nextop : s'.(nextop) = arm_nextop s l;
  e_toks : toks s' = arm_toks s a l;
  e_sress : sress s' = arm_sress s a l;
  e_kicks : kicks s' = arm_kicks s a l;
}.

Definition astep (T : ftables) (s : state) (a : nat) (l : arm) (rest : list frame) (s' : state) : Prop :=
  stacks s !! a = Some (arm_old l ++ rest) /\ stacks s' = <[a := arm_new s a l ++ rest]> (stacks s) /\
  arm_guard T s a rest l /\ arm_eff T s a l s'.


Section Arm.
  Context (T : ftables).

  Local Ltac obs := first [ reflexivity
    | rewrite ?toks_addlog, ?sress_addlog, ?kicks_addlog;
      rewrite ?toks_settoken, ?toks_setsres, ?toks_setkick, ?toks_kickall, ?sress_settoken, ?sress_setsres, ?sress_setkick, ?sress_kickall,
        ?kicks_settoken, ?kicks_setsres, ?kicks_setkick, ?kicks_kickall; reflexivity ].
  Local Ltac stk :=
    rewrite stacks_setstack;
    first [reflexivity | rewrite ?stacks_addlog; rewrite ?stacks_settoken, ?stacks_setsres, ?stacks_setkick, ?stacks_kickall; reflexivity].
  Local Ltac grd :=
    cbn; first [ done | eassumption | split; first [done | eassumption] | left; first [done | eassumption] | right; first [done | eassumption]
               | congruence | intros ? [= <-]; eassumption ].
  (* [take l]: the step took arm [l]; the frame parameters come from the stack, the table outcomes from the hypotheses *)
  Local Tactic Notation "take" open_constr(l) :=
    eexists l, _; split; [match goal with H : stacks _ !! _ = _ |- _ => exact H end|];
    (* the condition first: it is what tells the arms of one frame apart *)
    match goal with |- _ /\ ?g /\ _ => assert g by grd end;
    split; [first [stk | cbn [arm_new]; rewrite <- app_assoc; stk]|]; split; [assumption|];
    split; [reflexivity..|rewrite toks_setstack; obs|rewrite sress_setstack; obs|rewrite kicks_setstack; obs].

  Local Tactic Notation "pop" open_constr(l) :=
    first [take (l CNone) | take (l (CAw _)) | take (l (CDrop _ _)) | take (l (CY _ _ _))].

  Lemma step_arm s a s' : step T s a = Some s' -> exists l rest, astep T s a l rest s'.
  Proof.
    unfold astep. intros Hstep. step_split Hstep Ea Est; try discriminate Hstep; injection Hstep as <-.
    all: pose proof (stacks_lookup _ _ _ Ea) as Hst; rewrite Est in Hst.
    all: pose proof (toks_lookup _ _ _ Ea) as Htok; pose proof (sress_lookup _ _ _ Ea) as Hsr; pose proof (kicks_lookup _ _ _ Ea) as Hkk.
    all: clear Ea Est.
    all: try match goal with E : token _ = _ |- _ => rewrite E in Htok end.
    all: try match goal with E : sres _ = _ |- _ => rewrite E in Hsr end.
    all: try match goal with E : kicked _ = _ |- _ => rewrite E in Hkk end.
    all: pop_cont_split.
    all: lazymatch type of Hst with _ = Some (?fr :: _) =>
      lazymatch fr with
      | FTop (ODesync :: _) => take (ATopDesync _) | FTop (OFuture _ _ :: _) => take (ATopFuture _ _ _)
      | FTop (OSuspend _ _ :: _) => take (ATopSuspend _ _ _) | FTop (OSync :: _) => take (ATopSync _)
      | FTop (OFire _ :: _) => take (ATopFire _ _) | FTop (OFutSync _ _ :: _) => take (ATopFutSync _ _ _)
      | FD1 _ => first [take (AD1sched _ _) | take (AD1none _ _)] | FD2 => take AD2
      | FUse _ UAwait => take (AUseAwait _) | FUse _ USync => take (AUseSync _) | FUse _ (UDropAfter (S _)) => take (AUseDrop _ _)
      | FUse _ _ => take (AUseDone _ _)
      | FAwRet _ => take (AAwRet _) | FPark _ => take (APark _) | FDropRet _ _ => take (ADropRet _ _)
      | FFS1 _ => first [take (AFS1none _) | take (AFS1ready _ _)]
      | FFire _ => take (AFire _) | FUnpark _ => take (AUnpark _) | FDQlate _ => take (ADQlate _)
      | FSFpoll _ => first [take (ASFpollWait _ _) | take (ASFpollDrain _ _) | pop (ASFpollReady _ _)]
      | FDQtake _ => first [take (ADQtakeNone _) | pop (ADQtakeReady _ _)]
      | FDQdeq _ => first [take (ADQdeqEmpty _) | take (ADQdeqJob _ _ _)]
      | FDQrequeue _ _ _ => take (ADQrequeue _ _ _)
      | FDQtake2 _ _ => first [take (ADQtake2None _ _) | pop (ADQtake2Ready _ _ _)]
      | FDQwfw _ _ => take (ADQwfw _ _) | FDQstore _ _ => take (ADQstore _ _) | FDQwfp _ _ => take (ADQwfp _ _)
      | FDQempty1 _ => take (ADQempty1 _) | FDQempty2 _ => take (ADQempty2 _) | FDQidle _ => take (ADQidle _)
      | FWakeWith _ _ => first [take (AWakeWithNow _ _ _ _ _) | take (AWakeWithLater _ _ _ _ _)]
      | FS1 _ _ => first [take (AS1imm _ _ _) | take (AS1drain _ _ _) | take (AS1bg _ _ _)]
      | FClosure _ _ => first [take (AClosure _ _) | take (AClosureTake _ _ _)] | FSIidle => take ASIidle
      | FSDpush _ _ => take (ASDpush _ _) | FSDloop => first [take ASDloopDone | take ASDloopMore] | FSDidle => take ASDidle
      | FSBreg _ _ => take (ASBreg _ _) | FSBpush _ _ => first [take (ASBpushIdle _ _) | take (ASBpushBusy _ _)]
      | FSBwait => first [take ASBwaitDone | take ASBwaitKick] | FSBdone => take ASBdone
      | FSBclaim => first [take (ASBclaimOk _) | take ASBclaimFail]
      | FROdeq => first [take AROdeqEmpty | take (AROdeqJob _ _)]
      | FROpend _ => first [take (AROpendCheck _ _) | take (AROpendPoll _ _)]
      | FROcheck _ => first [take (AROcheckBreak _) | take (AROcheckPark _)] | FROpark _ => take (AROpark _)
      | FRQ1 => first [take (ARQ1push _) | take (ARQ1none _)] | FRQ2 => take ARQ2
      | FPIdle => first [take (APIdleTake _ _) | take (APIdleSkip _)]
      | FDRdeq => first [take ADRdeqEmpty | take (ADRdeqJob _ _)] | FDRrequeue _ => take (ADRrequeue _)
      | FDRpend => first [take ADRpendPark | take ADRpendMore] | FDRfin => first [take (ADRfinDone _) | take (ADRfinMore _)]
      | FJob (JPlain _) _ _ => take (AJobPlain _ _ _) | FJob (JFut _ NotCreated _) _ _ => take (AJobCreate _ _ _ _)
      | FJob (JFut _ Waiting []) _ _ => take (AJobFinish _ _ _)
      | FJob (JFut _ Waiting (PSignal _ :: _)) _ _ => take (AJobSignal _ _ _ _ _)
      | FJob (JFut _ Waiting (PSendReady _ :: _)) _ _ => take (AJobSend _ _ _ _ _)
      | FJob (JFut _ Waiting (PAwait _ :: _)) _ _ => first [take (AJobAdv _ _ _ _ _) | take (AJobAwait _ _ _ _ _)]
      | FJob (JFut _ Waiting (PAwaitEither _ _ :: _)) _ _ => first [take (AJobAdv _ _ _ _ _) | take (AJobEither _ _ _ _ _ _)]
      | FJob (JFut _ Waiting (PAwaitDone _ :: _)) _ _ => first [take (AJobAdv _ _ _ _ _) | take (AJobDone _ _ _ _ _)]
      | FJob (JFut _ Waiting (PTouch :: _)) _ _ => take (AJobAdv _ _ _ _ _)
      | FJob (JSync _ _ _) _ _ => first [take (AJobSync _ _ _ _ _) | take (AJobSyncTake _ _ _ _ _ _)]
      | FWake WQueue => first [take (AWQresched _) | take (AWQquiet _)] | FWake (WThread _) => take (AWThread _)
      | FWake (WTask _) => take (AWTask _)
      | FWake (WDrain _) => first [take (AWDrainNow _ _ _ _) | take (AWDrainLater _ _ _ _)]
      | FWake (WDouble _) => first [take (AWDoubleSome _ _ _) | take (AWDoubleNone _)]
      | FY YPuse _ _ _ => take (AYuse _ _ _)
      | FY YPpend _ _ UAwait => take (AYpendPark _ _) | FY YPpend _ _ (UDropAfter (S _)) => take (AYpendAgain _ _ _)
      | FY YPpend _ _ _ => take (AYpendDrop _ _ _)
      | FY YPpark _ _ _ => take (AYpark _ _ _)
      | FY YPloop _ (YQueue _) _ => take (AYpoll _ _ _)
      | FY YPrecv _ (YQueue _) _ => first [take (AYrecvReady _ _ _) | take (AYrecvPending _ _ _)]
      | FY YPuser _ (YFuture []) _ => take (AYuserFinish _ _)
      | FY YPuser _ (YFuture (PAwait _ :: _)) _ => first [take (AYuserAdv _ _ _ _) | take (AYuserAwait _ _ _ _)]
      | FY YPuser _ (YFuture (PAwaitEither _ _ :: _)) _ => first [take (AYuserAdv _ _ _ _) | take (AYuserEither _ _ _ _ _)]
      | FY YPuser _ (YFuture (_ :: _)) _ => take (AYuserAdv _ _ _ _)
      | FY YPfin _ _ _ => take (AYfin _ _ _)
      | FY YPdrop1 _ (YQueue _) _ => take (AYdrop1Queue _ _ _) | FY YPdrop1 _ (YFuture _) _ => take (AYdrop1Future _ _ _)
      | FY YPdrop2 _ _ _ => take (AYdrop2 _ _ _)
      | FY _ _ _ _ => take (AYgoto _ _ _ _ _)
      end end.
  Qed.
End Arm.

Lemma np_arm P s s' a l r :
  stacks s !! a = Some (arm_old l ++ r) -> stacks s' = <[a := arm_new s a l ++ r]> (stacks s) ->
  np P s' + cntf P (arm_old l) = np P s + cntf P (arm_new s a l).
Proof. intros Ha Hs. pose proof (npl_insert P _ a _ (arm_new s a l ++ r) Ha) as H. unfold np. rewrite Hs. rewrite !cntf_app in H. lia. Qed.

Definition allstk (P : list frame -> Prop) (s : state) : Prop := forall c st, stacks s !! c = Some st -> P st.
Lemma allstk_update (P : list frame -> Prop) s s' a old new :
  allstk P s -> stacks s !! a = Some old -> stacks s' = <[a := new]> (stacks s) -> (P old -> P new) -> allstk P s'.
Proof. intros HI Ha Hs Hn. exact (stacks_update (fun _ _ => P) s s' a old new Ha Hs (Hn (HI a old Ha)) (fun _ _ _ _ H => H) HI). Qed.
Lemma allstk_step T (P : list frame -> Prop) s a s' :
  (forall l r, arm_guard T s a r l -> P (arm_old l ++ r) -> P (arm_new s a l ++ r)) -> allstk P s -> step T s a = Some s' -> allstk P s'.
Proof. intros HP HI (l & rest & Hst & Hs' & Hg & _)%step_arm. eapply allstk_update; [done..|]. by apply HP. Qed.
Lemma allstk_init (P : list frame -> Prop) scripts npool nev : P [FPIdle] -> (forall sc, P [FTop sc]) -> allstk P (init scripts npool nev).
Proof. intros H1 H2 c st [->|[sc ->]]%init_stacks; [done|apply H2]. Qed.
