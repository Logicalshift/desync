(* C07: the awaiting task is always woken.  A task whose poll returned Pending has its waker stored in the future's cell while the
   result is still missing, or a wake-up for it is latched / in flight. *)
From stdpp Require Import list numbers option.
From RecordUpdate Require Import RecordUpdate.
From L2 Require Import Model Base Own Jobs Shape DwInv Fut Wake.
#[global] Unset Lia Cache.

#[export] Instance fres_eq_dec : EqDecision fres. Proof. solve_decision. Defined.
Definition is_psig (f : nat) (p : fprim) : bool := match p with PSignal f' => bool_decide (f' = f) | _ => false end.
Definition sgj (f : nat) (j : job) : bool := match j with JFut _ _ sc => existsb (is_psig f) sc | _ => false end.
Definition sgf (f : nat) (fr : frame) : bool :=
  match fr with FJob j _ _ | FDRrequeue j | FDQrequeue _ _ j | FROpend j | FROcheck j | FROpark j | FD1 j => sgj f j | _ => false end.
Fixpoint cnts (f : nat) (l : list job) : nat := match l with [] => 0 | j :: r => (if sgj f j then 1 else 0) + cnts f r end.
Definition nsig (f : nat) (s : state) : nat := np (sgf f) s + cnts f s.(jobs).

Definition tw (s : state) (c f : nat) : bool :=
  tokb s c || posb (np (is_unpark c) s) || posb (np (is_wake (WTask c)) s)
  || (bool_decide ((getf s f).(res) = FNone) && bool_decide ((getf s f).(fwaker) = Some (WTask c))).
(* poll frames above an await continuation while the outcome of the poll is still open (the waker is stored at FDQstore -> FDQwfp
   and FDQempty1 -> FDQempty2, and by the Wait arm of poll itself) *)
Definition pollprog (fr : frame) : option nat :=
  match fr with
  | FSFpoll f | FDQtake f | FDQdeq f | FDQrequeue f _ _ | FDQtake2 f _ | FDQstore f _ | FDQempty1 f | FJob _ _ (KDq f _) => Some f
  | _ => None
  end.
Definition inprog_for (prev : option frame) (f : nat) : bool :=
  match prev with Some x => match pollprog x with Some f' => bool_decide (f' = f) | None => false end | None => false end.
(* the first await frame of a stack (from the top) carries the task-wake obligation, unless a poll of that future is in progress *)
Fixpoint twf (s : state) (c : nat) (prev : option frame) (st : list frame) : bool :=
  match st with
  | [] => true
  | y :: r => match y with
              | FAwRet f => inprog_for prev f || tw s c f
              | FPark f => tw s c f
              | _ => twf s c (Some y) r
              end
  end.
(* a caller blocked in sync_background still has its job in the queue (or in a runner's hand) unless it has been run *)
Definition sbj (c : nat) (j : job) : bool := match j with JSync _ c' _ => bool_decide (c' = c) | _ => false end.
Definition sbf (c : nat) (fr : frame) : bool :=
  match fr with FJob j _ _ | FDRrequeue j | FDQrequeue _ _ j | FROpend j | FROcheck j | FROpark j | FD1 j => sbj c j | _ => false end.
Fixpoint cntb (c : nat) (l : list job) : nat := match l with [] => 0 | j :: r => (if sbj c j then 1 else 0) + cntb c r end.
Definition nsb (c : nat) (s : state) : nat := np (sbf c) s + cntb c s.(jobs).
Definition is_sbwait (fr : frame) : bool := match fr with FSBwait | FSBclaim => true | _ => false end.
Definition sresb (s : state) (c : nat) : bool := default false (sress s !! c).
Definition sb_ok (s : state) (c : nat) (st : list frame) : bool :=
  negb (posb (cntf is_sbwait st)) || sresb s c || posb (nsb c s).
(* frames of drain_queue at which the result is known to be missing *)
Definition rn_ok (s : state) (fr : frame) : bool :=
  match fr with FDQdeq f | FDQstore f _ | FDQempty1 f => bool_decide ((getf s f).(res) = FNone) | _ => true end.

Record Inv_task (s : state) : Prop := {
  it_tw : forall c st, stacks s !! c = Some st -> twf s c None st = true;
  it_sb : forall c st, stacks s !! c = Some st -> sb_ok s c st = true;
  it_rn : forall c st fr, stacks s !! c = Some st -> fr ∈ st -> rn_ok s fr = true;
  it_sig : forall f, f < length s.(futs) -> (getf s f).(res) = FNone -> nsig f s >= 1;
}.
Definition task_ok (s : state) : bool :=
  forallb (fun '(c, st) => twf s c None st && sb_ok s c st && forallb (rn_ok s) st) (imap (fun c st => (c, st)) (stacks s))
  && forallb (fun f => match (getf s f).(res) with FNone => posb (nsig f s) | _ => true end) (seq 0 (length s.(futs))).

Lemma getf_setf_eq s f c : f < length s.(futs) -> getf (setf s f c) f = c.
Proof. intros H. unfold getf, setf; cbn. by rewrite list_lookup_insert. Qed.

(* poll: when the result is missing and the queue is run by somebody else, the task's waker is stored in the SAME critical section
   in which the result was found missing, and the poll returns Pending (the await continuation becomes the top frame) *)
Lemma poll_wait_stores_waker T s a ac f rest st' :
  s.(actors) !! a = Some ac -> ac.(stack) = FSFpoll f :: rest -> f < length s.(futs) ->
  (getf s f).(res) = FNone -> T.(t_poll) f s.(qs) = (st', PAWait) ->
  exists s', step T s a = Some s' /\ stacks s' = <[a := rest]> (stacks s) /\
             (getf s' f).(res) = FNone /\ (getf s' f).(fwaker) = Some (WTask a).
Proof.
  intros Ea Est Hf Hr Hp. unfold step. rewrite Ea. cbn. rewrite Est. cbn. unfold take_f, take_res. rewrite Hr, Hp. cbn.
  eexists. split; [done|]. split; [solve_stacks|].
  assert (getf (setstack (setf (s <| qs := st' |>) f (getf (s <| qs := st' |>) f <| fwaker := Some (WTask a) |>)) a rest) f
          = getf (s <| qs := st' |>) f <| fwaker := Some (WTask a) |>) as ->.
  { transitivity (getf (setf (s <| qs := st' |>) f (getf (s <| qs := st' |>) f <| fwaker := Some (WTask a) |>)) f); [done|].
    by apply getf_setf_eq. }
  cbn. split; [exact Hr|done].
Qed.

(* signal: result := Some (own value), the stored waker is taken and called on this thread, in that order *)
Lemma signal_calls_stored_waker T s a ac op f l w k rest :
  s.(actors) !! a = Some ac -> ac.(stack) = FJob (JFut op Waiting (PSignal f :: l)) w k :: rest -> f < length s.(futs) ->
  exists s', step T s a = Some s' /\ (getf s' f).(res) = FSome op /\ (getf s' f).(fwaker) = None /\
             stacks s' = <[a := opt_wake (getf s f).(fwaker) ++ FJob (JFut op Waiting l) w k :: rest]> (stacks s) /\
             s'.(log) = GSig f op :: s.(log).
Proof.
  intros Ea Est Hf. unfold step. rewrite Ea. cbn. rewrite Est. cbn.
  eexists. split; [done|].
  assert (forall x, getf (setstack (addlog (setf s f {| res := FSome op; fwaker := None |}) [GSig f op]) a x) f
          = {| res := FSome op; fwaker := None |}) as ->.
  { intros x. transitivity (getf (setf s f {| res := FSome op; fwaker := None |}) f); [done|]. by apply getf_setf_eq. }
  split; [done|]. split; [done|]. split; [solve_stacks|done].
Qed.
