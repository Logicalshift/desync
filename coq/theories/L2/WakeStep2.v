(* C06: the wake invariant across the calls of WakeQueue, WakeThread and the task waker *)
From stdpp Require Import list numbers option.
From RecordUpdate Require Import RecordUpdate.
From L2 Require Import Model Base Arm Own Jobs Shape DwInv Wake WakeInv WakeLem.
#[global] Unset Lia Cache.

Section Steps.
  Context (T : ftables) (HT : own_cond T) (HC : jobs_cond T) (HW : wake_cond T).

  (* WakeQueue.wake, the core section *)
  Lemma ws_wake_queue s s' a q (cont : bool) r : Inv_own s -> Inv_wake s ->
    stacks s !! a = Some ([FWake WQueue] ++ r) -> stacks s' = <[a := (if cont then [FRQ1] else []) ++ r]> (stacks s) ->
    T.(t_wake_queue) s.(qs) = (q, cont) ->
    s'.(qs) = q -> s'.(jobs) = s.(jobs) -> s'.(insched) = s.(insched) -> s'.(evs) = s.(evs) -> s'.(dws) = s.(dws) -> s'.(dbl) = s.(dbl) ->
    toks s' = toks s -> Inv_wake s'.
  Proof.
    intros HO [IF IQ] Hst Hs E Eq Ej Ei Eev Edw Edb Etk. set (pre := if cont then [FRQ1] else []) in *.
    assert (Hnf : forall fr, fr ∈ pre -> frame_ok s' a fr = true).
    { subst pre. destruct cont; [by intros fr ->%elem_of_list_singleton|by intros ? ?%elem_of_nil]. }
    assert (Hnw : forall w, w <> WQueue -> np (is_wake w) s' = np (is_wake w) s).
    { intros w Hw. eapply np_same; [exact Hst|exact Hs|]. subst pre. destruct cont; cbn; by rewrite bool_decide_false. }
    assert (Hnu : forall c, np (is_unpark c) s' = np (is_unpark c) s).
    { intros c. eapply np_same; [exact Hst|exact Hs|]. subst pre. by destruct cont. }
    destruct (owned (qs s)) eqn:Ho.
    - (* somebody runs the queue: the wake is latched *)
      pose proof (oc_wq _ HT _ _ _ E) as (Hk1 & Hk2 & _). rewrite Ho in Hk1.
      split; [|apply queue_ok_owned; by rewrite Eq].
      eapply (frames_other_arm s s' a _ _ r HO IF Hst Hs Hnf). intros _.
      assert (Hrun : running (qs s) = true -> q = AwokenWhileRunning).
      { intros Hr. pose proof (wc_wq_running _ HW _ Hr) as H. by rewrite E in H. }
      split.
      + by rewrite (hsusp_jobs _ _ Ej).
      + unfold awoken. intros Ha. rewrite Eq, Hrun; [done|by destruct (qs s)].
      + intros e Hr _. right. unfold awoken. by rewrite Eq, (Hrun Hr).
      + intros c e Hg. left. unfold gt in *. by rewrite (unfreg_evs s s'), Hnw.
      + rewrite Eq. intros Hw. destruct q; try done. by rewrite Hk2.
      + intros c _ _. unfold unp. by rewrite Hnu, (tokb_toks s s').
      + intros e d _. apply gd_np; [done|done|]. by rewrite Hnw.
    - (* nobody runs it *)
      split; [eapply (frames_other_arm s s' a _ _ r HO IF Hst Hs Hnf); congruence|].
      pose proof (np_upd is_rq1 s s' a _ _ Hst Hs) as Hr. pose proof (np_upd is_push s s' a _ _ Hst Hs) as Hp.
      rewrite !cntf_app in Hr, Hp. cbn [cntf is_rq1 is_push] in Hr, Hp.
      unfold queue_ok in *. rewrite Eq, Ej, Ei, (hsusp_jobs _ _ Ej).
      destruct (qs s) eqn:Eqs; try done.
      + rewrite (wc_wq_idle _ HW) in E. injection E as <- <-. destruct (jobs s); [done|].
        subst pre. cbn [cntf is_rq1] in Hr. destruct (np is_rq1 s'); [lia|done].
      + pose proof (wc_wq_pending _ HW) as H. rewrite E in H. cbn in H. rewrite H.
        assert (cntf is_push pre = 0) by (subst pre; by destruct cont). eapply posb_mono; [|exact IQ]. lia.
      + rewrite (wc_wq_wfw _ HW) in E. injection E as <- <-. destruct (jobs s); [done|].
        subst pre. cbn [cntf is_rq1] in Hr. destruct (np is_rq1 s'); [lia|done].
      + rewrite (wc_wq_wfp _ HW) in E. injection E as <- <-. destruct (hsusp s); [|done].
        subst pre. cbn [cntf is_rq1] in Hr. destruct (np is_rq1 s'); [lia|]. by rewrite orb_true_r.
      + by destruct (io_nopanic _ HO).
  Qed.

  (* the task waker: only an unpark follows *)
  Lemma ws_wake_task s s' a c0 r : astep T s a (AWTask c0) r s' -> Inv_own s -> Inv_wake s -> Inv_wake s'.
  Proof.
    intros A HO HI. astep_open A.
    eapply (wake_mono s s' a _ _ r HO HI Hst Hs); try done; [by intros fr ->%elem_of_list_singleton| | | |].
    - intros _. apply tview_grow; try done; intros ?; intros; (eapply np_mono; [exact Hst|exact Hs|]); [by destruct w|cnt_le].
    - intros e. eapply (cover_keep s s' a _ r [FUnpark c0]); try done.
      + intros d _. apply gd_np; [done|done|]. eapply np_mono; [exact Hst|exact Hs|cnt_le].
      + by intros w [= <-].
    - eapply np_mono; [exact Hst|exact Hs|cnt_le].
    - rewrite Ei. assert (np is_push s <= np is_push s'); [eapply np_mono; [exact Hst|exact Hs|cnt_le]|lia].
  Qed.

  (* WakeThread.wake, the core section; the unpark follows *)
  Lemma ws_wake_thread s s' a c0 r : astep T s a (AWThread c0) r s' -> Inv_own s -> Inv_wake s -> Inv_wake s'.
  Proof.
    intros A HO [IF IQ]. astep_open A. set (q := t_wake_thread T (qs s)) in *.
    assert (Hnf : forall fr, fr ∈ [FUnpark c0] -> frame_ok s' a fr = true) by (by intros fr ->%elem_of_list_singleton).
    assert (Hnw : forall w, w <> WThread c0 -> np (is_wake w) s' = np (is_wake w) s).
    { intros w Hw. eapply np_same; [exact Hst|exact Hs|]. cbn. by rewrite bool_decide_false by congruence. }
    assert (Hnu : forall c, np (is_unpark c) s <= np (is_unpark c) s') by (intros c; eapply np_mono; [exact Hst|exact Hs|cnt_le]).
    assert (Hnu0 : posb (np (is_unpark c0) s') = true).
    { apply posb_true, np_pos_fsat. exists a, (FUnpark c0). split; [eapply fsat_new; [exact Hst|exact Hs|left]|]. cbn. by apply bool_decide_eq_true. }
    assert (Htk : forall c, tokb s' c = tokb s c) by (intros c; by rewrite (tokb_toks s s')).
    destruct (owned (qs s)) eqn:Ho.
    - pose proof (oc_wt _ HT (qs s)) as (Hk1 & _). fold q in Hk1. rewrite Ho in Hk1.
      split; [|apply queue_ok_owned; by rewrite Eq].
      eapply (frames_other_arm s s' a _ _ r HO IF Hst Hs Hnf). intros _.
      assert (Hrun : running (qs s) = true -> q = AwokenWhileRunning) by (intros Hr; by apply (wc_wt_running _ HW)).
      assert (Hwfu : is_wfu (qs s) = true -> q = Running).
      { intros Hw. subst q. destruct (qs s); try done. by apply (wc_wt_wfu _ HW). }
      assert (Hnq : is_wfu q = false).
      { destruct (is_wfu (qs s)) eqn:Ew; [by rewrite Hwfu|]. rewrite Hrun; [done|]. by destruct (qs s). }
      split.
      + by rewrite (hsusp_jobs _ _ Ej).
      + unfold awoken. intros Ha. rewrite Eq, Hrun; [done|by destruct (qs s)].
      + intros e Hr _. right. unfold awoken. by rewrite Eq, (Hrun Hr).
      + intros c e Hgt. destruct (decide (c = c0)) as [->|Hne].
        * right. rewrite Eq. split; [done|]. split; [done|].
          destruct (is_wfu (qs s)) eqn:Ew; [by left|right]. unfold awoken. rewrite Eq, Hrun; [done|by destruct (qs s)].
        * left. unfold gt in *. rewrite (unfreg_evs s s') by done. rewrite Hnw by congruence. done.
      + by rewrite Eq, Hnq.
      + intros c _ _. apply unp_mono; [by rewrite Htk|done].
      + intros e d _. apply gd_np; [done|done|]. by rewrite Hnw.
    - split; [eapply (frames_other_arm s s' a _ _ r HO IF Hst Hs Hnf); congruence|].
      assert (Hc : forall e, cover s e = true -> cover s' e = true).
      { intros e. eapply (cover_keep s s' a _ r [FUnpark c0]); try done.
        - intros d _. apply gd_np; [done|done|]. by rewrite Hnw.
        - by intros w [= <-]. }
      assert (Hr : np is_rq1 s' = np is_rq1 s) by (by eapply np_same; [exact Hst|exact Hs|]).
      assert (Hp : np is_push s' = np is_push s) by (by eapply np_same; [exact Hst|exact Hs|]).
      unfold queue_ok in *. rewrite Eq, Ej, Ei, (hsusp_jobs _ _ Ej), Hr, Hp. subst q.
      destruct (qs s) eqn:Eqs; try done.
      + rewrite (wc_wt_other _ HW) by (by left). destruct (jobs s); [done|]. rewrite orb_true_iff in *.
        destruct IQ as [H|H]; [by left|right]. destruct (hsusp s); [by apply Hc|done].
      + rewrite (wc_wt_other _ HW) by (right; by left). done.
      + destruct (hsusp s) as [e|]; [|done]. destruct (wc_wt_wfw _ HW) as [->| ->]; [|by apply Hc].
        destruct (jobs s); [done|]. rewrite (Hc e IQ). by rewrite orb_true_r.
      + rewrite (wc_wt_other _ HW) by (right; right; by eexists). destruct (hsusp s) as [e|]; [|done].
        rewrite !orb_true_iff in *. destruct IQ as [[[H|H]|H]|H]; [left; left; left; by apply Hc|by left; left; right|by left; right|by right].
      + by destruct (io_nopanic _ HO).
  Qed.
End Steps.
