(* Zero pool: Zero.tcover is the wake-up chain (CoverStep.v) towards the task waker of actor 0, the second half of the
   DoubleWaker that drain_queue builds *)
From stdpp Require Import list numbers option.
From RecordUpdate Require Import RecordUpdate.
From L2 Require Import Model Base Own Jobs Shape DwInv Wake WakeInv WakeLem CoverStep Zero.
#[global] Unset Lia Cache.

Lemma efftw_g s w : efftw s w = effwg true (WTask 0) s w.
Proof.
  destruct w as [| | |[|c]|k]; try done. cbn. unfold dbl_t, dblg.
  destruct (getdbl s k) as [[w1 [| | |[|c]|]]|]; done.
Qed.
Lemma efft_g s w : efft s w = effg true (WTask 0) s w.
Proof. destruct w; try apply efftw_g. cbn. destruct (getdw s d) as [[] [w|]]; try done. apply efftw_g. Qed.
Lemma tcover_g s e : tcover s e = coverg true (WTask 0) s e.
Proof.
  unfold tcover, coverg. f_equal; [f_equal; apply existsb_ext, efft_g|].
  apply exf_ext. intros []; try done; cbn [tfr cfrg]; by rewrite ?efft_g, ?efftw_g.
Qed.
