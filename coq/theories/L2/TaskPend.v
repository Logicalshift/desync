(* How a step changes the stacks and the park tokens, and the notion the task-wake invariants turn on: a wake-up of task c is
   pending (its park token is set, or an unpark of c or a call of its task waker is a frame of some stack).  Only c itself uses
   a pending wake-up up, by returning from a park. *)
From stdpp Require Import list numbers option.
From RecordUpdate Require Import RecordUpdate.
From L2 Require Import Model Base Arm Own Wake WakeInv WakeLem.
#[global] Unset Lia Cache.

Lemma Forall_wake_frames (R : frame -> Prop) ws : (forall w, R (FWake w)) -> Forall R (wake_frames ws).
Proof. intros H. apply Forall_fmap, Forall_forall. intros w _. apply H. Qed.
Lemma Forall_opt_wake (R : frame -> Prop) ow : (forall w, R (FWake w)) -> Forall R (opt_wake ow).
Proof. intros H. destruct ow; cbn; [by apply Forall_singleton|done]. Qed.
(* [forall fr, fr ∈ new -> fr ∈ old \/ Q fr]: the tail of [new] is part of [old]; Q is left to show of the pushed frames that do
   not have it outright *)
Ltac new_frames :=
  refine (proj1 (stdpp.list.Forall_forall _ _) _);
  repeat first [ apply Forall_cons_2; [right; try done|]
               | apply Forall_app_2; [first [apply Forall_wake_frames|apply Forall_opt_wake]; by right|] ];
  [ idtac .. | refine (proj2 (stdpp.list.Forall_forall _ _) _); intros ? ?; left; solve [repeat first [eassumption | apply elem_of_list_further]] ].


Definition contfr (fr : frame) : bool := match fr with FAwRet _ | FDropRet _ _ | FY YPsfret _ _ _ => true | _ => false end.
(* the frames of thread::park / of a task that has returned Pending: left only with the token *)
Definition parks (fr : frame) : bool := match fr with FPark _ | FROpark _ | FY YPpark _ _ _ => true | _ => false end.
Definition toks_step (a : nat) (fr : frame) (tk : list bool) : list bool :=
  match fr with FUnpark c => <[c := true]> tk | _ => if parks fr then <[a := false]> tk else tk end.

Section Effect.
  Context (T : ftables).
  (* The top frame of a's stack is replaced by new frames; what was below is kept, except that a poll which ends with Ready takes
     its continuation frame with it.  Tokens: an unpark sets one, a return from park clears the actor's own. *)
  Lemma step_stack s a s' : step T s a = Some s' ->
    exists fr rest new kept, stacks s !! a = Some (fr :: rest) /\ stacks s' = <[a := new]> (stacks s) /\
      suffix kept new /\ (kept = rest \/ exists x, rest = x :: kept /\ contfr x = true) /\
      toks s' = toks_step a fr (toks s).
  Proof.
    intros (l & r & Hst & Hs & Hg & He)%step_arm. pose proof (e_toks _ _ _ _ _ He) as Ht.
    destruct l; try destruct c; eexists _, _, _, r.
    all: split; [exact Hst|]; split; [exact Hs|]; split; [by apply suffix_app_r|]; split; [first [by left|right; by eexists]|].
    all: first [exact Ht | destruct pc, st; first [discriminate Hg | exact Ht]].
  Qed.

  Lemma step_np_le P s a s' fr rest : step T s a = Some s' -> stacks s !! a = Some (fr :: rest) ->
    P fr = false -> (forall x, contfr x = true -> P x = false) -> np P s <= np P s'.
  Proof.
    intros Hstep Hst Hfr Hc. destruct (step_stack _ _ _ Hstep) as (fr' & rest' & new & kept & Hst' & Hs & [pre ->] & Hk & _).
    rewrite Hst in Hst'. injection Hst' as <- <-. eapply np_mono; [exact Hst|exact Hs|]. cbn. rewrite Hfr, cntf_app.
    destruct Hk as [->|(x & -> & Hx)]; [lia|]. cbn. rewrite (Hc x Hx). lia.
  Qed.
  (* the task waker: Waker::wake = unpark *)
  Lemma step_wake_task s a c rest : stacks s !! a = Some (FWake (WTask c) :: rest) ->
    step T s a = Some (setstack s a (FUnpark c :: rest)).
  Proof.
    unfold stacks, step. rewrite list_lookup_fmap. destruct (actors s !! a) as [ac|]; [|done]. cbn. by intros [= ->].
  Qed.
End Effect.

Definition tpend (s : state) (c : nat) : bool :=
  tokb s c || posb (np (is_unpark c) s) || posb (np (is_wake (WTask c)) s).
Lemma tpend_true s c : tpend s c = true <-> tokb s c = true \/ np (is_unpark c) s > 0 \/ np (is_wake (WTask c)) s > 0.
Proof. unfold tpend. rewrite !orb_true_iff, !posb_true. tauto. Qed.
Lemma tpend_wake s a c : fsat s a (FWake (WTask c)) -> tpend s c = true.
Proof. intros H. unfold tpend. by rewrite (np_pos_wake s a), orb_true_r. Qed.
Lemma tpend_quiet s c : np (is_unpark c) s = 0 -> np (is_wake (WTask c)) s = 0 -> tpend s c = tokb s c.
Proof. unfold tpend. intros -> ->. by rewrite !orb_false_r. Qed.

Lemma tokb_unparked s s' a c : c < length (stacks s) -> toks s' = toks_step a (FUnpark c) (toks s) -> tokb s' c = true.
Proof.
  intros Hlt Ht. unfold tokb. rewrite Ht. cbn. rewrite list_lookup_insert; [done|].
  unfold toks. rewrite fmap_length. unfold stacks in Hlt. by rewrite fmap_length in Hlt.
Qed.
Lemma tokb_kept s s' a fr c : toks s' = toks_step a fr (toks s) -> (a = c -> parks fr = false) -> tokb s c = true -> tokb s' c = true.
Proof.
  intros Ht Hp. unfold tokb. rewrite Ht. unfold toks_step.
  assert (Hins : forall i b, (c = i -> b = true) -> default false (toks s !! c) = true -> default false (<[i := b]> (toks s) !! c) = true).
  { intros i b Hb. destruct (decide (c = i)) as [->|Hne]; [|by rewrite list_lookup_insert_ne].
    destruct (toks s !! i) eqn:E; [|done]. intros _. rewrite list_lookup_insert by (by eapply lookup_lt_Some). by apply Hb. }
  destruct (parks fr) eqn:Hpk; [|destruct fr; try done; by apply Hins].
  destruct fr; try done; apply Hins; intros ->; discriminate (Hp eq_refl).
Qed.

Section Pend.
  Context (T : ftables).
  Lemma step_tpend s a s' c fr rest : step T s a = Some s' -> stacks s !! a = Some (fr :: rest) -> c < length (stacks s) ->
    tpend s c = true -> tpend s' c = true \/ (a = c /\ parks fr = true).
  Proof.
    intros Hstep Hst Hlt Hp.
    destruct (step_stack _ _ _ _ Hstep) as (fr' & rest' & new & kept & Hst' & Hs & _ & _ & Ht).
    rewrite Hst in Hst'. injection Hst' as <- <-.
    destruct (decide (fr = FUnpark c)) as [->|Hnu].
    { left. apply tpend_true. left. by eapply tokb_unparked. }
    destruct (decide (fr = FWake (WTask c))) as [->|Hnw].
    { left. apply tpend_true. right; left. rewrite (step_wake_task _ _ _ _ _ Hst) in Hstep. injection Hstep as <-.
      apply np_pos_fsat. exists a, (FUnpark c). split; [|cbn; by apply bool_decide_eq_true].
      eapply fsat_new; [exact Hst|solve_stacks|left]. }
    assert (Hu : np (is_unpark c) s <= np (is_unpark c) s').
    { eapply step_np_le; [exact Hstep|exact Hst| |by intros []]. destruct fr; try done. cbn. apply bool_decide_eq_false. congruence. }
    assert (Hw : np (is_wake (WTask c)) s <= np (is_wake (WTask c)) s').
    { eapply step_np_le; [exact Hstep|exact Hst| |by intros []]. destruct fr; try done. cbn. apply bool_decide_eq_false. congruence. }
    destruct (decide (a = c /\ parks fr = true)) as [|Hnp]; [by right|left].
    apply tpend_true in Hp. apply tpend_true. destruct Hp as [Htk|[H|H]]; [left|right; left; lia|right; right; lia].
    eapply tokb_kept; [exact Ht| |exact Htk]. intros ->. destruct (parks fr); [|done]. by destruct Hnp.
  Qed.
End Pend.
