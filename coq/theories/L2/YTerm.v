(* C08 (5): terminal states of programs with future_sync.  The terminal analysis of Term.v needs "all events fired" only for the
   events the queue is waiting for (the head job's, or the job a sync caller is parked on); with future_sync those may be done
   cells of slot jobs, which nobody fires from outside: they are shown fired from the invariants Inv_y / Inv_y2 / Inv_ytw. *)
From stdpp Require Import list numbers option.
From RecordUpdate Require Import RecordUpdate.
From L2 Require Import Model Base Own Jobs Shape OpShape DwInv Pool Fut Sig Wake WakeInv WakeLem Term Task TaskInv YTask Complete
  YDefs YMono YStep1 YStep2 YStep3 YInv YInv2.
#[global] Unset Lia Cache.

Definition awaited (s : state) (e : nat) : Prop :=
  hsusp s = Some e \/ exists c j rest, stacks s !! c = Some (FROpark j :: rest) /\ susp j = Some e.

Section TermG.
  Context (T : ftables) (HA : all_cond T).
  Context (s : state) (HI : Inv_all s) (Hterm : terminal T s) (Hnp : no_panic T s).
  Context (Haw : forall e, awaited s e -> (getev s e).(fired) = true).

  Lemma termg_npwake w : np (is_wake w) s = 0. Proof. apply (term_quiet T s HI Hterm Hnp). intros []; try done. by left. Qed.
  Lemma termg_cover e : hsusp s = Some e -> cover s e = false.
  Proof.
    intros He. destruct (cover s e) eqn:E; [|done]. exfalso. apply cover_iff in E as [(Hf & _)|[(c & w & Hf & _)|(c & d & w & Hf & _)]].
    - (* the awaited event is unfired *) rewrite Haw in Hf; [done|by left].
    - (* a wake frame *) pose proof (np_pos_wake s c w Hf) as H. by rewrite termg_npwake in H.
    - (* a wake_with frame *) assert (H : np (fun fr => match fr with FWakeWith _ _ => true | _ => false end) s > 0).
      { apply np_pos_fsat. by exists c, (FWakeWith d w). }
      rewrite (term_quiet T s HI Hterm Hnp) in H; [lia|]. intros []; try done. by right.
  Qed.
  Lemma termg_no_runner : owned s.(qs) = false.
  Proof.
    destruct (owned (qs s)) eqn:Ho; [|done]. exfalso.
    pose proof (io_cnt _ (ia_own _ HI)) as Hc. rewrite Ho in Hc. cbn in Hc.
    assert (Hp : np marker s > 0) by lia. apply np_pos_fsat in Hp as (c & fr' & (st & Hst & Hin) & Hm).
    destruct (term_top T s HI Hterm Hnp c st Hst) as (fr & rest & -> & Hb).
    pose proof (shape_top_plain s c fr rest (ia_shape _ HI) Hst ltac:(by destruct fr)) as Hz.
    apply elem_of_cons in Hin as [->|Hin]; [|by rewrite (cntf_zero_all marker rest Hz fr' Hin) in Hm].
    destruct fr; try done. (* FROpark j *)
    pose proof (iw_frames _ (ia_wake _ HI) c (FROpark j) ltac:(eexists; split; [exact Hst|left])) as Hok. cbn in Hok.
    destruct (susp j) as [e|] eqn:Es; [|done].
    assert (Hfe : (getev s e).(fired) = true) by (apply Haw; right; by eexists _, _, _).
    assert (Hgt : gt s c e = false) by (unfold gt, unfreg; by rewrite Hfe, termg_npwake).
    rewrite Hgt in Hok. destruct (is_wfu (qs s)); [done|]. rewrite orb_false_r in Hok.
    rewrite (term_quiet T s HI Hterm Hnp (is_unpark c)) in Hok by (intros []; try done; by left). rewrite orb_false_r in Hok.
    destruct (stacks_actor s c _ Hst) as (ac & Ea & Est). pose proof (Hterm c) as Hs. unfold step in Hs. rewrite Ea in Hs. cbn in Hs. rewrite Est in Hs.
    cbn in Hs. unfold tokb in Hok. rewrite (toks_lookup _ _ _ Ea) in Hok. cbn in Hok. by rewrite Hok in Hs.
  Qed.
  Lemma termg_insched : has_pool s -> s.(insched) = 0.
  Proof.
    intros (p & st & Hp & Hi). destruct (insched s) as [|n] eqn:En; [done|]. exfalso.
    destruct (ip_shape _ (ia_pool _ HI) p st Hp Hi) as [->|(pre & m & -> & Hm & _)].
    - destruct (stacks_actor s p _ Hp) as (ac & Ea & Est). pose proof (Hterm p) as Hs. unfold step in Hs. rewrite Ea in Hs. cbn in Hs.
      rewrite Est in Hs. cbn in Hs. rewrite En in Hs. by destruct (t_next (ft_base T) (qs s)).
    - assert (Hc : cntf marker (pre ++ [m; FPIdle]) >= 1).
      { rewrite cntf_app. cbn. assert (marker m = true) as -> by (by destruct m). lia. }
      pose proof (runner_owned s p _ (ia_own _ HI) Hp Hc) as Ho. by rewrite termg_no_runner in Ho.
  Qed.
  Theorem termg_idle_empty : has_pool s -> s.(qs) = Idle /\ s.(jobs) = [] /\ held s = [].
  Proof.
    intros HP. pose proof termg_no_runner as Ho. pose proof (termg_insched HP) as Hin.
    pose proof (iw_queue _ (ia_wake _ HI)) as HQ. unfold queue_ok in HQ.
    rewrite (term_quiet T s HI Hterm Hnp is_rq1), (term_quiet T s HI Hterm Hnp is_push), Hin in HQ by (intros []; try done; (by left) || (by right)).
    assert (Hh : held s = []) by (apply held_none; [apply (ia_own _ HI)|done]).
    destruct (qs s) eqn:Eq; try done.
    - (* Idle *) destruct (jobs s) eqn:Ej; [done|]. cbn in HQ. destruct (hsusp s) eqn:Eh; [by rewrite termg_cover in HQ|done].
    - (* WaitingForWake *) destruct (hsusp s) eqn:Eh; [by rewrite termg_cover in HQ|done].
    - (* WaitingForPoll *) destruct (hsusp s) eqn:Eh; [by rewrite termg_cover in HQ|done].
    - (* Panicked *) by destruct (io_nopanic _ (ia_own _ HI)).
  Qed.
End TermG.

Section Cells.
  Context (T : ftables) (HA : all_cond T) (nev : nat).
  Context (s : state) (H2 : Inv_all2 s) (HY : Inv_y nev s) (HY2 : Inv_y2 nev s) (Hterm : terminal T s).
  Context (Hext : forall e, e < nev -> (getev s e).(fired) = true).
  Let HI := i2_all _ H2.
  Let Hnp : no_panic T s := fun a => fut_no_panic T s a (ac_own _ HA) (ia_own _ HI) (ia_fut _ HI).

  Lemma ypark_waits c y st u rest : stacks s !! c = Some (FY YPpark y st u :: rest) ->
    exists b, st = YQueue b /\ (getev s y.(y_r)).(fired) = false.
  Proof.
    intros Hc. destruct (stacks_actor s c _ Hc) as (ac & Ea & Est).
    pose proof (Hterm c) as Hs. unfold step in Hs. rewrite Ea in Hs. cbn in Hs. rewrite Est in Hs. cbn in Hs.
    destruct (token ac) eqn:Etok; [done|].
    assert (Htk : tokb s c = false) by (unfold tokb; by rewrite (toks_lookup _ _ _ Ea), Etok).
    pose proof (i2_ytw _ H2 c _ _ Hc ltac:(left)) as Hy. cbn [yob] in Hy.
    pose proof (y_frames _ _ HY c _ _ Hc ltac:(left)) as Hfr. cbn [frok] in Hfr. destruct Hfr as (_ & _ & _ & _ & _ & _ & _ & Hpl & _).
    assert (Hq : forall e, twr s c e = true -> (getev s e).(fired) = false).
    { intros e. unfold twr. rewrite Htk, (term_quiet T s HI Hterm Hnp (is_unpark c)), (term_quiet T s HI Hterm Hnp (is_wake (WTask c))) by (intros []; try done; by left).
      cbn. unfold unfreg. intros [H _]%andb_true_iff. by apply negb_true_iff in H. }
    destruct st as [b|rs]; cbn [yguar] in Hy; [exists b; split; [done|by apply Hq]|exfalso].
    destruct rs as [|p b]; [done|]. cbn in Hpl. apply andb_true_iff in Hpl as [Hp _]. destruct p; try done; cbn in Hp.
    - apply Hq in Hy. apply Nat.ltb_lt in Hp. rewrite Hext in Hy by done. done.
    - unfold twr2 in Hy. rewrite Htk, (term_quiet T s HI Hterm Hnp (is_unpark c)), (term_quiet T s HI Hterm Hnp (is_wake (WTask c))) in Hy by (intros []; try done; by left).
      cbn in Hy. apply andb_true_iff in Hy as [Hy _]. unfold unfreg in Hy. apply andb_true_iff in Hy as [Hy _]. apply negb_true_iff in Hy.
      apply andb_true_iff in Hp as [Hp _]. apply Nat.ltb_lt in Hp. rewrite Hext in Hy by done. done.
  Qed.

  (* the owner of a SyncFuture is not asleep once queue_ready has been sent: task_finished has been sent / dropped *)
  Lemma done_fired o f r : (o, f, r) ∈ Ys s -> firedP s r -> firedP s (S r).
  Proof.
    intros Ht Hr. unfold firedP. destruct (fired (getev s (S r))) eqn:Ed; [done|exfalso].
    destruct (y2_fy _ _ HY2 (o, f, r) Ht) as (c & fr & (st0 & Hc & Hin) & Hfy); [cbn; unfold firedP; by rewrite Ed|].
    destruct fr; try done.
    cbn in Hfy. destruct (term_top T s HI Hterm Hnp c st0 Hc) as (top & rest & -> & Hb).
    assert (Htop : top = FY pc y st u /\ pc = YPpark).
    { destruct (i2_op _ H2 c _ Hc) as [Hbot Hcnt].
      apply elem_of_cons in Hin as [<-|Hin]; [split; [done|by destruct pc]|exfalso].
      assert (cntf opfr rest >= 1) by (assert (cntf opfr rest > 0); [apply cntf_pos; by eexists|lia]).
      destruct top; try done; cbn in Hcnt; try lia.
      - destruct script; [|done]. rewrite (op_bot_alone s c _ rest (i2_op _ H2) Hc eq_refl) in Hin. by apply elem_of_nil in Hin.
      - rewrite (op_bot_alone s c _ rest (i2_op _ H2) Hc eq_refl) in Hin. by apply elem_of_nil in Hin. }
    destruct Htop as [-> ->].
    injection Hfy as <- <- <-. destruct (ypark_waits c _ _ _ _ Hc) as (b & _ & Hf). unfold firedP in Hr. congruence.
  Qed.

  Lemma susp_fired j e : jobok nev s j -> susp j = Some e -> (getev s e).(fired) = true.
  Proof.
    intros [_ Hj] Hs. destruct j as [|o st sc|]; try done. destruct st; try done. destruct Hj as [J1 J2].
    destruct (ydec (Ys s) o) as [(f & r & Ht)|Hn].
    - destruct (J1 _ _ Ht) as [E|[_ [Hr [E|[_ [E|E]]]]]]; subst sc; try done.
      cbn in Hs. injection Hs as <-. by apply (done_fired o f r).
    - specialize (J2 Hn). destruct sc as [|p l]; [done|]. inversion J2 as [|? ? Hp _]. destruct p; try done; cbn in Hp, Hs.
      + injection Hs as <-. apply Hext. by apply Nat.ltb_lt.
      + injection Hs as <-. apply andb_true_iff in Hp as [Hp _]. apply Hext. by apply Nat.ltb_lt.
  Qed.
  Lemma awaited_fired e : awaited s e -> (getev s e).(fired) = true.
  Proof.
    intros [Hh|(c & j & rest & Hc & Hs)].
    - unfold hsusp in Hh. destruct (jobs s) as [|j js] eqn:Ej; [done|]. apply (susp_fired j); [|done].
      apply (y_jobs _ _ HY). rewrite Ej. left.
    - apply (susp_fired j); [|done]. exact (y_frames _ _ HY c _ _ Hc ltac:(left)).
  Qed.
  Theorem termy_idle_empty : has_pool s -> s.(qs) = Idle /\ s.(jobs) = [] /\ held s = [].
  Proof. apply (termg_idle_empty T s HI Hterm Hnp awaited_fired). Qed.

  (* no actor is stuck at the push of a slot job *)
  Lemma slot_pushed o f r : (o, f, r) ∈ Ys s -> GPush o ∈ s.(log).
  Proof.
    intros Ht. destruct (y2_push _ _ HY2 _ _ _ Ht) as [?|(c & fr & Hf & Hd)]; [done|exfalso].
    assert (Hn : np (fun fr => match fr with FD1 _ => true | _ => false end) s > 0).
    { apply np_pos_fsat. exists c, fr. split; [done|]. by destruct fr. }
    rewrite (term_quiet T s HI Hterm Hnp) in Hn; [lia|]. intros []; try done. by right.
  Qed.
  (* with a pool thread every cell is fired: every slot job has run *)
  Theorem termy_all_fired : has_pool s -> all_fired s.
  Proof.
    intros HP e. destruct (decide (e < nev)) as [?|Hge]; [by apply Hext|].
    destruct (decide (e < length (evs s))) as [Hlt|?]; [|unfold getev; by rewrite lookup_ge_None_2 by lia].
    destruct (y2_cover _ _ HY2 e ltac:(lia)) as (o & f & r & Ht & He).
    assert (Hr : firedP s r); [|destruct He as [-> | ->]; [done|by apply (done_fired o f r)] ].
    destruct (termy_idle_empty HP) as (Hq & Hj & Hh). pose proof (ia_jobs _ HI) as HJ.
    pose proof (slot_pushed _ _ _ Ht) as Hp.
    pose proof (ij_fifo _ HJ) as H1. unfold pend in H1. rewrite Hh, Hj in H1. cbn in H1. rewrite app_nil_r in H1.
    pose proof (ij_log _ HJ) as Hw. unfold inprog in Hw. rewrite Hh, Hj in Hw.
    assert (Hs : GStart o ∈ log s).
    { assert (H : o ∈ pushes (log s)).
      { clear -Hp. induction (log s) as [|ev l IH]; [by apply elem_of_nil in Hp|]. cbn. apply elem_of_app.
        apply elem_of_cons in Hp as [<-|Hp]; [right; left|left; by apply IH]. }
      rewrite H1 in H. clear -H. induction (log s) as [|ev l IH]; [by apply elem_of_nil in H|]. cbn in H.
      apply elem_of_app in H as [H|H]; [right; by apply IH|]. destruct ev; try (by apply elem_of_nil in H).
      apply elem_of_list_singleton in H as ->. left. }
    destruct (wbn_finished _ _ Hw o Hs) as [Hfin|?]; [|done]. by eapply (proj2 (y2_fin _ _ HY2 o Hfin)).
  Qed.
End Cells.

(* C08 (5): future_sync releases the queue.  At least one pool thread; in a terminal state in which all EXTERNAL events are fired
   every oneshot cell of every future_sync call is fired as well, the queue is idle and empty, every caller has finished its script,
   every slot job has started and finished, and every call's user future completed or its SyncFuture was dropped *)
Theorem futsync_releases_queue T (HA : all_cond T) scripts npool nev tr s :
  ywf nev scripts -> npool >= 1 -> run T (init scripts npool nev) tr = Some s -> terminal T s ->
  (forall e, e < nev -> (getev s e).(fired) = true) ->
  all_fired s /\ s.(qs) = Idle /\ s.(jobs) = [] /\ held s = [] /\
  (forall c st, stacks s !! c = Some st -> st = [FTop []] \/ st = [FPIdle]) /\
  (forall o f r, GYnew o f r ∈ s.(log) -> GStart o ∈ s.(log) /\ GFinish o ∈ s.(log) /\ (GUFinish o ∈ s.(log) \/ GYdrop o ∈ s.(log))).
Proof.
  intros Hwf Hn Hr Hterm Hext. destruct (reachable_yall nev T HA _ _ _ _ Hwf Hr) as [_ _ HY HY2].
  pose proof (reachable_all2 T HA _ _ _ _ _ Hr) as H2. pose proof (reachable_has_pool T HA _ _ _ _ _ Hn Hr) as HP.
  pose proof (termy_all_fired T HA nev s H2 HY HY2 Hterm Hext HP) as Hf. split; [done|].
  destruct (termy_idle_empty T HA nev s H2 HY HY2 Hterm Hext HP) as (Hq & Hj & Hh). split; [done|]. split; [done|]. split; [done|].
  split; [intros c st; by eapply (C07_complete T HA)|].
  intros o f r Hg. apply ynews_in in Hg.
  destruct (terminal_all_ran T HA _ _ _ _ _ Hn Hr Hterm Hf) as [_ Hran].
  pose proof (slot_pushed T HA nev s H2 HY2 Hterm _ _ _ Hg) as Hp.
  destruct (Hran o Hp) as [? ?]. split; [done|]. split; [done|].
  apply (y_t3 _ _ HY _ _ _ Hg). apply Hf.
Qed.
Print Assumptions futsync_releases_queue.
