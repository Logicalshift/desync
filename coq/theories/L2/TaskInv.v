(* C07: [Inv_task] is inductive.  Each clause turns on one observation whose behaviour under a step is settled first: the result
   cells ([futs_step]), the job that will signal a future ([step_nsig]), the pending wake-up of a task ([tpend], [step_tw]), the
   whereabouts of a sync job ([sbp]). *)
From stdpp Require Import list numbers option.
From RecordUpdate Require Import RecordUpdate.
From L2 Require Import Model Base Arm Own Jobs Shape DwInv Pool OpShape Fut Sig Wake WakeInv WakeLem WakeStep1 Term YStep2 TaskPend Task.
#[global] Unset Lia Cache.

Lemma getf_ins (s s' : state) f x fq : futs s' = <[f := x]> (futs s) ->
  getf s' fq = getf s fq \/ (fq = f /\ f < length (futs s) /\ getf s' fq = x).
Proof.
  intros H. unfold getf. rewrite H. destruct (decide (fq = f)) as [->|Hne]; [|left; by rewrite list_lookup_insert_ne].
  destruct (decide (f < length (futs s))); [right; by rewrite list_lookup_insert|left; by rewrite list_insert_ge by lia].
Qed.
(* what a step does to the result cells; a fresh cell comes with the job that is going to signal it *)
Inductive futs_step (s : state) (a : nat) (fr : frame) (s' : state) : Prop :=
| fs_same : futs s' = futs s -> futs_step s a fr s'
| fs_alloc l : futs s' = futs s ++ l -> Forall (fun c => c = fc0) l ->
    (forall f, length (futs s) <= f < length (futs s ++ l) -> exists j, fsat s' a (FD1 j) /\ sgj f j = true) -> futs_step s a fr s'
| fs_take f v : (getf s f).(res) = FSome v -> futs s' = <[f := getf s f <| res := FReturned |>]> (futs s) -> futs_step s a fr s'
| fs_store f : pollfam fr = Some f -> futs s' = <[f := getf s f <| fwaker := Some (WTask a) |>]> (futs s) -> futs_step s a fr s'
| fs_signal f op : marker fr = true -> futs s' = <[f := {| res := FSome op; fwaker := None |}]> (futs s) ->
    (forall w, (getf s f).(fwaker) = Some w -> fsat s' a (FWake w)) -> futs_step s a fr s'.
Lemma step_futs T s a s' fr rest : step T s a = Some s' -> stacks s !! a = Some (fr :: rest) -> futs_step s a fr s'.
Proof.
  intros (l & r & Hst & Hs' & Hg & He)%step_arm Hst0. rewrite Hst in Hst0. pose proof (e_futs _ _ _ _ _ He) as Hf. clear He.
  destruct l; cbn [arm_old arm_futs arm_new arm_guard app] in *; injection Hst0 as <- _.
  all: first [ by apply fs_same
             | eapply fs_alloc; [exact Hf|repeat constructor|];
               intros fq; rewrite app_length; cbn [length]; intros Hfq; eexists; split; [eapply fsat_new; [exact Hst|exact Hs'|left]|];
               cbn; rewrite ?existsb_app; cbn; repeat case_bool_decide; rewrite ?orb_true_r; first [done|lia]
             | eapply fs_take; [first [exact Hg|exact (proj1 Hg)]|exact Hf]
             | eapply fs_store; [reflexivity|exact Hf]
             | eapply fs_signal; [reflexivity|exact Hf|]; intros w0 Hw; rewrite Hw in Hs'; eapply fsat_new; [exact Hst|exact Hs'|left] ].
Qed.
(* only the signal turns a missing result into a present one, and the signalling job is polled by the queue's runner *)
Lemma step_res_none T s a s' fr rest f : step T s a = Some s' -> stacks s !! a = Some (fr :: rest) -> marker fr = false ->
  (getf s f).(res) = FNone -> (getf s' f).(res) = FNone.
Proof.
  intros Hstep Hst Hm Hr. destruct (step_futs T s a s' fr rest Hstep Hst) as [H|l H Hl _|f' v Hv H|f' _ H|f' op Hm' _ _].
  - (* fs_same *) by rewrite (getf_futs _ _ _ H).
  - (* fs_alloc *) by rewrite (getf_alloc _ _ _ _ H Hl).
  - (* fs_take *) destruct (getf_ins _ _ _ _ f H) as [->|(-> & _ & _)]; [done|congruence].
  - (* fs_store *) by destruct (getf_ins _ _ _ _ f H) as [->|(-> & _ & ->)].
  - (* fs_signal: by the runner *) congruence.
Qed.

Lemma cnts_app f a b : cnts f (a ++ b) = cnts f a + cnts f b. Proof. induction a; cbn; lia. Qed.
Section Pres.
  Context (T : ftables).
  (* the job that is going to signal f stays in the queue or in a hand until it does *)
  Lemma step_nsig s a s' f : step T s a = Some s' -> f < length s.(futs) -> nsig f s <= nsig f s' \/ (getf s' f).(res) <> FNone.
  Proof.
    intros (l & r & Hst & Hs' & Hg & He)%step_arm Hf. pose proof (np_arm (sgf f) s s' a l r Hst Hs') as U.
    unfold nsig. rewrite (e_jobs _ _ _ _ _ He). pose proof (e_futs _ _ _ _ _ He) as Hfu. clear He Hst Hs'.
    set (n := np (sgf f) s') in *. clearbody n.
    destruct l; try destruct k; cbn [arm_old arm_new arm_jobs arm_futs arm_guard app] in *.
    all: cbn [cntf sgf sgj ret_ready ret_pending] in U; rewrite ?cntf_app, ?cntf_opt_wake, ?cntf_fired_frames, ?cntf_cont_fr in U by done;
         cbn [cntf sgf sgj ret_ready ret_pending existsb is_psig orb] in U.
    all: try (left; lia).
    all: try (lazymatch type of Hg with prim_ready _ ?p => destruct p; try done; cbn [is_psig orb] in U end).
    all: try (lazymatch type of Hg with _ /\ jobs _ = _ => destruct Hg as [_ Hj]; rewrite Hj end).
    all: rewrite ?cnts_app; cbn [cnts sgj].
    all: repeat match goal with H : context [existsb ?p ?l] |- _ => destruct (existsb p l) end; repeat case_bool_decide; simplify_eq; cbn in *.
    all: try (left; lia).
    all: right; unfold getf; by rewrite Hfu, list_lookup_insert.
  Qed.
  Lemma step_task_sig s a s' : (forall f, f < length s.(futs) -> (getf s f).(res) = FNone -> nsig f s >= 1) ->
    step T s a = Some s' -> forall f, f < length s'.(futs) -> (getf s' f).(res) = FNone -> nsig f s' >= 1.
  Proof.
    intros I3 Hstep f Hlen Hr. destruct (step_stack T s a s' Hstep) as (fr & rest & _ & _ & Hst & _).
    assert (Hold : f < length (futs s) -> (getf s f).(res) = FNone -> nsig f s' >= 1).
    { intros Hf Hr0. specialize (I3 f Hf Hr0). destruct (step_nsig s a s' f Hstep Hf) as [?|?]; [lia|done]. }
    destruct (step_futs T s a s' fr rest Hstep Hst) as [H|l H Hl Hj|f' v Hv H|f' _ H|f' op _ H _].
    { (* no cell is written *) apply Hold; [by rewrite <- H|by rewrite <- (getf_futs _ _ _ H)]. }
    { (* fresh cells *) destruct (decide (f < length (futs s))) as [Hf|Hf]; [apply Hold; [done|by rewrite <- (getf_alloc _ _ _ _ H Hl)]|].
      destruct (Hj f) as (j & Hfs & Hsg); [rewrite <- H; lia|]. unfold nsig.
      assert (np (sgf f) s' > 0); [|lia]. apply np_pos_fsat. by exists a, (FD1 j). }
    (* a cell is written: taken, stored into, signalled *)
    all: rewrite H, insert_length in Hlen; destruct (getf_ins _ _ _ _ f H) as [E|(-> & _ & E)]; rewrite E in Hr; first [by apply Hold|done].
  Qed.
End Pres.

(* an obligation Q that only marker frames carry: the runner is the one actor with such frames, so its steps need Q for the new
   frames only *)
Lemma marked_runner_step (Q : state -> frame -> bool) s s' a fr0 rest new :
  (forall s fr, marker fr = false -> Q s fr = true) ->
  Inv_own s -> stacks s !! a = Some (fr0 :: rest) -> marker fr0 = true -> stacks s' = <[a := new]> (stacks s) ->
  (forall fr, fr ∈ new -> fr ∈ rest \/ Q s' fr = true) ->
  forall c st fr, stacks s' !! c = Some st -> fr ∈ st -> Q s' fr = true.
Proof.
  intros HQ HO Ha Hm Hs Hnew c st fr Hc Hin. destruct (marker_unique s a fr0 rest HO Ha Hm) as [Hr Ho].
  destruct (fsat_upd s s' a _ new c fr Ha Hs ltac:(by exists st)) as [[-> Hin']|[Hne Hf']].
  - destruct (Hnew _ Hin') as [Hin''|]; [|done]. apply HQ. by apply Hr.
  - apply HQ. by eapply Ho.
Qed.
Lemma marked_other_step (Q : state -> frame -> bool) s s' a fr0 rest new :
  (forall s fr, marker fr = false -> Q s fr = true) ->
  stacks s !! a = Some (fr0 :: rest) -> stacks s' = <[a := new]> (stacks s) ->
  (forall fr, fr ∈ new -> fr ∈ rest \/ Q s' fr = true) ->
  (forall fr, marker fr = true -> Q s fr = true -> Q s' fr = true) ->
  (forall c st fr, stacks s !! c = Some st -> fr ∈ st -> Q s fr = true) ->
  forall c st fr, stacks s' !! c = Some st -> fr ∈ st -> Q s' fr = true.
Proof.
  intros HQ Ha Hs Hnew Hst HI c st fr Hc Hin.
  destruct (marker fr) eqn:Hm; [|by apply HQ].
  destruct (fsat_upd s s' a _ new c fr Ha Hs ltac:(by exists st)) as [[-> Hin']|[Hne (st' & Hc' & Hin'')]].
  - destruct (Hnew _ Hin') as [Hin''|]; [|done]. apply Hst; [done|]. eapply HI; [exact Ha|by right].
  - apply Hst; [done|]. by eapply HI.
Qed.
Lemma rn_nonmarker s fr : marker fr = false -> rn_ok s fr = true. Proof. by destruct fr. Qed.
Lemma rn_ok_stable s s' fr : (forall f, (getf s f).(res) = FNone -> (getf s' f).(res) = FNone) -> rn_ok s fr = true -> rn_ok s' fr = true.
Proof. intros H. destruct fr; try done; cbn; rewrite !bool_decide_eq_true; apply H. Qed.

Section Pres2.
  Context (T : ftables).
  Lemma step_task_rn s a s' : Inv_own s ->
    (forall c st fr, stacks s !! c = Some st -> fr ∈ st -> rn_ok s fr = true) ->
    step T s a = Some s' -> forall c st fr, stacks s' !! c = Some st -> fr ∈ st -> rn_ok s' fr = true.
  Proof.
    intros HO I2 Hstep.
    assert (Hres : forall fr rest, stacks s !! a = Some (fr :: rest) -> marker fr = false ->
                     forall x, marker x = true -> rn_ok s x = true -> rn_ok s' x = true).
    { intros fr rest Hst Hm x _. apply rn_ok_stable. intros f. by apply (step_res_none T s a s' fr rest). }
    apply step_arm in Hstep as (l & r & Hst & Hs' & Hg & He). pose proof (e_futs _ _ _ _ _ He) as Hf. clear He.
    destruct l; try match goal with c : cont |- _ => destruct c end; try destruct k; cbn [arm_old arm_new arm_futs arm_guard cont_fr app] in *.
    all: rewrite <- ?app_assoc in Hs'; cbn [app] in Hs'; unfold fired_frames in Hs'.
    all: assert (Hok0 := I2 a _ _ Hst ltac:(left)); cbn in Hok0.
    all: first [ eapply (marked_runner_step rn_ok s s' a _ _ _ rn_nonmarker HO Hst eq_refl Hs')
               | eapply (marked_other_step rn_ok s s' a _ _ _ rn_nonmarker Hst Hs'); [ |exact (Hres _ _ Hst eq_refl)|exact I2] ].
    all: new_frames.
    all: cbn; rewrite (getf_futs s' s _ Hf); first [by apply bool_decide_eq_true|exact Hok0].
  Qed.
End Pres2.

Lemma init_rn scripts npool nev c st fr : stacks (init scripts npool nev) !! c = Some st -> fr ∈ st -> rn_ok (init scripts npool nev) fr = true.
Proof. intros Hc Hin. apply rn_nonmarker. destruct (init_stacks _ _ _ _ _ Hc) as [->|[sc ->]]; by apply elem_of_list_singleton in Hin as ->. Qed.
(* the clauses [it_rn] and [it_sig] of [Inv_task] are inductive with the ownership invariant alone; [it_tw] and [it_sb] follow below,
   [it_tw] with [Inv_fut] and [Inv_op] as well *)
Theorem reachable_task_parts T : own_cond T -> forall scripts npool nev tr s, run T (init scripts npool nev) tr = Some s ->
  (forall c st fr, stacks s !! c = Some st -> fr ∈ st -> rn_ok s fr = true) /\
  (forall f, f < length s.(futs) -> (getf s f).(res) = FNone -> nsig f s >= 1).
Proof.
  intros HT scripts npool nev tr s Hr.
  assert (H : Inv_own s /\ (forall c st fr, stacks s !! c = Some st -> fr ∈ st -> rn_ok s fr = true) /\
              (forall f, f < length s.(futs) -> (getf s f).(res) = FNone -> nsig f s >= 1)); [|by destruct H as (_ & ? & ?)].
  revert Hr. apply (run_inv (fun s => Inv_own s /\ (forall c st fr, stacks s !! c = Some st -> fr ∈ st -> rn_ok s fr = true) /\
              (forall f, f < length s.(futs) -> (getf s f).(res) = FNone -> nsig f s >= 1)) T).
  - intros s0 a s1 (H1 & H2 & H3) Hs. split; [by eapply step_own|]. split; [by eapply step_task_rn|by eapply step_task_sig].
  - split; [apply init_own|]. split.
    + apply init_rn.
    + intros f Hf. cbn in Hf. lia.
Qed.

Definition cell (s : state) (c f : nat) : Prop := (getf s f).(res) = FNone /\ (getf s f).(fwaker) = Some (WTask c).
Lemma tw_true s c f : tw s c f = true <-> tpend s c = true \/ cell s c f.
Proof. unfold tw, cell. fold (tpend s c). by rewrite orb_true_iff, andb_true_iff, !bool_decide_eq_true. Qed.
Definition isaw (fr : frame) : bool := match fr with FAwRet _ | FPark _ => true | _ => false end.
Lemma twf_noaw s c p st : cntf isaw st = 0 -> twf s c p st = true.
Proof. revert p; induction st as [|y r IH]; intros p; cbn; [done|]. destruct y; cbn; try (intros; by apply IH); lia. Qed.
Lemma isaw_opfr st : cntf opfr st = 0 -> cntf isaw st = 0.
Proof. induction st as [|y r IH]; cbn; [done|]. destruct y; cbn; try done; lia. Qed.
Lemma twf_change s s' c p p' st :
  (forall f, inprog_for p f = true -> inprog_for p' f = true) ->
  (forall f, FAwRet f ∈ st \/ FPark f ∈ st -> tw s c f = true -> tw s' c f = true) ->
  twf s c p st = true -> twf s' c p' st = true.
Proof.
  revert p p'; induction st as [|y r IH]; intros p p' Hp Hs; cbn [twf]; [done|].
  destruct y; try (apply IH; [done|intros ?f [?|?] ?; apply Hs; first [done|left; by right|right; by right] ]).
  - rewrite !orb_true_iff. intros [H|H]; [left; by apply Hp|right; apply Hs; [left; left|done] ].
  - apply Hs. right; left.
Qed.
Definition awaits (s : state) (c f : nat) : Prop := exists st, stacks s !! c = Some st /\ (FAwRet f ∈ st \/ FPark f ∈ st).
Lemma twf_update s s' a old new :
  stacks s !! a = Some old -> stacks s' = <[a := new]> (stacks s) ->
  twf s' a None new = true ->
  (forall c f, c <> a -> awaits s c f -> tw s c f = true -> tw s' c f = true) ->
  (forall c st, stacks s !! c = Some st -> twf s c None st = true) ->
  forall c st, stacks s' !! c = Some st -> twf s' c None st = true.
Proof.
  intros Ha Hs Hnew Hstab. apply (stacks_update (fun s c st => twf s c None st = true) s s' a old new Ha Hs Hnew).
  intros c st Hne Hc. apply twf_change; [done|]. intros f Hin. apply Hstab; [done|by exists st].
Qed.
Lemma twf_app_chain s c p p0 pre r : forallb chain pre = true -> (forall f, inprog_for p0 f = false) ->
  twf s c p0 r = true -> twf s c p (pre ++ r) = true.
Proof.
  revert p; induction pre as [|y pre IH]; intros p Hc Hp H; cbn [app].
  - eapply (twf_change s s c p0 p); [intros f Hf; by rewrite Hp in Hf|done|done].
  - cbn in Hc. apply andb_true_iff in Hc as [Hy Hc]. destruct y; try done; cbn [twf]; by apply IH.
Qed.
Lemma twf_app_frame s c p pre x r : forallb chain pre = true -> isaw x = false ->
  twf s c p (pre ++ x :: r) = twf s c (Some x) r.
Proof.
  revert p; induction pre as [|y pre IH]; intros p Hc Hx; cbn [app].
  - cbn [twf]. by destruct x.
  - cbn in Hc. apply andb_true_iff in Hc as [Hy Hc]. destruct y; try done; cbn [twf]; by apply IH.
Qed.

Lemma cell_tw s c f : cell s c f -> tw s c f = true.
Proof. intros H. apply tw_true. by right. Qed.
Lemma wf_in_range s c st fr f : Inv_fut s -> stacks s !! c = Some st -> fr ∈ st -> wf f fr = true -> f < length s.(futs).
Proof.
  intros HF Hc Hin Hw. destruct (decide (f < length (futs s))) as [|Hge]; [done|]. exfalso.
  pose proof (tot_pos s c st fr f Hc Hin Hw). pose proof (if_fresh _ HF f ltac:(lia)). lia.
Qed.
Lemma cell_in_range s c f : cell s c f -> f < length s.(futs).
Proof. intros [_ H]. unfold getf in H. destruct (futs s !! f) eqn:E; [by eapply lookup_lt_Some|done]. Qed.
Lemma cell_setf_keep s f x c : x.(res) = (getf s f).(res) -> x.(fwaker) = (getf s f).(fwaker) -> cell s c f -> cell (setf s f x) c f.
Proof. intros H1 H2 Hc. pose proof (cell_in_range _ _ _ Hc). unfold cell. rewrite getf_setf_eq by done. rewrite H1, H2. exact Hc. Qed.
Lemma awaits_wf s c f : awaits s c f -> exists st, stacks s !! c = Some st /\ cntf (wf f) st >= 1.
Proof.
  intros (st & Hc & Hin). exists st. split; [done|]. assert (cntf (wf f) st > 0); [|lia]. apply cntf_pos.
  destruct Hin as [Hin|Hin]; [exists (FAwRet f)|exists (FPark f)]; (split; [done|cbn; by apply bool_decide_eq_true]).
Qed.
Lemma poll_on_cont x rest f : pollall (x :: rest) = true -> pollfam x = Some f ->
  exists y r, rest = y :: r /\ (y = FAwRet f \/ (exists k, y = FDropRet f k) \/ exists y0 st u, y = FY YPsfret y0 st u /\ y0.(y_f) = f).
Proof.
  cbn. intros [H _]%andb_true_iff Hf. unfold adjok in H. rewrite Hf in H. destruct rest as [|y r]; [done|]. exists y, r. split; [done|].
  destruct y; try done; cbn in H; try apply bool_decide_eq_true in H as ->; [by left|right; left; by eexists|].
  destruct pc; try done. apply bool_decide_eq_true in H. right; right. by eexists _, _, _.
Qed.
Lemma poller_wf x rest f : pollall (x :: rest) = true -> pollfam x = Some f -> cntf (wf f) (x :: rest) >= 1.
Proof.
  intros Hp Hf. destruct (poll_on_cont x rest f Hp Hf) as (y & r & -> & Hy). assert (wf f y = true); [|cbn; rewrite H; destruct (wf f x); lia].
  destruct Hy as [->|[[k ->]|(y0 & st & u & -> & <-)]]; cbn; by apply bool_decide_eq_true.
Qed.
Lemma below_op s a fr rest x : Inv_op s -> stacks s !! a = Some (fr :: rest) -> opfr fr = true -> x ∈ rest -> opfr x = false.
Proof. intros HP Ha Ho. apply cntf_zero_all. by eapply op_top_only. Qed.

Section Pres3.
  Context (T : ftables).
  (* the waker stored in a cell is that of the one task that awaits the future; it is taken out only to be called *)
  Lemma step_cell s a s' fr rest c f : Inv_fut s -> step T s a = Some s' -> stacks s !! a = Some (fr :: rest) -> awaits s c f ->
    cell s c f -> cell s' c f \/ tpend s' c = true.
  Proof.
    intros HF Hstep Hst Haw [Hr Hw]. unfold cell.
    destruct (step_futs T s a s' fr rest Hstep Hst) as [H|l H Hl _|f' v Hv H|f' Hpf H|f' op _ H Hwk].
    - (* fs_same *) left. by rewrite (getf_futs _ _ _ H).
    - (* fs_alloc *) left. by rewrite (getf_alloc _ _ _ _ H Hl).
    - (* fs_take: not of this cell, its result is missing *) left. destruct (getf_ins _ _ _ _ f H) as [->|(-> & _ & _)]; [done|congruence].
    - (* fs_store: by the awaiting task itself, the future has one consumer *)
      left. destruct (getf_ins _ _ _ _ f H) as [->|(-> & _ & ->)]; [done|]. split; [done|]. cbn.
      destruct (decide (a = c)) as [->|Hne]; [done|]. exfalso. destruct (awaits_wf _ _ _ Haw) as (sc & Hsc & Hwc).
      destruct (consumer_unique s a _ f' HF Hst (poller_wf _ _ _ (if_poll _ HF _ _ Hst) Hpf)) as [_ Ho]. rewrite (Ho c sc) in Hwc by done. lia.
    - (* fs_signal: the stored waker is on its way *)
      destruct (getf_ins _ _ _ _ f H) as [->|(-> & _ & _)]; [by left|]. right. apply (tpend_wake s' a). by apply Hwk.
  Qed.
  (* the obligation of an awaiting task is stable, except that the task itself uses the wake-up when it returns from its park *)
  Lemma step_tw s a s' fr rest c f : Inv_fut s -> Inv_op s -> step T s a = Some s' -> stacks s !! a = Some (fr :: rest) ->
    awaits s c f -> tw s c f = true -> tw s' c f = true \/ (c = a /\ fr = FPark f).
  Proof.
    intros HF HP Hstep Hst Haw. rewrite !tw_true. intros [Hp|Hc].
    - (* a wake-up is pending *) destruct Haw as (st & Hc & Hin).
      destruct (step_tpend T s a s' c fr rest Hstep Hst ltac:(by eapply lookup_lt_Some) Hp) as [?|[<- Hpk]]; [left; by left|right].
      split; [done|]. rewrite Hst in Hc. injection Hc as <-.
      assert (Hx : forall x, isaw x = true -> x ∈ fr :: rest -> x = fr).
      { intros x Hx [->|Hr]%elem_of_cons; [done|]. pose proof (below_op s a fr rest x HP Hst ltac:(by destruct fr) Hr). by destruct x. }
      destruct Hin as [Hin|Hin]; apply Hx in Hin; try done. by rewrite <- Hin in Hpk.
    - (* the waker is in the cell *) left. destruct (step_cell s a s' fr rest c f HF Hstep Hst Haw Hc); [by right|by left].
  Qed.

  Lemma step_task_tw s a s' : Inv_own s -> Inv_fut s -> Inv_op s ->
    (forall c st fr, stacks s !! c = Some st -> fr ∈ st -> rn_ok s fr = true) ->
    (forall c st, stacks s !! c = Some st -> twf s c None st = true) ->
    step T s a = Some s' -> forall c st, stacks s' !! c = Some st -> twf s' c None st = true.
  Proof.
    intros HO HF HP I2 I1 Hstep.
    assert (Htw : forall fr rest c f, stacks s !! a = Some (fr :: rest) -> (c = a -> fr <> FPark f) -> awaits s c f ->
                    tw s c f = true -> tw s' c f = true).
    { intros fr rest c f Hst Hne Haw H. destruct (step_tw s a s' fr rest c f HF HP Hstep Hst Haw H) as [?|[? ?]]; [done|]. by destruct Hne. }
    apply step_arm in Hstep as (l & r & Hst & Hs' & Hg & He). pose proof (e_futs _ _ _ _ _ He) as Hf. clear He.
    pose proof (if_poll _ HF _ _ Hst) as Hpo. assert (Hok0 := I1 a _ Hst). destruct (HP a _ Hst) as [_ Hcnt].
    destruct l; try match goal with c : cont |- _ => destruct c end; try destruct k; cbn [arm_old arm_new arm_futs arm_guard cont_fr app] in *.
    all: rewrite <- ?app_assoc in Hs'; cbn [app] in Hs'; unfold fired_frames in Hs'.
    (* a poll frame sits on its continuation: the arms that find none do not occur *)
    all: try (lazymatch type of Hg with _ /\ (CNone = CNone -> _) => exfalso;
              destruct (poll_on_cont _ _ _ Hpo eq_refl) as (y & r1 & -> & [->|[[k0 ->]|(y0 & st0 & u0 & -> & _)]]); exact (proj2 Hg eq_refl) end).
    all: apply (twf_update s s' a _ _ Hst Hs'); [ |intros cq fq Hne; apply (Htw _ _ cq fq Hst); intros ->; by destruct Hne|exact I1].
    (* the await continuation was popped (Ready): nothing below it awaits *)
    all: try (lazymatch type of Hg with _ /\ (_ = CNone -> _) => apply twf_noaw, isaw_opfr; cbn in Hcnt |- *; lia end).
    (* the top frame is FAwRet: it becomes FPark *)
    all: try (lazymatch type of Hst with _ = Some (FAwRet ?f :: _) =>
              cbn [twf inprog_for orb] in Hok0 |- *; apply (Htw _ _ a f Hst); [done|eexists; split; [exact Hst|left; left]|exact Hok0] end).
    (* the poll settles on Pending and the task waker is stored: FSFpoll (Wait arm), FDQstore, FDQempty1 *)
    all: try (lazymatch type of Hf with _ = <[?f := _]> _ =>
              assert (Hrn : (getf s f).(res) = FNone) by
                (first [ exact (proj1 Hg) | pose proof (I2 a _ _ Hst ltac:(left)) as Hx; cbn in Hx; by apply bool_decide_eq_true in Hx ]);
              destruct (poll_on_cont _ _ _ Hpo eq_refl) as (y & r1 & -> & [->|[[k0 ->]|(y0 & st0 & u0 & -> & _)]]);
              [ (* FAwRet f *) cbn [twf]; apply orb_true_iff; right; apply cell_tw;
                assert (Hlt : f < length (futs s)) by (eapply (wf_in_range s a _ (FAwRet f) f HF Hst); [right; left|cbn; by apply bool_decide_eq_true]);
                unfold cell, getf; rewrite Hf, list_lookup_insert by done; done
              | (* FDropRet f k *) cbn [twf]; apply twf_noaw, isaw_opfr; cbn in Hcnt; lia
              | (* FY YPsfret *) cbn [twf]; apply twf_noaw, isaw_opfr; cbn in Hcnt; lia ] end).
    (* an event fires: the wake frames are pushed on top *)
    all: try (lazymatch goal with |- twf _ _ None (wake_frames ?ws ++ ?x :: ?r) = true =>
              rewrite (twf_app_frame s' a None (wake_frames ws) x r (chain_wake_frames _) eq_refl);
              cbn [twf] in Hok0; eapply (fun Hp Hs => twf_change s s' a _ _ _ Hp Hs Hok0) end).
    all: try (lazymatch type of Hst with _ = Some (?fr0 :: _) => lazymatch goal with |- twf _ _ None (wake_frames ?ws ++ _) = true =>
              cbn [twf] in Hok0; eapply (twf_app_chain s' a None (Some fr0)); [apply chain_wake_frames|done|];
              eapply (fun Hp Hs => twf_change s s' a _ _ _ Hp Hs Hok0); [done|] end end).
    (* the frame above the first await frame changes, the state changes *)
    all: try (lazymatch goal with |- twf _ _ None _ = true =>
              try match goal with |- context [opt_wake ?o] => destruct o end;
              cbn [twf] in Hok0; cbn [twf app opt_wake];
              try (cbn [inprog_for pollprog]; rewrite ?bool_decide_true by done; reflexivity);
              eapply (fun Hp Hs => twf_change s s' a _ _ _ Hp Hs Hok0) end).
    all: try (lazymatch goal with |- forall f, inprog_for _ f = true -> _ => intros ?f; cbn [inprog_for pollprog]; done end).
    all: try (lazymatch goal with |- forall f, FAwRet f ∈ _ \/ _ -> _ =>
              intros fq Hin; apply (Htw _ _ a fq Hst); [intros _; discriminate|]; eexists; split; [exact Hst|]; destruct Hin; [left|right]; by right end).
  Qed.
End Pres3.

Lemma cntb_app c a b : cntb c (a ++ b) = cntb c a + cntb c b. Proof. induction a; cbn; lia. Qed.
Lemma sresb_sress (s s' : state) c : sress s' = sress s -> sresb s' c = sresb s c.
Proof. intros H. unfold sresb. by rewrite H. Qed.
(* the sync job of caller c has been run, or is still in the queue or in a runner's hand *)
Definition sbp (s : state) (c : nat) : bool := sresb s c || posb (nsb c s).
Lemma sbp_true s c : sbp s c = true <-> sresb s c = true \/ nsb c s > 0.
Proof. unfold sbp. by rewrite orb_true_iff, posb_true. Qed.
Lemma sb_ok_sbp s c st : sb_ok s c st = negb (posb (cntf is_sbwait st)) || sbp s c.
Proof. unfold sb_ok, sbp. by rewrite orb_assoc. Qed.
Lemma sb_keep s s' c old new : cntf is_sbwait new <= cntf is_sbwait old -> (sbp s c = true -> sbp s' c = true) ->
  sb_ok s c old = true -> sb_ok s' c new = true.
Proof.
  rewrite !sb_ok_sbp, !orb_true_iff, !negb_true_iff. intros Hn Hp [H|H]; [left|right; by apply Hp].
  destruct (cntf is_sbwait old); [|done]. by assert (cntf is_sbwait new = 0) as -> by lia.
Qed.
Lemma sresb_ins_ne (s s' : state) c c0 b : sress s' = <[c0 := b]> (sress s) -> c <> c0 -> sresb s' c = sresb s c.
Proof. intros H Hne. unfold sresb. by rewrite H, list_lookup_insert_ne. Qed.
Lemma sresb_ins_eq (s s' : state) c b : sress s' = <[c := b]> (sress s) -> c < length (stacks s) -> sresb s' c = b.
Proof. intros H Hlt. unfold sresb. rewrite H, list_lookup_insert; [done|]. unfold sress. rewrite fmap_length. unfold stacks in Hlt. by rewrite fmap_length in Hlt. Qed.
(* only sync_background's push puts the waiting frame on the stack, together with the job it waits for *)
Lemma sbwait_arm s a l : cntf is_sbwait (arm_new s a l) <= cntf is_sbwait (arm_old l) \/ exists op tk, arm_jobs s a l = jobs s ++ [JSync op a tk].
Proof.
  destruct l; try destruct k; cbn; rewrite ?cntf_app, ?cntf_opt_wake, ?cntf_fired_frames, ?cntf_cont_fr by done; cbn; first [left; lia|right; by eauto].
Qed.

Section Pres4.
  Context (T : ftables).
  Lemma step_sbp s a s' c : c < length (stacks s) -> step T s a = Some s' -> sbp s c = true -> sbp s' c = true.
  Proof.
    intros Hlt (l & r & Hst & Hs' & Hg & He)%step_arm. rewrite !sbp_true. unfold nsb. rewrite (e_jobs _ _ _ _ _ He).
    pose proof (np_arm (sbf c) s s' a l r Hst Hs') as U. pose proof (e_sress _ _ _ _ _ He) as Hsr. clear He Hst Hs'.
    set (n := np (sbf c) s') in *. clearbody n.
    destruct l; try destruct k; cbn [arm_old arm_new arm_jobs arm_sress arm_guard app] in *.
    all: cbn [cntf sbf sbj ret_ready ret_pending] in U; rewrite ?cntf_app, ?cntf_opt_wake, ?cntf_fired_frames, ?cntf_cont_fr in U by done;
         cbn [cntf sbf sbj] in U.
    (* no job moves, no flag is written *)
    all: try (rewrite (sresb_sress s s' c Hsr); intros [?|?]; [by left|right; lia]).
    all: try (lazymatch type of Hg with _ /\ jobs _ = _ => destruct Hg as [_ Hj]; rewrite Hj end).
    all: rewrite ?cntb_app; cbn [cntb sbj].
    all: repeat match goal with H : context [sbj ?c ?j] |- _ => destruct (sbj c j) end.
    (* the flag of c: untouched, set when its job has run, cleared when it pushes its job *)
    all: lazymatch type of Hsr with
         | _ = <[?c0 := true]> _ => destruct (decide (c = c0)) as [->|Hne]; [left; by apply (sresb_ins_eq s s')|rewrite (sresb_ins_ne s s' c c0 true Hsr Hne)]
         | _ = <[?c0 := false]> _ => destruct (decide (c = c0)) as [->|Hne]; [right; rewrite bool_decide_true by done; lia|rewrite (sresb_ins_ne s s' c c0 false Hsr Hne)]
         | _ => rewrite (sresb_sress s s' c Hsr) end.
    all: intros [?|?]; [by left|right; repeat case_bool_decide; simplify_eq; lia].
  Qed.

  Lemma step_task_sb s a s' :
    (forall c st, stacks s !! c = Some st -> sb_ok s c st = true) ->
    step T s a = Some s' -> forall c st, stacks s' !! c = Some st -> sb_ok s' c st = true.
  Proof.
    intros I4 Hstep.
    assert (Hsbp : forall c st, stacks s !! c = Some st -> sbp s c = true -> sbp s' c = true).
    { intros c st Hc. apply (step_sbp s a s' c); [by eapply lookup_lt_Some|done]. }
    apply step_arm in Hstep as (l & r & Hst & Hs' & _ & He).
    apply (stacks_update (fun s c st => sb_ok s c st = true) s s' a _ _ Hst Hs'); [ | |exact I4].
    - destruct (sbwait_arm s a l) as [Hle|(op & tk & Hj)].
      + apply (sb_keep s s' a (arm_old l ++ r)); [rewrite !cntf_app; lia|exact (Hsbp a _ Hst)|exact (I4 a _ Hst)].
      + unfold sb_ok. apply orb_true_iff. right. apply posb_true. unfold nsb.
        rewrite (e_jobs _ _ _ _ _ He), Hj, cntb_app. cbn. rewrite bool_decide_true by done. lia.
    - intros c st _ Hc. apply sb_keep; [done|exact (Hsbp c st Hc)].
  Qed.
End Pres4.

Lemma init_task scripts npool nev : Inv_task (init scripts npool nev).
Proof.
  split.
  - intros c st Hc. by destruct (init_stacks _ _ _ _ _ Hc) as [->|[sc ->]].
  - intros c st Hc. by destruct (init_stacks _ _ _ _ _ Hc) as [->|[sc ->]].
  - apply init_rn.
  - intros f Hf. cbn in Hf. lia.
Qed.
Lemma step_task T s a s' : Inv_own s -> Inv_fut s -> Inv_op s -> Inv_task s -> step T s a = Some s' -> Inv_task s'.
Proof.
  intros HO HF HP [Itw Isb Irn Isig] Hs. split.
  - by eapply step_task_tw.
  - by eapply step_task_sb.
  - by eapply step_task_rn.
  - by eapply step_task_sig.
Qed.
