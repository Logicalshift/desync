(* C06: the wake invariant across the runner's own steps that change what the invariant looks at *)
From stdpp Require Import list numbers option.
From RecordUpdate Require Import RecordUpdate.
From L2 Require Import Model Base Arm Own Jobs Shape DwInv Wake WakeInv WakeLem.
#[global] Unset Lia Cache.

Section Steps.
  Context (T : ftables) (HT : own_cond T) (HC : jobs_cond T) (HW : wake_cond T).

  (* the runner gives the queue up: state := Idle, then reschedule_queue *)
  Lemma ws_release_idle s s' a old r : Inv_own s -> Inv_wake s -> stacks s !! a = Some (old ++ r) -> cntf marker old >= 1 ->
    stacks s' = <[a := [FRQ1] ++ r]> (stacks s) -> s'.(qs) = Idle -> s'.(jobs) = s.(jobs) -> Inv_wake s'.
  Proof.
    intros HO HI Hst Hm Hs Eq Ej. split.
    - eapply (frames_runner_arm s s' a _ _ r HO Hst Hm Hs). by intros fr ->%elem_of_list_singleton.
    - unfold queue_ok. rewrite Eq, Ej. destruct (jobs s); [done|].
      assert (posb (np is_rq1 s') = true) as ->; [|done].
      apply posb_true, np_pos_fsat. exists a, FRQ1. split; [|done]. eapply fsat_new; [exact Hst|exact Hs|left].
  Qed.

  (* the runner's step leaves the queue owned, and its new frames are satisfied *)
  Lemma ws_runner s s' a old new r : Inv_own s -> stacks s !! a = Some (old ++ r) -> cntf marker old >= 1 ->
    stacks s' = <[a := new ++ r]> (stacks s) -> s'.(qs) = s.(qs) -> (forall fr, fr ∈ new -> frame_ok s' a fr = true) -> Inv_wake s'.
  Proof.
    intros HO Hst Hm Hs Eq Hnew. split; [by eapply frames_runner_arm|].
    apply queue_ok_owned. rewrite Eq. apply (runner_owned s a _ HO Hst). rewrite cntf_app. lia.
  Qed.

  (* drain_queue: a job is taken and polled with a fresh DrainWaker *)
  Lemma ws_dqdeq s s' a f j js r : astep T s a (ADQdeqJob f j js) r s' -> Inv_own s -> Inv_wake s'.
  Proof.
    intros A HO. astep_open A. eapply (ws_runner s s' a _ _ r HO Hst ltac:(cbn; lia) Hs Eq).
    intros fr ->%elem_of_list_singleton. cbn. by apply bool_decide_eq_true.
  Qed.

  (* signal from inside a job: the future's waker (if any) is called on this thread *)
  Lemma ws_signal s s' a op f l w k r : astep T s a (AJobSignal op f l w k) r s' -> Inv_own s -> Inv_wake s -> Inv_wake s'.
  Proof.
    intros A HO HI. astep_open A. eapply (ws_runner s s' a _ _ r HO Hst ltac:(cbn; lia) Hs Eq).
    intros fr [Hin| ->%elem_of_list_singleton]%elem_of_app.
    - destruct (fwaker (getf s f)); [apply elem_of_list_singleton in Hin as ->; done|by apply elem_of_nil in Hin].
    - exact (top_ok s a _ _ HI Hst).
  Qed.
  (* the slot job of future_sync sends queue_ready: the receiver's wakers are called on this thread *)
  Lemma ws_send_ready s s' a op e l w k r : astep T s a (AJobSend op e l w k) r s' -> Inv_own s -> Inv_wake s -> Inv_wake s'.
  Proof.
    intros A HO HI. astep_open A. eapply (ws_runner s s' a _ _ r HO Hst ltac:(cbn; lia) Hs Eq).
    intros fr [Hin| ->%elem_of_list_singleton]%elem_of_app.
    - unfold fired_frames, wake_frames in Hin. by apply elem_of_list_fmap in Hin as (w0 & -> & _).
    - exact (top_ok s a _ _ HI Hst).
  Qed.

  (* drain_queue parks the queue: the state write, then wake_with of the waker that leads back to the queue *)
  Lemma ws_dq_park s s' a fr0 d w r : Inv_own s -> Inv_wake s -> stacks s !! a = Some ([fr0] ++ r) -> marker fr0 = true ->
    match hsusp s with Some e => gd s e d | None => false end = true ->
    stacks s' = <[a := [FWakeWith d w] ++ r]> (stacks s) -> effw s' w = true ->
    (exists f, s'.(qs) = WaitingForWake \/ s'.(qs) = WaitingForPoll f) -> s'.(jobs) = s.(jobs) -> s'.(evs) = s.(evs) -> s'.(dws) = s.(dws) -> Inv_wake s'.
  Proof.
    intros HO HI Hst Hm Hok Hs Hew (f & Hq) Ej Eev Edw. split.
    - eapply (frames_runner_arm s s' a _ _ r HO Hst ltac:(cbn; rewrite Hm; lia) Hs). by intros fr ->%elem_of_list_singleton.
    - assert (match hsusp s with Some e => cover s' e | None => false end = true) as Hc.
      { destruct (hsusp s) as [e|]; [|done]. apply cover_iff. right; right. exists a, d, w.
        split; [eapply fsat_new; [exact Hst|exact Hs|left]|]. split; [done|].
        eapply (gd_np s s'); [done|done| |exact Hok]. eapply np_mono; [exact Hst|exact Hs|]. cbn. destruct fr0; try done; lia. }
      unfold queue_ok. rewrite (hsusp_jobs _ _ Ej). destruct Hq as [-> | ->]; destruct (hsusp s); try done. by rewrite Hc.
  Qed.

  (* a job poll finds its event unfired: the context waker is registered and the poll returns Pending *)
  Lemma ws_register s s' a j w k e r : Inv_own s -> Inv_wake s -> stacks s !! a = Some ([FJob j w k] ++ r) -> susp j = Some e ->
    stacks s' = <[a := [ret_pending k j] ++ r]> (stacks s) -> s'.(qs) = s.(qs) -> unfreg s' e w = true -> Inv_wake s'.
  Proof.
    intros HO HI Hst Hsj Hs Eq Hu. pose proof (top_ok s a _ _ HI Hst) as Hok. cbn in Hok. apply bool_decide_eq_true in Hok. subst w.
    eapply (ws_runner s s' a _ _ r HO Hst ltac:(cbn; lia) Hs Eq). intros fr ->%elem_of_list_singleton.
    destruct k; cbn in *; rewrite Hsj.
    - unfold gq. by rewrite Hu, orb_true_r.
    - unfold gt. by rewrite Hu, orb_true_r.
    - unfold gd. by rewrite Hu.
  Qed.
End Steps.
