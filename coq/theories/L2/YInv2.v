(* C08 (5): the second part of the future_sync invariant, used for the terminal-state theorem:
   every oneshot cell belongs to a call; while the done cell of a call is unfired its SyncFuture frame exists; the slot job of a
   call has been pushed or is about to be; an operation that finished has an id below nextop, and if it is a slot job its
   queue_ready cell is fired *)
From stdpp Require Import list numbers option.
From RecordUpdate Require Import RecordUpdate.
From L2 Require Import Model Base Own Jobs Fut Sig Wake WakeInv WakeLem YDefs YMono YStep1 YStep2 YStep3.
#[global] Unset Lia Cache.

Record Inv_y2 (nev : nat) (s : state) : Prop := {
  y2_cover : forall e, nev <= e < length s.(evs) -> exists o f r, (o, f, r) ∈ Ys s /\ (e = r \/ e = S r);
  y2_fy : forall t, t ∈ Ys s -> ~ firedP s (S t.2) -> exists c fr, fsat s c fr /\ isfy t fr;
  y2_push : forall o f r, (o, f, r) ∈ Ys s -> GPush o ∈ s.(log) \/ exists c fr, fsat s c fr /\ isfd1 o fr;
  y2_fin : forall o, GFinish o ∈ s.(log) -> o < s.(nextop) /\ forall f r, (o, f, r) ∈ Ys s -> firedP s r;
}.

Lemma step_y2_cover nev T s a s' : Inv_y nev s -> Inv_y2 nev s -> step T s a = Some s' ->
  forall e, nev <= e < length s'.(evs) -> exists o f r, (o, f, r) ∈ Ys s' /\ (e = r \/ e = S r).
Proof.
  intros HY H2 Hstep e He. destruct (step_ys T _ _ _ Hstep) as [[-> El]|(-> & _ & _ & El)].
  - rewrite El in He. by apply (y2_cover _ _ H2).
  - destruct (decide (e < length (evs s))) as [Hlt|Hge].
    + destruct (y2_cover _ _ H2 e ltac:(lia)) as (o & f & r & Ht & Hr). exists o, f, r. split; [by right|done].
    + eexists _, _, _. split; [left|]. lia.
Qed.

Lemma frame_persist (P : frame -> Prop) (Q : Prop) s s' a fr0 rest new : stacks s !! a = Some (fr0 :: rest) -> stacks s' = <[a := new]> (stacks s) ->
  (forall fr, fr ∈ rest -> P fr -> fr ∈ new) -> (P fr0 -> Q \/ exists fr', fr' ∈ new /\ P fr') ->
  (exists c fr, fsat s c fr /\ P fr) -> Q \/ exists c fr, fsat s' c fr /\ P fr.
Proof.
  intros Ha Hs Hrest Htop (c & fr & (st & Hc & Hin) & HP). destruct (decide (c = a)) as [->|Hne].
  - rewrite Ha in Hc. injection Hc as <-. apply elem_of_cons in Hin as [->|Hin].
    + destruct (Htop HP) as [?|(fr' & Hin' & HP')]; [by left|right]. exists a, fr'. split; [by eapply fsat_new|done].
    + right. exists a, fr. split; [|done]. eapply fsat_new; [exact Ha|exact Hs|by apply Hrest].
  - right. exists c, fr. split; [|done]. exists st. split; [|done]. by rewrite Hs, list_lookup_insert_ne.
Qed.

Section S2.
  Context (nev : nat) (T : ftables).
  Lemma step_y2_fy s a s' : Inv_fut s -> Inv_sig s -> Inv_y nev s -> Inv_y2 nev s -> step T s a = Some s' ->
    forall t, t ∈ Ys s' -> ~ firedP s' (S t.2) -> exists c fr, fsat s' c fr /\ isfy t fr.
  Proof.
    intros HF HS HY H2 Hstep t Ht Hn. pose proof (step_ext T _ _ _ Hstep) as X.
    destruct (step_yeff T _ _ _ Hstep) as (fr0 & rest & Hst & Heff).
    destruct (yeff_frames _ _ _ _ _ Heff) as (new & Hs & Hrest & Htop & _ & Hnew).
    destruct (Hnew t Ht) as [Ht0|(x & _ & Hx & Hy & _)]; [|exists a, x; split; [by eapply fsat_new|done] ].
    assert (Hn0 : ~ firedP s (S t.2)).
    { intros Hq. apply Hn, (x_fired _ _ X); [|done]. destruct t as [[? ?] r]. destruct (y_rng _ _ HY _ _ _ Ht0) as (_ & _ & _ & ?). cbn. lia. }
    destruct (frame_persist (isfy t) (firedP s' (S t.2)) s s' a _ _ _ Hst Hs) as [?|?]; [|exact (Htop t)|exact (y2_fy _ _ H2 t Ht0 Hn0)|done..].
    (* a SyncFuture frame is not the continuation of a poll that returns Ready *)
    intros x Hx Hy. destruct (Hrest x Hx) as [?|(f & v & r & Hp & Hr & -> & Hpop)]; [done|].
    destruct (isfy_inv _ _ Hy) as (pc & yc & stc & uc & ->).
    destruct pc; try (cbn in Hpop; by apply (f_equal length) in Hpop; cbn in Hpop; lia).
    destruct (sf_ready_contra nev s a _ _ _ _ _ _ _ HF HS HY Hst Hp Hr).
  Qed.

  Lemma step_y2_push s a s' : Inv_y nev s -> Inv_y2 nev s -> step T s a = Some s' ->
    forall o f r, (o, f, r) ∈ Ys s' -> GPush o ∈ s'.(log) \/ exists c fr, fsat s' c fr /\ isfd1 o fr.
  Proof.
    intros HY H2 Hstep o f r Ht. pose proof (step_ext T _ _ _ Hstep) as X.
    destruct (step_yeff T _ _ _ Hstep) as (fr0 & rest & Hst & Heff).
    destruct (yeff_frames _ _ _ _ _ Heff) as (new & Hs & Hrest & _ & Htop & Hnew).
    destruct (Hnew _ Ht) as [Ht0|(_ & d & _ & _ & Hd & Hy)]; [|right; exists a, d; split; [by eapply fsat_new|done] ].
    destruct (y2_push _ _ H2 _ _ _ Ht0) as [Hp|Hfr]; [left; by apply (x_log _ _ X)|].
    apply (frame_persist (isfd1 o) _ s s' a _ _ _ Hst Hs); [|intros Ho; left; by apply Htop|done].
    intros x Hx Hy. destruct (Hrest x Hx) as [?|(f' & v & r' & _ & _ & -> & Hpop)]; [done|].
    destruct x; try done. cbn in Hpop. apply (f_equal length) in Hpop. cbn in Hpop. lia.
  Qed.

  Lemma step_y2_fin s a s' : Inv_y nev s -> Inv_y2 nev s -> step T s a = Some s' ->
    forall o, GFinish o ∈ s'.(log) -> o < s'.(nextop) /\ forall f r, (o, f, r) ∈ Ys s' -> firedP s' r.
  Proof.
    intros HY H2 Hstep o Hin. pose proof (step_ext T _ _ _ Hstep) as X.
    assert (Hfi : forall f r, (o, f, r) ∈ Ys s -> firedP s r -> firedP s' r).
    { intros f r Ht. apply (x_fired _ _ X). destruct (y_rng _ _ HY _ _ _ Ht) as (_ & _ & _ & ?). lia. }
    assert (Hnew : o < nextop s -> forall f r, (o, f, r) ∈ Ys s' -> (o, f, r) ∈ Ys s).
    { intros Ho f r Ht. destruct (x_new _ _ X _ Ht) as [?|[? _]]; [done|cbn in *; lia]. }
    assert (Hold : GFinish o ∈ log s -> o < nextop s' /\ forall f r, (o, f, r) ∈ Ys s' -> firedP s' r).
    { intros Hi. destruct (y2_fin _ _ H2 o Hi) as [Ho Hf]. split; [pose proof (x_nop _ _ X); lia|]. intros f r Ht%Hnew; [|done]. eauto. }
    destruct (step_yeff T _ _ _ Hstep) as (fr0 & rest & Hst & Heff).
    pose proof (y_frames _ _ HY a _ _ Hst (elem_of_list_here _ _)) as Hj.
    destruct Heff as [? new lg ? _ _ El Hl _ _ Hn _ _ _|? F lg k Hfs| |? ? ? ? ? ? ? Hm _].
    - (* a quiet step *) rewrite El in Hin. apply elem_of_app in Hin as [Hin|?]; [|by apply Hold].
      assert (Hop : o < nextop s /\ forall f r, (o, f, r) ∈ Ys s -> firedP s r); [|destruct Hop as [Ho Hf]; split; [lia|intros f r Ht%Hnew; eauto] ].
      destruct Hl as [| | | |op w k|? op Hno|? op ? ? Hno _| |]; rewrite ?elem_of_cons, elem_of_nil in Hin; decompose [or] Hin; try done.
      all: match goal with E : GFinish _ = GFinish _ |- _ => injection E as -> end.
      + (* a future job finishes *) destruct Hj as [Ho [Hs _] ]. split; [done|]. intros f2 r2 Ht. by destruct (Hs _ _ Ht) as [?|[_ [? _] ] ].
      + (* another operation runs *) destruct (Hno _ _ Hj) as [Ho Hy]. split; [done|]. intros f2 r2 Ht. by destruct (Hy f2 r2).
      + (* ... and takes a result *) destruct (Hno _ _ Hj) as (Ho & Hy & _). split; [done|]. intros f2 r2 Ht. by destruct (Hy f2 r2).
    - (* a cell is fired *) apply Hold. destruct Hfs; [done..|by apply elem_of_cons in Hin as [?|?] ].
    - (* future_sync *) apply Hold. by apply elem_of_cons in Hin as [?|?].
    - (* an event of the user future *) apply Hold. apply elem_of_cons in Hin as [<-|?]; [by inversion Hm|done].
  Qed.
End S2.

Lemma step_y2 nev T s a s' : Inv_fut s -> Inv_sig s -> Inv_y nev s -> Inv_y2 nev s -> step T s a = Some s' -> Inv_y2 nev s'.
Proof.
  intros HF HS HY H2 Hstep. split.
  - exact (step_y2_cover nev T s a s' HY H2 Hstep).
  - exact (step_y2_fy nev T s a s' HF HS HY H2 Hstep).
  - exact (step_y2_push nev T s a s' HY H2 Hstep).
  - exact (step_y2_fin nev T s a s' HY H2 Hstep).
Qed.
Lemma init_y2 nev scripts npool : Inv_y2 nev (init scripts npool nev).
Proof.
  split; cbn.
  - intros e. rewrite replicate_length. lia.
  - intros t H. by apply elem_of_nil in H.
  - intros o f r H. by apply elem_of_nil in H.
  - intros o H. by apply elem_of_nil in H.
Qed.
