(* C08: preservation of the per-call clauses of Inv_y and of the ghost-log clause *)
From stdpp Require Import list numbers option.
From RecordUpdate Require Import RecordUpdate.
From L2 Require Import Model Base Own Jobs Fut Sig YDefs YMono YStep1 YStep2.
#[global] Unset Lia Cache.

Lemma wbn_keep l new o : wbn l = Some (Some o) -> wbn (new ++ l) <> None -> GFinish o ∉ new -> wbn (new ++ l) = Some (Some o).
Proof.
  intros Hl. induction new as [|e new IH]; cbn; [done|]. intros Hn Hf.
  destruct (wbn (new ++ l)) as [cur|] eqn:E; [|done]. cbn in Hn |- *.
  assert (Ec : Some cur = Some (Some o)) by (apply IH; [done|intros H; apply Hf; by right]). injection Ec as ->.
  destruct e; cbn in Hn |- *; try done. destruct (decide (o0 = o)) as [->|?]; [|done]. exfalso. apply Hf. left.
Qed.
Lemma logall_app P new l : logall P (new ++ l) <-> (forall l2 e l1, new = l2 ++ e :: l1 -> P e (l1 ++ l)) /\ logall P l.
Proof.
  induction new as [|x new IH]; cbn.
  - split; [intros H; split; [intros l2 e l1 E; by destruct l2|done]|tauto].
  - rewrite IH. split.
    + intros (H1 & H2 & H3). split; [|done]. intros l2 e l1 E. destruct l2 as [|y l2]; cbn in E; injection E as -> ->; [done|by eapply H2].
    + intros (H1 & H2). split; [apply (H1 []); done|]. split; [|done]. intros l2 e l1 ->. by apply (H1 (x :: l2)).
Qed.

(* the per-call clauses and the ghost-log clause of Inv_y *)
Definition ycalls (s : state) : Prop :=
  (forall o f r, (o, f, r) ∈ Ys s -> firedP s r -> ~ firedP s (S r) -> wbn s.(log) = Some (Some o)) /\
  (forall o f r v, (o, f, r) ∈ Ys s -> GSig f v ∈ s.(log) -> v = o /\ firedP s (S r)) /\
  (forall o f r, (o, f, r) ∈ Ys s -> firedP s (S r) -> udone o s.(log)) /\
  (forall f v, GSig f v ∈ s.(log) -> f < length s.(futs)) /\
  logall evok s.(log).

(* steps that fire no cell and create no call: what each event they log needs *)
Definition evcond (s : state) (e : gev) : Prop :=
  match e with
  | GFinish o => forall f r, (o, f, r) ∈ Ys s -> firedP s (S r)
  | GSig f v => f < length s.(futs) /\ forall o r, (o, f, r) ∈ Ys s -> v = o /\ firedP s (S r)
  | GUStart o => forall f r, (o, f, r) ∈ Ys s -> ~ firedP s (S r)
  | _ => True
  end.
Lemma state_clauses_log nev s s' new : Inv_y nev s -> ext s s' -> Ys s' = Ys s -> fsame s s' -> s'.(log) = new ++ s.(log) ->
  wbn s'.(log) <> None -> Forall (evcond s) new -> logall evok (new ++ s.(log)) ->
  ycalls s'.
Proof.
  intros HY X EY Hfs El Hw Hc C4. rewrite El in Hw. unfold ycalls. rewrite EY, El. rewrite list.Forall_forall in Hc.
  assert (Hup : forall o f r, (o, f, r) ∈ Ys s -> forall k, k < 2 -> firedP s (r + k) -> firedP s' (r + k)).
  { intros o f r Ht k Hk. apply (x_fired _ _ X). destruct (y_rng _ _ HY _ _ _ Ht) as (_ & _ & _ & ?). lia. }
  split; [|split; [|split; [|split; [|done] ] ] ].
  - intros o f r Ht H1 H2. apply wbn_keep; [|done|].
    + apply (y_t1 _ _ HY _ _ _ Ht); [by apply Hfs|]. intros H. apply H2. replace (S r) with (r + 1) in * by lia. eapply Hup; [exact Ht|lia|done].
    + intros Hin. apply H2. replace (S r) with (r + 1) by lia. eapply Hup; [exact Ht|lia|]. replace (r + 1) with (S r) by lia. by eapply (Hc _ Hin).
  - intros o f r v Ht [Hin|Hin]%elem_of_app.
    + destruct (proj2 (Hc _ Hin) _ _ Ht) as [-> H]. split; [done|]. replace (S r) with (r + 1) in * by lia. eapply Hup; [exact Ht|lia|done].
    + destruct (y_t2 _ _ HY _ _ _ _ Ht Hin) as [-> H]. split; [done|]. replace (S r) with (r + 1) in * by lia. eapply Hup; [exact Ht|lia|done].
  - intros o f r Ht Hf. apply Hfs in Hf. destruct (y_t3 _ _ HY _ _ _ Ht Hf) as [H1 H2]. split.
    + destruct H1; [left|right]; apply elem_of_app; by right.
    + intros [Hin|Hin]%elem_of_app; [by destruct (Hc _ Hin _ _ Ht)|]. destruct (H2 Hin); [left|right]; apply elem_of_app; by right.
  - intros f v [Hin|Hin]%elem_of_app; pose proof (x_futs _ _ X); [pose proof (proj1 (Hc _ Hin))|pose proof (y_sigr _ _ HY _ _ Hin)]; lia.
Qed.

Lemma slot_job_end nev s op : jobok nev s (JFut op Waiting []) -> forall f r, (op, f, r) ∈ Ys s -> firedP s (S r).
Proof. intros [_ [H2 _]] f r Ht. by destruct (H2 _ _ Ht) as [E|[_ [_ [E|[Hf _]]]]]; try discriminate E. Qed.
Lemma evok_finish_fut nev s op : Inv_y nev s -> jobok nev s (JFut op Waiting []) -> evok (GFinish op) s.(log).
Proof.
  intros HY Hj f r Hg. apply ynews_in in Hg. apply (y_t3 _ _ HY _ _ _ Hg). by eapply slot_job_end.
Qed.
Lemma evok_sig nev s op f l : Inv_y nev s -> jobok nev s (JFut op Waiting (PSignal f :: l)) -> evok (GSig f op) s.(log).
Proof.
  intros HY Hj o r Hg. apply ynews_in in Hg. destruct (slot_job_sig nev s op f l HY Hj o r Hg) as (-> & _ & Hf).
  split; [done|]. by apply (y_t3 _ _ HY _ _ _ Hg).
Qed.
(* a poll that takes the result of f: the frame below is the await / drop loop of f, never a SyncFuture still waiting for the queue *)
Lemma evok_resolve_poll nev s a fr rest f v : Inv_fut s -> Inv_sig s -> Inv_y nev s -> stacks s !! a = Some (fr :: rest) ->
  pollfam fr = Some f -> (getf s f).(res) = FSome v -> evok (GResolve f v) s.(log).
Proof.
  intros HF HS HY Hst Hp Hr o r Hg. apply ynews_in in Hg.
  pose proof (if_poll _ HF _ _ Hst) as Hpo. cbn [pollall] in Hpo. apply andb_true_iff in Hpo as [Ha _]. unfold adjok in Ha. rewrite Hp in Ha.
  destruct rest as [|y rest]; [done|]. pose proof (y_frames _ _ HY a _ y Hst ltac:(right; left)) as Hy.
  destruct y; try done; cbn in Ha, Hy.
  - apply bool_decide_eq_true in Ha as ->. by eapply (proj2 Hy).
  - apply bool_decide_eq_true in Ha as ->. by eapply (proj2 Hy).
  - destruct pc; try done. apply bool_decide_eq_true in Ha. destruct Hy as (H1 & H2 & _). exfalso. apply H2.
    pose proof (triple_eq nev s _ _ HY Hg H1 ltac:(cbn; auto)) as [= -> _ ->].
    apply (is_cell _ HS) in Hr. apply has_sig_in in Hr. rewrite <- Ha in Hr. by destruct (y_t2 _ _ HY _ _ _ _ H1 Hr).
Qed.
(* a SyncFuture that still waits for the queue never sees its SchedulerFuture Ready *)
Lemma sf_ready_contra nev s a fr f v yc stc uc rc : Inv_fut s -> Inv_sig s -> Inv_y nev s ->
  stacks s !! a = Some (fr :: FY YPsfret yc stc uc :: rc) -> pollfam fr = Some f -> (getf s f).(res) = FSome v -> False.
Proof.
  intros HF HS HY Hst Hp Hr.
  pose proof (if_poll _ HF _ _ Hst) as Hpo. cbn [pollall] in Hpo. apply andb_true_iff in Hpo as [Ha _]. unfold adjok in Ha. rewrite Hp in Ha.
  cbn in Ha. apply bool_decide_eq_true in Ha.
  destruct (y_frames _ _ HY a _ _ Hst ltac:(right; left)) as (H1 & H2 & _). apply H2.
  apply (is_cell _ HS) in Hr. apply has_sig_in in Hr. rewrite <- Ha in Hr. by destruct (y_t2 _ _ HY _ _ _ _ H1 Hr).
Qed.
Lemma evok_ustart nev s pc y b u : Inv_y nev s -> yfrok nev s pc y (YQueue b) u -> firedP s y.(y_r) -> evok (GUStart y.(y_op)) s.(log).
Proof.
  intros HY (H1 & H2 & H3 & H4 & _) Hf. split; [eexists _, _; by apply ynews_in|]. split; [by eapply (y_t1 _ _ HY)|].
  split; [|done]. intros H. by apply H4 in H.
Qed.
Lemma evok_urun nev s pc y st u : Inv_y nev s -> yfrok nev s pc y st u -> isYF st -> pc <> YPfin -> pc <> YPdrop2 ->
  ycall y.(y_op) s.(log) /\ urun y.(y_op) s.(log).
Proof.
  intros HY (H1 & H2 & H3 & H4 & H5 & H6 & H7 & _) Hy N1 N2. split; [eexists _, _; by apply ynews_in|].
  split; [eapply (y_t1 _ _ HY); [exact H1|by apply H7|done]|]. split; [by apply H4|]. split; [intros H; by apply H5 in H|].
  split; [|done]. intros H. by apply H6 in H as [? _].
Qed.
Lemma wbn_drops new l : (forall e, e ∈ new -> exists o, e = GYdrop o) -> wbn (new ++ l) = wbn l.
Proof.
  induction new as [|e new IH]; intros H; cbn; [done|]. rewrite IH by (intros e' He; apply H; by right).
  destruct (H e ltac:(left)) as [o ->]. by destruct (wbn l).
Qed.

Lemma state_clauses_fire nev s s' F new : Inv_y nev s -> ext s s' -> Ys s' = Ys s -> (forall e, firedP s' e <-> firedP s e \/ e = F) ->
  s'.(log) = new ++ s.(log) -> (forall e, e ∈ new -> exists o, e = GYdrop o) ->
  (forall o f, (o, f, F) ∈ Ys s -> wbn s.(log) = Some (Some o)) ->
  (forall o f r, (o, f, r) ∈ Ys s -> S r = F -> udone o (new ++ s.(log))) ->
  logall evok (new ++ s.(log)) ->
  ycalls s'.
Proof.
  intros HY X EY Hf El Hnew C1 C3 C4. unfold ycalls. rewrite EY, El. rewrite (wbn_drops new _ Hnew).
  assert (Hsig : forall f v, GSig f v ∈ new ++ log s -> GSig f v ∈ log s).
  { intros f v [Hin|Hin]%elem_of_app; [|done]. by destruct (Hnew _ Hin). }
  split; [|split; [|split; [|split; [|done] ] ] ].
  - intros o f r Ht H1 H2. apply Hf in H1 as [H1| ->]; [|by eapply C1].
    apply (y_t1 _ _ HY _ _ _ Ht H1). intros H. apply H2, Hf. by left.
  - intros o f r v Ht Hin%Hsig. destruct (y_t2 _ _ HY _ _ _ _ Ht Hin) as [-> H]. split; [done|]. apply Hf. by left.
  - intros o f r Ht H. apply Hf in H as [H|E]; [|by eapply C3].
    destruct (y_t3 _ _ HY _ _ _ Ht H) as [H1 H2]. split.
    + destruct H1; [left|right]; apply elem_of_app; by right.
    + intros [Hin|Hin]%elem_of_app; [by destruct (Hnew _ Hin)|]. destruct (H2 Hin); [left|right]; apply elem_of_app; by right.
  - intros f v Hin%Hsig. pose proof (x_futs _ _ X). pose proof (y_sigr _ _ HY _ _ Hin). lia.
Qed.
Lemma sig_range nev s op f l : Inv_y nev s -> jobok nev s (JFut op Waiting (PSignal f :: l)) -> f < length s.(futs).
Proof.
  intros HY [_ [H2 H3]]. destruct (ydec (Ys s) op) as [(f' & r' & Hin)|Hn].
  - destruct (H2 _ _ Hin) as [E|[_ [_ [E|[Hf [E|E]]]]]]; try discriminate E. injection E as -> ->. by destruct (y_rng _ _ HY _ _ _ Hin) as (_ & ? & _).
  - specialize (H3 Hn). inversion H3 as [|? ? Hp _]. cbn in Hp. tauto.
Qed.

Lemma polled_open s a op sc w k rest : Inv_own s -> Inv_jobs s -> stacks s !! a = Some (FJob (JFut op Waiting sc) w k :: rest) ->
  wbn s.(log) = Some (Some op).
Proof.
  intros HO HJ Hst. rewrite (ij_log _ HJ). destruct (held_runner_step s a _ rest HO Hst eq_refl) as (Hh & _). unfold inprog. by rewrite Hh.
Qed.

Lemma state_clauses_new nev s s' : Inv_y nev s -> ext s s' ->
  Ys s' = (s.(nextop), length s.(futs), length s.(evs)) :: Ys s -> s'.(evs) = s.(evs) ++ [ev_new; ev_new] ->
  s'.(log) = GYnew s.(nextop) (length s.(futs)) (length s.(evs)) :: s.(log) ->
  ycalls s'.
Proof.
  intros HY X EY Ee El. unfold ycalls. rewrite EY, El.
  assert (Hnew : forall k, k < 2 -> ~ firedP s' (length (evs s) + k)).
  { intros k Hk. unfold firedP, getev. rewrite Ee, fired_new_cell by done. done. }
  assert (Hold : forall o f r, (o, f, r) ∈ Ys s -> forall k, k < 2 -> firedP s' (r + k) <-> firedP s (r + k)).
  { intros o f r Ht k Hk. destruct (y_rng _ _ HY _ _ _ Ht) as (_ & _ & _ & ?). unfold firedP, getev. rewrite Ee, lookup_app_l by lia. done. }
  assert (Hw : wbn (GYnew (nextop s) (length (futs s)) (length (evs s)) :: log s) = wbn (log s)) by (cbn; by destruct (wbn (log s))).
  assert (Hsig : forall f v, GSig f v ∈ GYnew (nextop s) (length (futs s)) (length (evs s)) :: log s -> GSig f v ∈ log s).
  { intros f v [?|?]%elem_of_cons; done. }
  split; [|split; [|split; [|split] ] ].
  - intros o f r [[= -> -> ->]|Ht]%elem_of_cons H1 H2.
    + exfalso. apply (Hnew 0 ltac:(lia)). by rewrite Nat.add_0_r.
    + rewrite Hw. apply (y_t1 _ _ HY _ _ _ Ht).
      * pose proof (Hold _ _ _ Ht 0 ltac:(lia)) as Hz. rewrite Nat.add_0_r in Hz. by apply Hz.
      * intros H. apply H2. replace (S r) with (r + 1) in * by lia. by apply (Hold _ _ _ Ht 1 ltac:(lia)).
  - intros o f r v [[= -> -> ->]|Ht]%elem_of_cons Hin%Hsig.
    + pose proof (y_sigr _ _ HY _ _ Hin). lia.
    + destruct (y_t2 _ _ HY _ _ _ _ Ht Hin) as [-> H]. split; [done|]. replace (S r) with (r + 1) in * by lia. by apply (Hold _ _ _ Ht 1 ltac:(lia)).
  - intros o f r [[= -> -> ->]|Ht]%elem_of_cons H.
    + exfalso. apply (Hnew 1 ltac:(lia)). by replace (length (evs s) + 1) with (S (length (evs s))) by lia.
    + replace (S r) with (r + 1) in * by lia. apply (Hold _ _ _ Ht 1 ltac:(lia)) in H. replace (r + 1) with (S r) in * by lia.
      destruct (y_t3 _ _ HY _ _ _ Ht H) as [H1 H2]. split; [destruct H1; [left|right]; by right|].
      intros [?|Hs]%elem_of_cons; [done|]. destruct (H2 Hs); [left|right]; by right.
  - intros f v Hin%Hsig. pose proof (x_futs _ _ X). pose proof (y_sigr _ _ HY _ _ Hin). lia.
  - split; [done|apply (y_log _ _ HY)].
Qed.

Section ST.
  Context (nev : nat) (T : ftables).
  Lemma step_y_state s a s' : Inv_own s -> Inv_jobs s -> Inv_jobs s' -> Inv_fut s -> Inv_sig s -> Inv_y nev s -> step T s a = Some s' ->
    ycalls s'.
  Proof.
    intros HO HJ HJ' HF HS HY Hstep. pose proof (step_ext T _ _ _ Hstep) as X.
    assert (Hw : wbn (log s') <> None) by (rewrite (ij_log _ HJ'); done).
    destruct (step_yeff T _ _ _ Hstep) as (fr0 & rest & Hst & Heff).
    pose proof (y_frames _ _ HY a _ _ Hst (elem_of_list_here _ _)) as Hj. pose proof (y_log _ _ HY) as HL.
    destruct Heff as [? new lg ? _ _ El Hl _ Hev _ _ _ _|fr1 F lg1 k1 [e|op r sc w k|y st u|y st u]| |? ? ? ? ? ? ? Hm Hfi]; cbn [frok] in Hj.
    - assert (Hfs : fsame s s') by (intros e; by apply firedP_fmap).
      assert (EY : Ys s' = Ys s) by (unfold Ys; rewrite El, ynews_app; by destruct (lognew_plain _ _ _ Hl) as [-> _]).
      destruct Hl as [| | | | |? ? Hn|? ? ? ? Hn Hr|? ? ? Hp Hr|? ? Hr]; apply (state_clauses_log nev s s' _ HY X EY Hfs El Hw); cbn [app logall].
      + (* nothing is logged *) constructor.
      + done.
      + (* a push *) by repeat constructor.
      + done.
      + (* a start *) by repeat constructor.
      + done.
      + (* the slot job signals *) apply Forall_singleton. split; [by eapply sig_range|]. intros o r Ht. by destruct (slot_job_sig nev s _ _ _ HY Hj _ _ Ht) as (-> & _ & ?).
      + split; [by eapply evok_sig|done].
      + (* a future job finishes *) apply Forall_singleton. intros f r Ht. by eapply (slot_job_end nev s _ Hj).
      + split; [by eapply evok_finish_fut|done].
      + (* any other operation runs *) repeat constructor. intros f r Ht. by destruct (proj2 (Hn _ _ Hj) f r).
      + split; [|done]. intros f r [?|Hg%ynews_in]%elem_of_cons; [done|]. by destruct (proj2 (Hn _ _ Hj) f r).
      + (* ... and takes a result *) repeat constructor. intros f1 r Ht. by destruct (proj1 (proj2 (Hn _ _ Hj)) f1 r).
      + destruct (Hn _ _ Hj) as (_ & Hno & _ & Hfin). split; [|split; [|done] ].
        * intros f1 r [?|[?|Hg%ynews_in]%elem_of_cons]%elem_of_cons; [done|done|]. by destruct (Hno f1 r).
        * intros o r [?|Hg%ynews_in]%elem_of_cons; [done|]. right. by eapply Hfin.
      + (* a poll takes the result *) by repeat constructor.
      + split; [|done]. by eapply (evok_resolve_poll nev s a _ _ f v HF HS HY Hst).
      + (* SchedulerFuture::sync takes the result *) by repeat constructor.
      + split; [|done]. intros o r Hg%ynews_in. by eapply (proj2 Hj).
    - (* an external event fires *)
      eapply (state_clauses_fire nev s _ e [] HY X eq_refl); [intros ee; apply (firedP_fire (addlog s _))|reflexivity|intros ? []%elem_of_nil| | |exact HL].
      + intros o2 f2 Ht2. destruct (y_rng _ _ HY _ _ _ Ht2) as (_ & _ & ? & _). lia.
      + intros o2 f2 r2 Ht2 EE2. destruct (y_rng _ _ HY _ _ _ Ht2) as (_ & _ & ? & _). lia.
    - (* queue_ready is sent *) destruct (slot_job_ready _ _ _ _ _ Hj) as (f' & Ht & ->).
      eapply (state_clauses_fire nev s _ r [] HY X eq_refl); [intros ee; apply (firedP_fire (addlog s _))|reflexivity|intros ? []%elem_of_nil| | |exact HL].
      + intros o2 f2 Ht2. pose proof (triple_eq nev s _ _ HY Ht2 Ht ltac:(cbn; auto)) as [= -> _]. by eapply polled_open.
      + intros o2 f2 r2 Ht2 EE2. rewrite <- EE2 in Ht. by destruct (triple_cells nev s _ _ HY Ht2 Ht).
    - (* task_finished is sent *) destruct Hj as (H1 & H2 & H3 & H4 & H5 & H6 & H7 & H8 & _).
      eapply (state_clauses_fire nev s _ (S (y_r y)) [] HY X eq_refl); [intros ee; apply (firedP_fire (addlog s _))|reflexivity|intros ? []%elem_of_nil| | |exact HL].
      + intros o2 f2 Ht2. by destruct (triple_cells nev s _ _ HY H1 Ht2).
      + intros o2 f2 r2 Ht2 [= ->]. pose proof (triple_eq nev s _ _ HY Ht2 H1 ltac:(cbn; auto)) as [= -> _].
        assert (GUFinish (y_op y) ∈ log s) by (by apply H5). split; [by left|intros _; by left].
    - (* drop of task_finished *) destruct Hj as (H1 & H2 & H3 & H4 & H5 & H6 & H7 & H8 & _).
      eapply (state_clauses_fire nev s _ (S (y_r y)) [GYdrop (y_op y)] HY X eq_refl);
        [intros ee; apply (firedP_fire (addlog s [GYdrop (y_op y)]))|reflexivity|intros ? ->%elem_of_list_singleton; by eexists| | |].
      + intros o2 f2 Ht2. by destruct (triple_cells nev s _ _ HY H1 Ht2).
      + intros o2 f2 r2 Ht2 [= ->]. pose proof (triple_eq nev s _ _ HY Ht2 H1 ltac:(cbn; auto)) as [= -> _].
        split; [right; left|]. intros [?|Hs]%elem_of_cons; [done|]. right. right. apply H6. split; [done|by apply H4].
      + split; [|exact HL]. split; [eexists _, _; by apply ynews_in|]. split; [done|]. split; [intros H; by apply H5 in H|].
        intros Hs. apply H6. split; [done|by apply H4].
    - (* future_sync *) by apply (state_clauses_new nev s _ HY X).
    - (* the user future is created / polled / completes / is destroyed *)
      eapply (state_clauses_log nev s _ [ev] HY X); [unfold Ys; cbn; by destruct Hm|by intros ? ?|reflexivity|exact Hw| |split; [|exact HL] ].
      + apply Forall_singleton. destruct Hm; try exact I. intros f r Ht. destruct Hj as (H1 & H2 & _).
        by pose proof (triple_eq nev s _ _ HY Ht H1 ltac:(cbn; auto)) as [= _ ->].
      + destruct Hm; [by eapply evok_ustart; [exact HY|exact Hj|apply Hfi]|..]; by eapply (evok_urun nev s _ _ _ _ HY Hj).
  Qed.
End ST.
