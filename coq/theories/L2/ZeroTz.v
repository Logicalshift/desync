(* Zero pool: the awaiting caller (actor 0) is always going to be woken *)
From stdpp Require Import list numbers option.
From RecordUpdate Require Import RecordUpdate.
From L2 Require Import Model Base Own Jobs Shape OpShape DwInv Fut Wake WakeInv WakeLem WakeStep1 WakeStep2 WakeStep3 WakeStep4 Effect CoverStep Task TaskInv Zero ZeroInv ZeroCover.
#[global] Unset Lia Cache.

Definition awaiting (st : list frame) (f : nat) : Prop := FAwRet f ∈ st \/ FPark f ∈ st.
Definition polling2 (st : list frame) (f : nat) : Prop := exists x, x ∈ st /\ pollprog2 x = Some f.
Definition tzP (s : state) (f : nat) : Prop :=
  tokb s 0 = true \/ np (is_unpark 0) s > 0 \/ (s.(qs) = WaitingForPoll f /\ exists e, tcover s e = true).
Definition Inv_tz (s : state) : Prop := forall st0 f, stacks s !! 0 = Some st0 -> awaiting st0 f -> polling2 st0 f \/ tzP s f.

Section TZ.
  Context (T : ftables) (HT : own_cond T) (HW : wake_cond T) (HZ : zero_cond T).
  Lemma step_tzP s a s' fr rest f : Inv_own s -> Inv_dw s -> Inv_zp s ->
    (forall c st fr, stacks s !! c = Some st -> fr ∈ st -> rn2_ok s fr = true) -> Inv_zq s ->
    step T s a = Some s' -> stacks s !! a = Some (fr :: rest) -> tzP s f ->
    tzP s' f \/ (a = 0 /\ match fr with FPark _ | FSFpoll _ => True | _ => False end).
  Proof.
    intros HO HD HZP I2 [Q1 Q2] Hstep Hst Htz. destruct (step_eff _ _ _ _ Hstep) as (fr0 & rest0 & Hst0 & E).
    rewrite Hst in Hst0. injection Hst0 as <- <-.
    assert (H0 : 0 < length (stacks s)) by (apply lookup_lt_Some in Hst; lia).
    assert (Hok : ok0 fr || okf fr = true).
    { pose proof (zp_stacks _ HZP a _ Hst) as Hk. unfold stk_ok in Hk. cbn in Hk.
      destruct (bool_decide (a = 0)); apply andb_true_iff in Hk as [-> _]; by rewrite ?orb_true_r. }
    assert (Hunp : unp s 0 = true -> tzP s' f \/ (a = 0 /\ match fr with FPark _ | FSFpoll _ => True | _ => False end)).
    { intros Hu. destruct (eff_unp _ _ _ _ _ Hst E 0 H0 Hu) as [Hu'|[<- Hp]].
      - left. unfold unp in Hu'. apply orb_true_iff in Hu' as [?|?%posb_true]; [by left|by right; left].
      - right. split; [done|]. by destruct fr. }
    destruct Htz as [Ht|[Hu|(Hq & e & He)]]; [apply Hunp; unfold unp; by rewrite Ht|apply Hunp; unfold unp; apply orb_true_iff; right; by apply posb_true|].
    destruct (step_qs_zero T HT HW s a s' fr rest HO HZP I2 Q1 Hstep Hst) as (_ & _ & K3).
    destruct (K3 _ Hq) as [Hq'|[-> [f' ->]]]; [|by right]. left.
    assert (Hl : lost (WTask 0) fr = false).
    { unfold lost. destruct fr; try done. destruct k; try done. by destruct j as [|? [] [|[] ?]|]. }
    rewrite tcover_g in He. destruct (step_cover true (WTask 0) ltac:(done) T s a s' fr rest e HW HD Hstep Hst Hl He) as [He'| ->].
    - right; right. split; [done|]. exists e. by rewrite tcover_g.
    - (* the task waker is called *) right; left. step_at Hstep Hst. injection Hstep as <-.
      apply np_pos_fsat. exists a, (FUnpark 0). split; [|done]. eapply fsat_new; [exact Hst|solve_stacks|left].
  Qed.
End TZ.

Lemma await_unique st f f' : cntf opfr st <= 1 -> awaiting st f -> awaiting st f' -> f = f'.
Proof.
  induction st as [|x r IH]; [intros _ [H|H]; by apply elem_of_nil in H|].
  cbn. intros Hc H1 H2. destruct (opfr x) eqn:Ex.
  - assert (Hz : cntf opfr r = 0) by lia.
    assert (Hno : forall g, ~ awaiting r g).
    { intros g [H|H]; by pose proof (cntf_zero_all _ _ Hz _ H). }
    unfold awaiting in H1, H2. rewrite !elem_of_cons in H1, H2.
    destruct H1 as [[<-|H1]|[<-|H1]]; try (by exfalso; eapply Hno; [left + right]; exact H1);
    destruct H2 as [[E|H2]|[E|H2]]; try (by exfalso; eapply Hno; [left + right]; exact H2); congruence.
  - apply IH; [lia| |].
    + destruct H1 as [H1|H1]; apply elem_of_cons in H1 as [<-|H1]; try done; [by left|by right].
    + destruct H2 as [H2|H2]; apply elem_of_cons in H2 as [<-|H2]; try done; [by left|by right].
Qed.
Lemma poll_head_awaits x r f : pollall (x :: r) = true -> pollfam x = Some f -> forallb ok0 r = true -> exists r2, r = FAwRet f :: r2.
Proof.
  cbn. intros [H _]%andb_true_iff Hp Hk. unfold adjok in H. rewrite Hp in H. destruct r as [|y r2]; [done|].
  cbn in Hk. apply andb_true_iff in Hk as [Hy _]. destruct y; try done. cbn in H. apply bool_decide_eq_true in H as ->. by eexists.
Qed.
Lemma no_runner0 s fr rest : Inv_own s -> Inv_shape s -> Inv_zp s ->
  stacks s !! 0 = Some (fr :: rest) -> chain fr = false -> marker fr = false -> owned s.(qs) = false.
Proof.
  intros HO HS HZP Hst Hc Hm. destruct (owned (qs s)) eqn:Eo; [exfalso|done].
  pose proof (io_cnt _ HO) as Hn. rewrite Eo in Hn. cbn in Hn.
  assert (Hp : np marker s > 0) by lia. apply np_pos_fsat in Hp as (c & x & (st & Hcst & Hin) & Hx).
  pose proof (zp_stacks _ HZP c _ Hcst) as Hk. unfold stk_ok in Hk. destruct (decide (c = 0)) as [->|Hne].
  - rewrite Hst in Hcst. injection Hcst as <-. destruct (HS 0 _ Hst) as [H1 _]. cbn in H1. rewrite Hc in H1.
    apply elem_of_cons in Hin as [->|Hin]; [congruence|]. by rewrite (cntf_zero_all _ _ H1 _ Hin) in Hx.
  - rewrite bool_decide_false in Hk by done. pose proof (forallb_in _ _ _ Hk Hin) as Hf. by destruct x.
Qed.

Lemma tz_update s s' a old new : stacks s !! a = Some old -> stacks s' = <[a := new]> (stacks s) -> Inv_tz s ->
  (a <> 0 -> forall f, tzP s f -> tzP s' f) ->
  (a = 0 -> forall f, awaiting new f -> polling2 new f \/ tzP s' f \/
      (awaiting old f /\ (polling2 old f -> polling2 new f) /\ (tzP s f -> tzP s' f))) -> Inv_tz s'.
Proof.
  intros Ha Hs HI H1 H2 st0 f Hst0 Haw. rewrite Hs in Hst0. destruct (decide (a = 0)) as [->|Hne].
  - rewrite list_lookup_insert in Hst0 by (by eapply lookup_lt_Some). injection Hst0 as <-.
    destruct (H2 eq_refl f Haw) as [?|[?|(Ho & Hp & Ht)]]; [by left|by right|].
    destruct (HI _ _ Ha Ho) as [?|?]; [left; by apply Hp|right; by apply Ht].
  - rewrite list_lookup_insert_ne in Hst0 by done. destruct (HI _ _ Hst0 Haw) as [?|?]; [by left|right; by apply H1].
Qed.
Lemma awaiting_sub new old f : (forall fr, isaw fr = true -> fr ∈ new -> fr ∈ old) -> awaiting new f -> awaiting old f.
Proof. intros H [Hi|Hi]; [left|right]; by apply H. Qed.
Lemma polling_sub new old f : (forall fr, pollprog2 fr = Some f -> fr ∈ old -> exists fr', pollprog2 fr' = Some f /\ fr' ∈ new) ->
  polling2 old f -> polling2 new f.
Proof. intros H (x & Hx & Hp). destruct (H x Hp Hx) as (y & ? & ?). by exists y. Qed.
Ltac mem_split Hin :=
  rewrite ?elem_of_app, ?elem_of_cons in Hin;
  repeat match type of Hin with _ \/ _ => destruct Hin as [Hin|Hin] end.
Lemma in_opt_wake fr o : fr ∈ opt_wake o -> exists w, fr = FWake w.
Proof. destruct o; cbn; [|by intros ?%elem_of_nil]. intros ->%elem_of_list_singleton. by eexists. Qed.

Lemma awaiting_cons x r g : awaiting (x :: r) g -> x = FAwRet g \/ x = FPark g \/ awaiting r g.
Proof. intros [H|H]; apply elem_of_cons in H as [<-|H]; auto; right; right; [by left|by right]. Qed.
Lemma no_await_rest s a fr rest g : Inv_op s -> stacks s !! a = Some (fr :: rest) -> opfr fr = true -> awaiting rest g -> False.
Proof. intros HP Hst Ho [H|H]; by pose proof (op_below s a fr rest _ HP Hst Ho H). Qed.

(* the frames at which the awaiting caller starts, continues or ends a poll of its future, or parks *)
Definition tzfr (fr : frame) : bool :=
  match fr with
  | FUse _ UAwait | FAwRet _ | FPark _ | FSFpoll _ | FDQtake _ | FDQdeq _ | FDQrequeue _ _ _ | FDQtake2 _ _ | FDQstore _ _ | FDQwfp _ _
  | FDQempty1 _ | FDQempty2 _ | FJob _ _ (KDq _ _) => true
  | _ => false
  end.
Lemma succs_no_aw s a fr x : tzfr fr = false -> x ∈ succs s a fr -> isaw x = false.
Proof.
  intros Hf Hin. refine (_ (succs_forallb (fun x => negb (isaw x)) _ _ _ _ _ Hin)); [by intros ?%negb_true_iff|].
  destruct fr; try done; succs_split; done.
Qed.

Section TZ2.
  Context (T : ftables) (HT : own_cond T) (HW : wake_cond T) (HZ : zero_cond T).
  Lemma step_tz s a s' : Inv_own s -> Inv_shape s -> Inv_op s -> Inv_dw s -> Inv_fut s -> Inv_wake s -> Inv_zp s ->
    (forall c st fr, stacks s !! c = Some st -> fr ∈ st -> rn2_ok s fr = true) -> Inv_zq s -> Inv_tz s ->
    step T s a = Some s' -> Inv_tz s'.
  Proof.
    intros HO HS HP HD HF HWk HZP I2 HQ I Hstep. destruct (step_eff _ _ _ _ Hstep) as (fr & rest & Hst & E).
    pose proof (fun f => step_tzP T HT HW s a s' fr rest f HO HD HZP I2 HQ Hstep Hst) as HTZ.
    destruct (tzfr fr && bool_decide (a = 0)) eqn:Esp; cycle 1.
    { (* not a frame of tzfr, or not the caller: the frames of the caller below the top frame stay, no await frame is added, the wake-up stays pending *)
      destruct (eff_frames _ _ _ _ _ E) as (new & Hs & Hnew & Hkeep). apply (tz_update s s' a _ new Hst Hs I).
      { intros Hne f Htz. by destruct (HTZ f Htz) as [?|[? _]]. }
      intros -> f Haw. rewrite andb_true_r in Esp. right; right. split; [|split].
      - revert Haw. apply awaiting_sub. intros x Hx Hin. destruct (Hnew _ Hin) as [Hw|[Hsu|Hr]]; [by destruct x| |by right].
        by rewrite (succs_no_aw _ _ _ _ Esp Hsu) in Hx.
      - apply polling_sub. intros x Hp [->|Hin]%elem_of_cons; [exfalso; destruct fr; try done; by destruct k|].
        exists x. split; [done|]. destruct (Hkeep _ Hin) as [?|Hc]; [done|]. by destruct x.
      - intros Htz. destruct (HTZ f Htz) as [?|[_ Hf]]; [done|]. by destruct fr. }
    apply andb_true_iff in Esp as [Esp ->%bool_decide_eq_true]. clear E.
    destruct HQ as [Q1 Q2]. pose proof (io_nopanic _ HO) as Hnp.
    destruct fr; try discriminate Esp; step_at Hstep Hst.
    all: try discriminate Esp. all: try discriminate Hstep. all: injection Hstep as <-.
    all: pop_cont_split.
    all: try (match goal with k : kont |- _ => destruct k end; try discriminate Esp).
    all: pose proof (zp_stacks _ HZP 0 _ Hst) as Hk; unfold stk_ok in Hk; rewrite bool_decide_true in Hk by done; cbn [forallb ok0 andb] in Hk; try discriminate Hk.
    all: assert (Hrn := I2 0 _ _ Hst ltac:(left)); cbn in Hrn; try discriminate Hrn.
    all: try (apply bool_decide_eq_true in Hrn; match goal with E : res _ = FSome _ |- _ => rewrite Hrn in E; discriminate E end).
    all: eapply (tz_update s _ 0 _ _ Hst); [solve_stacks|exact I|done|].
    all: intros _ fz Haw.
    all: try (right; right; split; [|split];
      [ revert Haw; apply awaiting_sub; intros fr Hi Hin; mem_split Hin;
        try (apply in_opt_wake in Hin as [? Hin]); try (subst fr; discriminate Hi);
        rewrite ?elem_of_cons; auto 6
      | apply polling_sub; intros fr Hp Hin; mem_split Hin;
        [ subst fr; first [discriminate Hp | eexists; split; [|left]; exact Hp ]
        | exists fr; split; [exact Hp|rewrite ?elem_of_app, ?elem_of_cons; auto 6] ]
      | intros Htz; by destruct (HTZ fz Htz) as [?|[_ []]] ]; fail).
    - (* FUse f UAwait: the poll starts *)
      left. apply awaiting_cons in Haw as [Hi|[Hi|Haw]]; try discriminate Hi.
      apply awaiting_cons in Haw as [Hi|[Hi|Haw]]; try discriminate Hi.
      + injection Hi as <-. exists (FSFpoll f). split; [left|done].
      + exfalso. by eapply (no_await_rest s 0 _ rest fz HP Hst).
    - (* FAwRet f: about to park *)
      right; right. split; [|split].
      + apply awaiting_cons in Haw as [Hi|[Hi|Haw]]; try discriminate Hi.
        * injection Hi as <-. left. left.
        * destruct Haw; [left|right]; by right.
      + intros (x & Hx & Hp). apply elem_of_cons in Hx as [->|Hx]; [discriminate Hp|]. exists x. split; [by right|done].
      + intros Htz; by destruct (HTZ fz Htz) as [?|[_ []]].
    - (* FPark f with a token: poll again *)
      left. apply awaiting_cons in Haw as [Hi|[Hi|Haw]]; try discriminate Hi.
      apply awaiting_cons in Haw as [Hi|[Hi|Haw]]; try discriminate Hi.
      + injection Hi as <-. exists (FSFpoll f). split; [left|done].
      + exfalso. by eapply (no_await_rest s 0 _ rest fz HP Hst).
    - (* FSFpoll, PAWait: impossible for this caller *)
      exfalso. pose proof (if_poll _ HF _ _ Hst) as Hpo. destruct (poll_head_awaits _ _ f Hpo eq_refl Hk) as [r2 ->].
      destruct (HP 0 _ Hst) as [_ Hop].
      destruct (zc_poll_wait _ HZ _ _ _ E0) as [Ho|[Hw|(f' & Hne & Hq)]]; [|done|].
      + rewrite (no_runner0 s _ _ HO HS HZP Hst eq_refl eq_refl) in Ho. discriminate Ho.
      + destruct (Q2 f' Hq) as [_ (st0 & H0 & Hin)]. rewrite Hst in H0. injection H0 as <-. apply Hne.
        eapply (await_unique _ f' f Hop); [exact Hin|]. left. right. left.
    - (* FSFpoll, PADrain: the caller drains the queue itself *)
      left. pose proof (if_poll _ HF _ _ Hst) as Hpo. destruct (poll_head_awaits _ _ f Hpo eq_refl Hk) as [r2 ->].
      destruct (HP 0 _ Hst) as [_ Hop].
      assert (fz = f) as ->.
      { eapply (await_unique _ fz f Hop); [|left; right; left]. apply awaiting_cons in Haw as [Hi|[Hi|Haw]]; try discriminate Hi.
        destruct Haw; [left|right]; by right. }
      exists (FDQtake f). split; [left|done].
    - (* FSFpoll, Ready: the await frame below is popped *)
      exfalso. pose proof (if_poll _ HF _ _ Hst) as Hpo. destruct (poll_head_awaits _ _ f Hpo eq_refl Hk) as [r2 ->]. exact Hnc.
    - exfalso. destruct (HP 0 _ Hst) as [_ Hop]. cbn in Hop.
      assert (Hz : cntf opfr rc = 0) by lia. destruct Haw as [H|H]; by pose proof (cntf_zero_all _ _ Hz _ H).
    - (* FDQtake finds the result: the await frame below is popped *)
      exfalso. pose proof (if_poll _ HF _ _ Hst) as Hpo. destruct (poll_head_awaits _ _ f Hpo eq_refl Hk) as [r2 ->]. exact Hnc.
    - exfalso. destruct (HP 0 _ Hst) as [_ Hop]. cbn in Hop.
      assert (Hz : cntf opfr rc = 0) by lia. apply awaiting_cons in Haw as [Hi|[Hi|Haw]]; try discriminate Hi.
      destruct Haw as [H|H]; by pose proof (cntf_zero_all _ _ Hz _ H).
    - (* FDQwfp: the queue waits for this caller's poll; the DoubleWaker carries the task waker *)
      right; left. pose proof (if_poll _ HF _ _ Hst) as Hpo. destruct (poll_head_awaits _ _ f Hpo eq_refl Hk) as [r2 ->].
      destruct (HP 0 _ Hst) as [_ Hop].
      assert (fz = f) as ->.
      { eapply (await_unique _ fz f Hop); [|left; right; left]. apply awaiting_cons in Haw as [Hi|[Hi|Haw]]; try discriminate Hi.
        destruct Haw; [left|right]; by right. }
      right; right. split; [reflexivity|].
      pose proof (iw_frames _ HWk 0 (FDQwfp f d) ltac:(eexists; split; [exact Hst|left])) as Hok. cbn in Hok.
      destruct (hsusp s) as [e|] eqn:Eh; [|discriminate Hok]. exists e. rewrite tcover_g. apply coverg_iff. right; right.
      exists 0, d, (WDouble (length (dbl s))). split; [|split].
      + eapply fsat_new; [exact Hst|solve_stacks|left].
      + cbn. unfold dblg, getdbl. cbn. by rewrite list_lookup_middle.
      + eapply (gd_np s); [reflexivity|reflexivity| |exact Hok]. eapply np_mono; [exact Hst|solve_stacks|cnt_le].
    - (* the job signals its future *)
      right; right. split; [|split].
      + revert Haw. apply awaiting_sub. intros fr Hi Hin. apply elem_of_app in Hin as [Hin|Hin].
        * apply in_opt_wake in Hin as [? ->]. discriminate Hi.
        * apply elem_of_cons in Hin as [->|Hin]; [discriminate Hi|by right].
      + apply polling_sub. intros fr Hp Hin. apply elem_of_cons in Hin as [->|Hin].
        * eexists. split; [|apply elem_of_app; right; left]. exact Hp.
        * exists fr. split; [done|]. apply elem_of_app. right. by right.
      + intros Htz; by destruct (HTZ fz Htz) as [?|[_ []]].
  Qed.
End TZ2.
