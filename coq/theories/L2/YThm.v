(* C08 on the real queue machinery (L2): the safety theorems about future_sync, read off the invariant Inv_y *)
From stdpp Require Import list numbers option.
From RecordUpdate Require Import RecordUpdate.
From L2 Require Import Model Base Own Jobs Shape DwInv Pool Fut Sig Wake WakeInv Term YDefs YMono YStep1 YStep2 YStep3 YInv.
#[global] Unset Lia Cache.

Definition user_ev (e : gev) : option nat :=
  match e with GUStart o | GUStep o | GUFinish o | GUCancel o => Some o | _ => None end.
(* l (newest first) ends inside the slot of operation o: o has started, and nothing has started or finished since *)
Definition in_slot (o : nat) (l : list gev) : Prop :=
  exists la lb, l = la ++ GStart o :: lb /\ forall o', GStart o' ∉ la /\ GFinish o' ∉ la.

Lemma wbn_open l : forall o, wbn l = Some (Some o) -> in_slot o l.
Proof.
  induction l as [|e l IH]; intros o H; [done|]. cbn in H. destruct (wbn l) as [cur|] eqn:E; [|done]. cbn in H.
  assert (Hkeep : cur = Some o -> (forall o', e <> GStart o' /\ e <> GFinish o') -> in_slot o (e :: l)).
  { intros -> Hne. destruct (IH o eq_refl) as (la & lb & -> & Hn). exists (e :: la), lb. split; [done|]. intros o'.
    destruct (Hn o') as [? ?]. destruct (Hne o') as [? ?]. split; intros [?|?]%elem_of_cons; done. }
  destruct e; cbn in H; try (apply Hkeep; [congruence|done]).
  - destruct cur; [done|]. injection H as ->. exists [], l. split; [done|]. intros o'. split; by intros ?%elem_of_nil.
  - destruct cur as [o'|]; [|done]. by destruct (decide (o0 = o')).
Qed.
Lemma logall_suffix P l2 l1 : logall P (l2 ++ l1) -> logall P l1.
Proof. induction l2; cbn; [done|]. intros [_ ?]. auto. Qed.
Lemma finish_drop_excl l o : logall evok l -> GUFinish o ∈ l -> GYdrop o ∈ l -> False.
Proof.
  intros HL Hf Hd. apply elem_of_list_split in Hd as (a & b & ->).
  pose proof (logall_split _ _ HL a _ b eq_refl) as Hk. cbn in Hk. destruct Hk as (_ & _ & Hnf & _).
  apply elem_of_app in Hf as [Hf|Hf]; [|apply elem_of_cons in Hf as [?|?]; done].
  apply elem_of_list_split in Hf as (a1 & a2 & ->). rewrite <- app_assoc in HL. cbn in HL.
  pose proof (logall_split _ _ HL a1 _ _ eq_refl) as Hk. cbn in Hk. destruct Hk as (_ & _ & _ & _ & _ & Hnd).
  apply Hnd. apply elem_of_app. right. left.
Qed.

Section Thm.
  Context (T : ftables) (HA : all_cond T).
  Context (scripts : list (list cop)) (npool nev : nat) (Hwf : ywf nev scripts).
  Context (tr : list nat) (s : state) (Hrun : run T (init scripts npool nev) tr = Some s).
  Let HI : Inv_yall nev s := reachable_yall nev T HA scripts npool tr s Hwf Hrun.
  Let HY : Inv_y nev s := ya_y _ _ HI.

  Lemma ev_ok l2 e l1 : s.(log) = l2 ++ e :: l1 -> evok e l1 /\ logall evok l1.
  Proof.
    intros E. pose proof (y_log _ _ HY) as HL. split; [by eapply logall_split|]. rewrite E in HL.
    apply logall_suffix in HL. by destruct HL.
  Qed.

  (* (2) every event of the user future lies inside the slot of its call's job: after Start o, before Finish o, and no other
     operation has started or finished since Start o *)
  Theorem user_events_in_slot l2 e l1 o : s.(log) = l2 ++ e :: l1 -> user_ev e = Some o ->
    in_slot o l1 /\ exists f r, GYnew o f r ∈ l1.
  Proof.
    intros E He. destruct (ev_ok _ _ _ E) as [Hk _]. destruct e; try discriminate He; injection He as ->; cbn in Hk.
    all: destruct Hk as (Hc & Hw & _); split; [by apply wbn_open|done].
  Qed.

  Lemma in_log l2 e l1 x : s.(log) = l2 ++ e :: l1 -> x ∈ l1 -> x ∈ s.(log).
  Proof. intros -> H. apply elem_of_app. right. by right. Qed.

  (* (3) the result of the SyncFuture's SchedulerFuture is delivered only after the slot job signalled it and after the user future
     completed, never after a drop; the slot job signals only after the user future completed or the SyncFuture was dropped
     (a started user future destroyed first); the user future starts and completes at most once *)
  Theorem result_after_completion l2 e l1 : s.(log) = l2 ++ e :: l1 ->
    (forall f v o r, e = GResolve f v -> GYnew o f r ∈ l1 -> v = o /\ GSig f o ∈ l1 /\ GUFinish o ∈ l1 /\ GYdrop o ∉ l1) /\
    (forall f v o r, e = GSig f v -> GYnew o f r ∈ l1 -> v = o /\ udone o l1) /\
    (forall o, e = GUFinish o -> GUStart o ∈ l1 /\ GUFinish o ∉ l1 /\ GUCancel o ∉ l1) /\
    (forall o, e = GUStart o -> GUStart o ∉ l1).
  Proof.
    intros E. destruct (ev_ok _ _ _ E) as [Hk HL]. split; [|split; [|split] ].
    - intros f v o r -> Hg. cbn in Hk. pose proof (Hk _ _ Hg) as Hfin.
      pose proof (resolve_after_signal T _ _ _ _ _ _ _ _ _ Hrun E) as Hsig.
      assert (Ht : (o, f, r) ∈ Ys s) by (apply ynews_in; by eapply in_log).
      destruct (y_t2 _ _ HY _ _ _ _ Ht (in_log _ _ _ _ E Hsig)) as [-> _].
      split; [done|]. split; [done|]. split; [done|]. intros Hd. by eapply finish_drop_excl.
    - intros f v o r -> Hg. cbn in Hk. by apply (Hk _ _ Hg).
    - intros o ->. cbn in Hk. destruct Hk as (_ & _ & ? & ? & ? & _). done.
    - intros o ->. cbn in Hk. tauto.
  Qed.

  (* (4) clean cancellation, for the field order of the code (`state` dropped before `task_finished`) *)
  Theorem clean_cancellation l2 e l1 : s.(log) = l2 ++ e :: l1 ->
    (forall o, user_ev e = Some o -> GYdrop o ∉ l1) /\
    (forall o, e = GUCancel o -> in_slot o l1 /\ GUStart o ∈ l1 /\ GUFinish o ∉ l1 /\ GUCancel o ∉ l1) /\
    (forall o, e = GYdrop o -> GYdrop o ∉ l1 /\ GUFinish o ∉ l1 /\ (GUStart o ∈ l1 -> GUCancel o ∈ l1)) /\
    (forall o f r, e = GFinish o -> GYnew o f r ∈ l1 -> udone o l1).
  Proof.
    intros E. destruct (ev_ok _ _ _ E) as [Hk HL]. split; [|split; [|split] ].
    - intros o He. destruct e; try discriminate He; injection He as ->; cbn in Hk; unfold urun in Hk; tauto.
    - intros o ->. cbn in Hk. destruct Hk as (_ & Hw & ? & ? & ? & _). split; [by apply wbn_open|done].
    - intros o ->. cbn in Hk. tauto.
    - intros o f r -> Hg. cbn in Hk. by eapply Hk.
  Qed.
End Thm.
