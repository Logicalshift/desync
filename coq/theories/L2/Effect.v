(* What ONE step does, read off its top frame: the acting actor's stack is replaced (frames pushed on what was below the top
   frame, minus the continuation frame a Ready poll removes), and each of the other components is written by a few frames only.
   Step lemmas take these facts from [step_eff] and case-split on the top frame ([step_at]) only for what is special. *)
From stdpp Require Import list numbers option.
From RecordUpdate Require Import RecordUpdate.
From L2 Require Import Model Base Arm Own Shape OpShape Jobs Fut Wake WakeInv WakeLem.
#[global] Unset Lia Cache.

Definition contfr (fr : frame) : bool := match fr with FAwRet _ | FDropRet _ _ | FY YPsfret _ _ _ => true | _ => false end.
Definition below (rest rest' : list frame) : Prop := rest' = rest \/ exists x, contfr x = true /\ rest = x :: rest'.
Lemma below_in rest rest' x : below rest rest' -> x ∈ rest -> x ∈ rest' \/ contfr x = true.
Proof. intros [->|(y & Hy & ->)]; [by left|]. intros [->|?]%elem_of_cons; [by right|by left]. Qed.
Lemma below_sub rest rest' x : below rest rest' -> x ∈ rest' -> x ∈ rest.
Proof. intros [->|(y & Hy & ->)]; [done|]. by right. Qed.
Lemma below_cntf P rest rest' : below rest rest' -> cntf P rest' <= cntf P rest /\ ((forall x, contfr x = true -> P x = false) -> cntf P rest' = cntf P rest).
Proof. intros [->|(y & Hy & ->)]; [done|]. cbn. split; [lia|]. intros H. by rewrite (H _ Hy). Qed.

(* registrations of the wakers in K with unfired events are kept *)
Definition regkeep (K : waker -> Prop) (s s' : state) : Prop :=
  forall e w, K w -> (getev s e).(fired) = false -> w ∈ (getev s e).(wakers) -> (getev s' e).(fired) = false /\ w ∈ (getev s' e).(wakers).
Lemma regkeep_trans (K : waker -> Prop) s1 s2 s3 : regkeep K s1 s2 -> regkeep K s2 s3 -> regkeep K s1 s3.
Proof. intros H1 H2 e w Hk Hf Hin. destruct (H1 e w Hk Hf Hin). by apply H2. Qed.
Lemma regkeep_alloc (K : waker -> Prop) s (s' : state) l : s'.(evs) = s.(evs) ++ l -> regkeep K s s'.
Proof.
  intros H e w _ Hf Hin. assert (Hlt : e < length (evs s)) by (by apply getev_fired_range).
  unfold getev in *. by rewrite H, lookup_app_l.
Qed.
Lemma regkeep_setev (K : waker -> Prop) s (s' : state) e ws : s'.(evs) = <[e := getev s e <| wakers := ws |>]> s.(evs) ->
  (forall w, K w -> w ∈ (getev s e).(wakers) -> w ∈ ws) -> regkeep K s s'.
Proof.
  intros Hs H e' w Hk Hf Hin. assert (Hlt : e' < length (evs s)) by (by apply getev_fired_range).
  unfold getev in *. rewrite Hs. destruct (decide (e' = e)) as [->|Hne].
  - rewrite list_lookup_insert by done. cbn. split; [done|by apply H].
  - by rewrite list_lookup_insert_ne.
Qed.
Lemma res_none_app s (s' : state) l f : s'.(futs) = s.(futs) ++ l -> Forall (fun c => c.(res) = FNone) l ->
  (getf s f).(res) = FNone -> (getf s' f).(res) = FNone.
Proof.
  intros H Hl. unfold getf. rewrite H. destruct (decide (f < length (futs s))); [by rewrite lookup_app_l|].
  intros _. rewrite lookup_app_r by lia. destruct (l !! (f - length (futs s))) as [c|] eqn:E; [|done].
  apply elem_of_list_lookup_2 in E. rewrite list.Forall_forall in Hl. by apply Hl.
Qed.
Lemma res_none_setf s (s' : state) f0 c f : s'.(futs) = <[f0 := c]> s.(futs) -> (f = f0 -> (getf s f0).(res) = FNone -> c.(res) = FNone) ->
  (getf s f).(res) = FNone -> (getf s' f).(res) = FNone.
Proof.
  intros H Hc. unfold getf in *. rewrite H. destruct (decide (f = f0)) as [->|Hne]; [|by rewrite list_lookup_insert_ne].
  destruct (decide (f0 < length (futs s))); [rewrite list_lookup_insert by done; by apply Hc|by rewrite list_insert_ge by lia].
Qed.
Lemma filter_nontask a w l : (forall c, w <> WTask c) -> w ∈ l -> w ∈ List.filter (fun w => negb (is_task a w)) l.
Proof. intros Hw. rewrite !elem_of_list_In, filter_In. intros H. split; [done|]. destruct w; try done. by destruct (Hw c). Qed.

(* the frames at which a step writes the queue state / the drain wakers / the double wakers; [takes]: an event cell (or
   oneshot) loses registered wakers; [drops]: it loses task wakers only *)
Definition w_qs (fr : frame) : bool :=
  match fr with
  | FD1 _ | FSFpoll _ | FDQwfw _ _ | FDQwfp _ _ | FDQempty2 _ | FDQidle _ | FS1 _ _ | FSIidle | FSDidle | FSBclaim | FROpend _
  | FRQ1 | FPIdle | FDRpend | FDRfin | FWake WQueue | FWake (WThread _) => true
  | _ => false
  end.
Definition pops (fr : frame) : bool := match fr with FSFpoll _ | FDQtake _ | FDQtake2 _ _ => true | _ => false end.
Definition w_dws (fr : frame) : bool := match fr with FWake (WDrain _) | FWakeWith _ _ => true | _ => false end.
Definition w_dbl (fr : frame) : bool := match fr with FWake (WDouble _) => true | _ => false end.
Definition takes (fr : frame) : bool :=
  match fr with
  | FFire _ | FJob (JFut _ Waiting (PSendReady _ :: _)) _ _ | FJob (JFut _ Waiting (PAwaitDone _ :: _)) _ _
  | FY YPfin _ _ _ | FY YPdrop2 _ _ _ => true
  | _ => false
  end.
Definition drops (fr : frame) : bool := match fr with FY YPrecv _ (YQueue _) _ | FY YPdrop1 _ (YQueue _) _ => true | _ => false end.

(* the successors of a top frame other than waker calls: which frames a step at [fr] may put in its place (whatever the
   tables say); the state only supplies the fresh ids and the job at the head of the queue *)
Definition ysuccs (pc : ypc) (y : ydat) (st : ystate) (u : fuse) : list frame :=
  match pc with
  | YPuse => [FY YPloop y st u; FY YPdrop1 y st u]
  | YPpend => FY YPpark y st u :: FY YPdrop1 y st u :: match u with UDropAfter (S k) => [FY YPuse y st (UDropAfter k)] | _ => [] end
  | YPpark => [FY YPloop y st u]
  | YPloop => [FY YPuser y st u; FSFpoll y.(y_f); FY YPsfret y st u]
  | YPsfret => [FY YPrecv y st u; FY YPuser y st u]
  | YPrecv => FY YPpend y st u :: FY YPuser y st u :: match st with YQueue body => [FY YPuser y (YFuture body) u] | _ => [] end
  | YPuser => FY YPfin y st u :: FY YPpend y st u :: FY YPloop y st u :: match st with YFuture (_ :: b) => [FY YPuser y (YFuture b) u] | _ => [] end
  | YPfin => [FUse y.(y_f) u]
  | YPdrop1 => [FY YPdrop2 y st u]
  | YPdrop2 => []
  end.
Definition succs (s : state) (a : nat) (fr : frame) : list frame :=
  let op := s.(nextop) in let f := length s.(futs) in
  let head w k := match s.(jobs) with j :: _ => [FJob j w k] | [] => [] end in
  match fr with
  | FTop (o :: os) =>
      match o with
      | ODesync => [FD1 (JPlain op)]
      | OFuture body u => [FD1 (JFut op NotCreated (body ++ [PSignal f])); FUse f u]
      | OSuspend e u => [FD1 (JFut op NotCreated [PSignal f; PAwait e; PSignal (S f)]); FUse f u]
      | OFutSync body u =>
          let r := length s.(evs) in
          [FD1 (JFut op NotCreated [PSendReady r; PAwaitDone (S r); PSignal f]); FY YPuse {| y_op := op; y_f := f; y_r := r |} (YQueue body) u]
      | OSync => [FS1 op None]
      | OFire e => [FFire e]
      end ++ [FTop os]
  | FD1 _ => [FD2]
  | FUse f u => match u with UAwait => [FSFpoll f; FAwRet f] | USync => [FFS1 f] | UDropAfter (S k) => [FSFpoll f; FDropRet f k] | _ => [] end
  | FAwRet f => [FPark f]
  | FPark f => [FSFpoll f; FAwRet f]
  | FDropRet f k => [FUse f (UDropAfter k)]
  | FFS1 f => [FS1 op (Some f)]
  | FSFpoll f => [FDQtake f]
  | FDQtake f => [FDQidle f; FDQdeq f]
  | FDQdeq f => FDQempty1 f :: head (WDrain (length s.(dws))) (KDq f (length s.(dws)))
  | FDQrequeue f d _ => [FDQtake2 f d]
  | FDQtake2 f d => [FDQwfw f d; FDQstore f d]
  | FDQwfw f d => [FWakeWith d WQueue]
  | FDQstore f d => [FDQwfp f d]
  | FDQwfp f d => [FWakeWith d (WDouble (length s.(dbl)))]
  | FDQempty1 f => [FDQempty2 f]
  | FDQempty2 _ | FDQidle _ | FSIidle | FSDidle | FWake WQueue => [FRQ1]
  | FS1 op tk => [FClosure op tk; FSDpush op tk; FSBreg op tk]
  | FClosure _ _ => [FSIidle]
  | FSDpush _ _ => [FSDloop]
  | FSDloop => [FSDidle; FROdeq]
  | FSBreg op tk => [FSBpush op tk]
  | FSBpush _ _ => [FRQ1; FSBwait]
  | FSBwait => [FSBdone; FSBclaim]
  | FSBclaim => [FSDloop; FSBdone; FSBwait]
  | FROdeq => FSDloop :: head (WThread a) KRoj
  | FROpend j => [FROcheck j; FJob j (WThread a) KRoj]
  | FROcheck j => [FJob j (WThread a) KRoj; FROpark j]
  | FROpark j => [FROcheck j]
  | FRQ1 => [FRQ2]
  | FPIdle => [FDRdeq; FPIdle]
  | FDRdeq => FDRfin :: head WQueue KDrain
  | FDRrequeue _ => [FDRpend]
  | FDRpend | FDRfin => [FDRdeq]
  | FJob j w k =>
      ret_ready k :: ret_pending k j ::
      match j with
      | JFut o NotCreated sc => [FJob (JFut o Waiting sc) w k]
      | JFut o Waiting (_ :: r) => [FJob (JFut o Waiting r) w k]
      | _ => []
      end
  | FWake (WThread c) | FWake (WTask c) => [FUnpark c]
  | FY pc y st u => ysuccs pc y st u
  | _ => []
  end.
Definition parks (fr : frame) : bool := match fr with FPark _ | FROpark _ | FY YPpark _ _ _ => true | _ => false end.
Definition iswake (fr : frame) : bool := match fr with FWake _ => true | _ => false end.
Definition pushed (s : state) (a : nat) (fr : frame) (pre : list frame) : Prop := Forall (fun x => iswake x = true \/ x ∈ succs s a fr) pre.
Lemma pushed_wake_frames s a fr ws : pushed s a fr (wake_frames ws).
Proof. apply Forall_fmap, Forall_forall. by left. Qed.
Lemma pushed_opt_wake s a fr o : pushed s a fr (opt_wake o).
Proof. destruct o; cbn; [apply Forall_cons_2; [by left|]|]; apply Forall_nil_2. Qed.

Record eff (s : state) (a : nat) (fr : frame) (rest : list frame) (s' : state) : Prop := {
  ef_stack : exists pre rest', stacks s' = <[a := pre ++ rest']> (stacks s) /\ below rest rest' /\ (pops fr = false -> rest' = rest) /\ pushed s a fr pre;
  ef_toks : toks s' = match fr with
                      | FUnpark c => <[c := true]> (toks s)
                      | FPark _ | FROpark _ | FY YPpark _ _ _ => <[a := false]> (toks s)
                      | _ => toks s
                      end;
  ef_kicks : match fr with
             | FSBreg _ _ => kicks s' = <[a := true]> (kicks s)
             | FSBwait => kicks s' = kicks s \/ kicks s' = <[a := false]> (kicks s)
             | FRQ1 => kicks s' = (fun _ => true) <$> kicks s
             | _ => kicks s' = kicks s
             end;
  ef_sress : sress s' = match fr with
                        | FJob (JSync _ c _) _ _ => <[c := true]> (sress s)
                        | FSDpush _ _ | FSBpush _ _ => <[a := false]> (sress s)
                        | _ => sress s
                        end;
  ef_qs : w_qs fr = false -> qs s' = qs s;
  ef_evs : takes fr = false -> regkeep (fun w => drops fr = true -> forall c, w <> WTask c) s s';
  ef_dws : w_dws fr = false -> forall d, getdw s' d = getdw s d;
  ef_dbl : w_dbl fr = false -> forall k, getdbl s k <> None -> getdbl s' k = getdbl s k;
  (* a missing result stays missing until the job signals it *)
  ef_res : forall f, (getf s f).(res) = FNone -> (getf s' f).(res) = FNone \/ exists o r w k, fr = FJob (JFut o Waiting (PSignal f :: r)) w k;
  ef_jobs : match fr with
            | FD1 j => jobs s' = jobs s ++ [j]
            | FSDpush op tk | FSBpush op tk => jobs s' = jobs s ++ [JSync op a tk]
            | FDQdeq _ | FROdeq | FDRdeq => jobs s' = jobs s \/ exists j, jobs s = j :: jobs s'
            | FDQrequeue _ _ j | FDRrequeue j => jobs s' = j :: jobs s
            | _ => jobs s' = jobs s
            end;
}.

Lemma getdw_app s (s' : state) : s'.(dws) = s.(dws) ++ [(DWNotWoken, None)] -> forall d, getdw s' d = getdw s d.
Proof.
  intros H d. unfold getdw. rewrite H. destruct (decide (d < length (dws s))).
  - by rewrite lookup_app_l.
  - rewrite (lookup_ge_None_2 (dws s)) by lia. destruct (decide (d = length (dws s))) as [->|].
    + by rewrite list_lookup_middle.
    + rewrite lookup_ge_None_2; [done|]. rewrite app_length. cbn. lia.
Qed.
Lemma getdbl_app s (s' : state) x : s'.(dbl) = s.(dbl) ++ [x] -> forall k, getdbl s k <> None -> getdbl s' k = getdbl s k.
Proof.
  intros H k. unfold getdbl. rewrite H. destruct (decide (k < length (dbl s))).
  - by rewrite lookup_app_l.
  - by rewrite (lookup_ge_None_2 (dbl s)) by lia.
Qed.

Ltac pushed_tac :=
  repeat first [apply Forall_nil_2 | apply pushed_wake_frames | apply pushed_opt_wake | apply Forall_app_2 | apply Forall_cons_2];
  (first [left; reflexivity | right; unfold succs; try match goal with E : jobs _ = _ :: _ |- _ => rewrite E end; cbn;
          repeat first [apply elem_of_list_here | apply elem_of_list_further] ]).

Lemma regkeep_same (K : waker -> Prop) s (s' : state) : s'.(evs) = s.(evs) -> regkeep K s s'.
Proof. intros H. apply (regkeep_alloc K s s' []). by rewrite app_nil_r. Qed.

(* the frames of [arm_new] are successors of the top frame, the components are those of [arm_eff] read by frame *)
Lemma step_eff T s a s' : step T s a = Some s' -> exists fr rest, stacks s !! a = Some (fr :: rest) /\ eff s a fr rest s'.
Proof.
  intros (l & r & Hst & Hs & Hg & [Eq Ej _ Eev Ef Edw Edb _ _ Etk Esr Ekk])%step_arm.
  destruct l; try destruct c; try (destruct pc, st; cbn in Hg; first [discriminate Hg|injection Hg as <-]).
  all: cbn [arm_old arm_new arm_guard arm_qs arm_jobs arm_evs arm_futs arm_dws arm_dbl arm_toks arm_sress arm_kicks upolls] in *.
  all: unfold fired_frames in *; destruct_and?.
  all: try lazymatch type of Hst with _ = Some ([FY YPuse _ _ ?u] ++ _) => destruct u as [| | |[|?] ] end.
  all: eexists _, _; split; [exact Hst|].
  all: split;
    [ lazymatch type of Hs with _ = <[_ := ?pre ++ _]> _ => exists pre, r end; split; [exact Hs|]; split; [first [by left|right; eexists; split; [|reflexivity]; reflexivity]|]; split; [intros Hp; first [discriminate Hp|reflexivity]|pushed_tac]
    | exact Etk
    | first [exact Ekk|left; exact Ekk|right; exact Ekk]
    | exact Esr
    | intros Hw; first [discriminate Hw|exact Eq]
    | intros Hw; first [ discriminate Hw | by apply regkeep_same | eapply regkeep_alloc; exact Eev
                       | lazymatch type of Eev with _ = evs (setev ?s1 _ _) => apply (regkeep_trans _ s s1) end;
                         eapply regkeep_setev; first [exact Eev|reflexivity|intros ?w ?Hk ?Hin; by right]
                       | eapply regkeep_setev; [exact Eev|intros ?w ?Hk ?Hin;
                           first [by right|right; apply filter_nontask; [exact (Hk eq_refl)|done]|apply filter_nontask; [exact (Hk eq_refl)|done] ] ] ]
    | intros Hw ?d; first [discriminate Hw|unfold getdw; by rewrite Edw|by apply getdw_app]
    | intros Hw ?k Hk; first [discriminate Hw|unfold getdbl; by rewrite Edb|eapply getdbl_app; [exact Edb|exact Hk] ]
    | intros fq Hr; first
        [ left; by rewrite (getf_futs s' s fq Ef)
        | left; eapply res_none_app; [exact Ef|by repeat constructor|exact Hr]
        | left; eapply res_none_setf; [exact Ef|intros _ ?H; first [exact H|congruence]|exact Hr]
        | lazymatch goal with |- _ \/ exists _ _ _ _, FJob (JFut _ _ (PSignal ?f0 :: _)) _ _ = _ => destruct (decide (fq = f0)) as [->|Hne] end;
          [right; by eexists _, _, _, _|left; eapply res_none_setf; [exact Ef|done|exact Hr] ] ]
    | first [exact Ej|left; exact Ej|right; eexists; rewrite Ej; eassumption] ].
Qed.

Lemma stacks_top_actor s a fr rest : stacks s !! a = Some (fr :: rest) -> exists ac, s.(actors) !! a = Some ac /\ ac.(stack) = fr :: rest.
Proof. unfold stacks. rewrite list_lookup_fmap. destruct (actors s !! a) as [ac|]; [|done]. intros [= <-]. by exists ac. Qed.
(* the case split of [step_split] for a step whose top frame is known (Hst : stacks s !! a = Some (fr :: rest)) *)
Ltac step_at Hstep Hst :=
  let ac := fresh "ac" in let Ea := fresh "Ea" in let Est := fresh "Est" in
  destruct (stacks_top_actor _ _ _ _ Hst) as (ac & Ea & Est);
  unfold step in Hstep; rewrite Ea in Hstep; cbn [mbind option_bind] in Hstep; rewrite Est in Hstep;
  lazymatch type of Hst with _ = Some (?fr :: _) => try (is_var fr; destruct fr) end;
  step_unfold Hstep; step_destr Hstep.

(* after [destruct fr]: evaluate what is said about [succs s a fr], case by case *)
Ltac succs_split :=
  try match goal with k : kont |- _ => destruct k end; try match goal with pc : ypc |- _ => destruct pc end;
  cbn; repeat case_match.

Lemma toks_length s : length (toks s) = length (stacks s). Proof. unfold toks, stacks. by rewrite !fmap_length. Qed.
Lemma kicks_length s : length (kicks s) = length (stacks s). Proof. unfold kicks, stacks. by rewrite !fmap_length. Qed.
Lemma succs_forallb (P : frame -> bool) s a fr x : forallb P (succs s a fr) = true -> x ∈ succs s a fr -> P x = true.
Proof. rewrite forallb_forall. intros H Hin. by apply H, elem_of_list_In. Qed.

Section Eff.
  Context (s : state) (a : nat) (fr : frame) (rest : list frame) (s' : state).
  Context (Hst : stacks s !! a = Some (fr :: rest)) (E : eff s a fr rest s').

  (* where the frames of the new stack come from, and which frames of the old one stay *)
  Lemma eff_frames : exists new, stacks s' = <[a := new]> (stacks s) /\
    (forall x, x ∈ new -> iswake x = true \/ x ∈ succs s a fr \/ x ∈ rest) /\
    (forall x, x ∈ rest -> x ∈ new \/ contfr x = true).
  Proof.
    destruct (ef_stack _ _ _ _ _ E) as (pre & rest' & Hs & Hb & _ & Hp). exists (pre ++ rest'). split; [done|]. split.
    - intros x [Hx|Hx]%elem_of_app; [|right; right; by eapply below_sub].
      unfold pushed in Hp. rewrite list.Forall_forall in Hp. destruct (Hp x Hx); auto.
    - intros x Hx. destruct (below_in _ _ _ Hb Hx); [left; apply elem_of_app|]; auto.
  Qed.
  (* frames that are neither the top frame nor a continuation are only added *)
  Lemma eff_np_mono P : P fr = false -> (forall x, contfr x = true -> P x = false) -> np P s <= np P s'.
  Proof.
    intros H1 H2. destruct (ef_stack _ _ _ _ _ E) as (pre & rest' & Hs & Hb & _).
    eapply np_mono; [exact Hst|exact Hs|]. cbn. rewrite H1, cntf_app. destruct (below_cntf P _ _ Hb) as [_ ->]; [lia|done].
  Qed.
  (* a step of an actor that does not run the queue leaves the queued jobs alone or appends one *)
  Lemma eff_jobs_push : marker fr = false -> jobs s' = jobs s \/ exists j, jobs s' = jobs s ++ [j].
  Proof. intros Hm. pose proof (ef_jobs _ _ _ _ _ E) as H. destruct fr; try discriminate Hm; eauto. Qed.
  Lemma eff_len : length (stacks s') = length (stacks s).
  Proof. destruct (ef_stack _ _ _ _ _ E) as (pre & rest' & -> & _). apply insert_length. Qed.
  (* an unpark of thread c that is pending (token set, or the call in flight) stays so until c itself returns from park *)
  Lemma eff_unp c : c < length (stacks s) -> unp s c = true -> unp s' c = true \/ (c = a /\ parks fr = true).
  Proof.
    intros Hlt. unfold unp, tokb. rewrite !orb_true_iff, !posb_true. pose proof (ef_toks _ _ _ _ _ E) as Ht.
    assert (Hl : c < length (toks s)) by (by rewrite toks_length).
    destruct (decide (fr = FUnpark c)) as [->|Hne]; [intros _; left; left; by rewrite Ht, list_lookup_insert|].
    intros [Hk|Hn].
    - destruct (parks fr) eqn:Hp.
      + destruct (decide (c = a)) as [->|Hca]; [by right|]. left; left.
        assert (Ht' : toks s' = <[a := false]> (toks s)) by (destruct fr; try discriminate Hp; [done..|by destruct pc]).
        by rewrite Ht', list_lookup_insert_ne.
      + left; left. destruct fr; try discriminate Hp; try (by rewrite Ht).
        * rewrite Ht, list_lookup_insert_ne; [done|congruence].
        * destruct pc; try discriminate Hp; by rewrite Ht.
    - left; right. eapply Nat.lt_le_trans; [exact Hn|]. apply eff_np_mono; [|by intros []].
      destruct fr; try done. cbn. apply bool_decide_false. congruence.
  Qed.
End Eff.

(* a predicate on frames that holds of every waker call and of the successors of every frame it holds of is kept on every stack *)
Lemma step_frames_pred T (P : frame -> bool) s a s' : (forall w, P (FWake w) = true) ->
  (forall fr, P fr = true -> forallb P (succs s a fr) = true) -> step T s a = Some s' ->
  forall c, (forall st, stacks s !! c = Some st -> forallb P st = true) -> forall st, stacks s' !! c = Some st -> forallb P st = true.
Proof.
  intros Hw Hsucc Hstep c HI. destruct (step_eff _ _ _ _ Hstep) as (fr & rest & Hst & E).
  destruct (eff_frames _ _ _ _ _ E) as (new & Hs & Hnew & _). intros st Hc. rewrite Hs in Hc.
  destruct (decide (c = a)) as [->|Hne]; [|rewrite list_lookup_insert_ne in Hc by done; by apply HI].
  rewrite list_lookup_insert in Hc by (by eapply lookup_lt_Some). injection Hc as <-.
  specialize (HI _ Hst). cbn in HI. apply andb_true_iff in HI as [H0 Hr]. rewrite forallb_forall in Hr |- *.
  intros x Hx%elem_of_list_In. destruct (Hnew x Hx) as [Hk|[Hk|Hk]].
  - destruct x; try discriminate Hk. apply Hw.
  - specialize (Hsucc _ H0). rewrite forallb_forall in Hsucc. by apply Hsucc, elem_of_list_In.
  - by apply Hr, elem_of_list_In.
Qed.

Lemma flag_set_ne (l : list bool) i b c : c <> i -> default false (<[i := b]> l !! c) = default false (l !! c).
Proof. intros H. by rewrite list_lookup_insert_ne. Qed.
Lemma flag_set_true (l : list bool) i c : default false (<[i := true]> l !! c) = false -> default false (l !! c) = false.
Proof.
  destruct (decide (c = i)) as [->|Hne]; [|by rewrite flag_set_ne]. destruct (decide (i < length l)).
  - by rewrite list_lookup_insert.
  - by rewrite list_insert_ge by lia.
Qed.

(* nothing of an operation lies below an operation-level top frame *)
Lemma op_below s a fr rest x : Inv_op s -> stacks s !! a = Some (fr :: rest) -> opfr fr = true -> x ∈ rest -> opfr x = false.
Proof. intros HP Hst Ho. apply cntf_zero_all. by eapply op_top_only. Qed.
