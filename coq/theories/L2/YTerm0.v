(* C08 (5) for ANY number of pool threads, zero included: what a terminal state looks like when only the EXTERNAL events are fired.
   The waiter analysis of WaiterTerm.v with "the events the queue waits for are fired" (YTerm.awaited) in place of
   "all cells fired". *)
From stdpp Require Import list numbers option.
From RecordUpdate Require Import RecordUpdate.
From L2 Require Import Model Base Own Jobs Shape OpShape DwInv Pool Fut Sig Wake WakeInv WakeLem Term Task TaskInv YTask Complete Waiter
  ZeroTerm WaiterTerm YDefs YMono YStep1 YStep2 YStep3 YInv YInv2 YTerm.
#[global] Unset Lia Cache.

Section TermW0.
  Context (T : ftables) (HA : all_cond T) (HC : claim_cond T).
  Context (s : state) (H3 : Inv_all3 T s) (Hterm : terminal T s).
  Context (Haw : forall e, awaited s e -> (getev s e).(fired) = true).
  Let H2 := i3_all2 _ _ H3.
  Let HI := i2_all _ H2.
  Let Hnp : no_panic T s := fun a => fut_no_panic T s a (ac_own _ HA) (ia_own _ HI) (ia_fut _ HI).

  Lemma term0_claimable : claimb T s.(qs) = true.
  Proof.
    pose proof (termg_no_runner T s HI Hterm Hnp Haw) as Ho. pose proof (io_nopanic _ (ia_own _ HI)) as Hp.
    pose proof (iw_queue _ (ia_wake _ HI)) as HQ. unfold queue_ok in HQ.
    destruct (qs s) eqn:Eq; try done.
    - (* Idle *) apply (cc_idle _ HC).
    - (* Pending *) apply (cc_pending _ HC).
    - (* WaitingForWake *) exfalso. destruct (hsusp s) as [e|] eqn:Eh; [|done]. by rewrite (termg_cover T s HI Hterm Hnp Haw e Eh) in HQ.
    - (* WaitingForPoll *) apply (cc_wfp _ HC).
  Qed.
  Lemma term0_no_waiter c rest : stacks s !! c = Some (FSBwait :: rest) -> False.
  Proof.
    intros Hc. destruct (stacks_actor s c _ Hc) as (ac & Ea & Est).
    pose proof (Hterm c) as Hs. unfold step in Hs. rewrite Ea in Hs. cbn in Hs. rewrite Est in Hs. cbn in Hs.
    destruct (sres ac) eqn:Esr; [done|]. destruct (kicked ac) eqn:Ek; [done|].
    assert (Hk : kickb s c = false) by (unfold kickb; by rewrite (kicks_lookup _ _ _ Ea), Ek).
    assert (Hsb : sresb s c = false) by (unfold sresb; by rewrite (sress_lookup _ _ _ Ea), Esr).
    destruct (k_wait _ _ (i3_k _ _ H3) c _ Hc ltac:(left) Hk Hsb term0_claimable) as [H|H].
    - (* a reschedule in flight *) rewrite (term_quiet T s HI Hterm Hnp is_rq1) in H; [lia|]. intros []; try done. by left.
    - (* a wake-up of the queue pending *) unfold wakeq in H. destruct (hsusp s) eqn:Eh; [|done]. by rewrite (termg_cover T s HI Hterm Hnp Haw _ Eh) in H.
  Qed.
  Theorem terminal_any_pool c st : stacks s !! c = Some st ->
    st = [FTop []] \/ st = [FPIdle] \/ (exists f rest, st = FPark f :: rest) \/ (exists y st' u rest, st = FY YPpark y st' u :: rest).
  Proof.
    intros Hc. destruct (term_top T s HI Hterm Hnp c st Hc) as (fr & rest & -> & Hb).
    destruct fr; try done.
    - (* FTop *) destruct script; [|done]. left. by rewrite (op_bot_alone s c _ rest (i2_op _ H2) Hc eq_refl).
    - (* FPark *) right; right; left. by eexists _, _.
    - (* FSBwait *) exfalso. by eapply term0_no_waiter.
    - (* FROpark *) exfalso. pose proof (runner_owned s c _ (ia_own _ HI) Hc ltac:(cbn; lia)) as Ho.
      by rewrite (termg_no_runner T s HI Hterm Hnp Haw) in Ho.
    - (* FPIdle *) right; left. by rewrite (op_bot_alone s c _ rest (i2_op _ H2) Hc eq_refl).
    - (* FY YPpark *) destruct pc; try done. right; right; right. by eexists _, _, _, _.
  Qed.
End TermW0.

Section Final.
  Context (T : ftables) (HA : all_cond T) (HC : claim_cond T).
  (* C08 (5), any number of pool threads (zero included), only the external events assumed fired: a parked owner of a SyncFuture
     waits for queue_ready, which its slot job has not sent *)
  Theorem futsync_terminal_any_pool scripts npool nev tr s : ywf nev scripts -> run T (init scripts npool nev) tr = Some s ->
    terminal T s -> (forall e, e < nev -> (getev s e).(fired) = true) ->
    forall c st, stacks s !! c = Some st ->
    st = [FTop []] \/ st = [FPIdle] \/ (exists f rest, st = FPark f :: rest) \/
    (exists y b u rest, st = FY YPpark y (YQueue b) u :: rest /\ (getev s y.(y_r)).(fired) = false).
  Proof.
    intros Hwf Hr Hterm Hext c st Hc. destruct (reachable_yall nev T HA _ _ _ _ Hwf Hr) as [_ _ HY HY2].
    pose proof (reachable_all3 T HA HC _ _ _ _ _ Hr) as H3.
    destruct (terminal_any_pool T HA HC s H3 Hterm (awaited_fired T HA nev s (i3_all2 _ _ H3) HY HY2 Hterm Hext) c st Hc)
      as [?|[?|[?|(y & st' & u & rest & ->)] ] ]; [tauto..|].
    destruct (ypark_waits T HA nev s (i3_all2 _ _ H3) HY Hterm Hext c y st' u rest Hc) as (b & -> & Hf).
    do 3 right. by eexists _, _, _, _.
  Qed.
  (* a caller that never AWAITS a future (it may call future_sync and drop the future after any number of polls, desync, sync,
     poll-and-drop, detach, fire) finishes its script: any pool size, any other callers *)
  Theorem dropping_caller_finishes scripts npool nev tr s c sc : ywf nev scripts -> scripts !! c = Some sc -> forallb noaw_op sc = true ->
    run T (init scripts npool nev) tr = Some s -> terminal T s -> (forall e, e < nev -> (getev s e).(fired) = true) ->
    stacks s !! c = Some [FTop []].
  Proof.
    intros Hwf Hsc Hna Hr Ht Hext.
    destruct (noaw_stack T _ _ _ _ _ _ _ Hsc Hna Hr) as (st & Hc & Hinv).
    destruct (futsync_terminal_any_pool _ _ _ _ _ Hwf Hr Ht Hext c st Hc) as [->|[->|[(f & rest & ->)|(y & b & u & rest & -> & _)]]]; [done..|].
    (* the owner of a SyncFuture parks only in await mode *)
    destruct (y_frames _ _ (ya_y _ _ (reachable_yall nev T HA _ _ _ _ Hwf Hr)) c _ _ Hc (elem_of_list_here _ _)) as (_ & _ & _ & _ & _ & _ & _ & _ & Hu).
    cbn in Hinv. by rewrite (Hu eq_refl) in Hinv.
  Qed.
End Final.
Print Assumptions futsync_terminal_any_pool.
Print Assumptions dropping_caller_finishes.
