(* C06: a wake-up for a suspended future operation is never lost.  The obligations of the invariant as boolean functions;
   [frames_ok] / [wake_ok] are their conjunction over a whole state, WakeInv.Inv_wake the form the proofs use *)
From stdpp Require Import list numbers option.
From RecordUpdate Require Import RecordUpdate.
From L2 Require Import Model Base Own Jobs.
#[global] Unset Lia Cache.

#[export] Instance waker_eq_dec : EqDecision waker. Proof. solve_decision. Defined.
#[export] Instance fprim_eq_dec : EqDecision fprim. Proof. solve_decision. Defined.
#[export] Instance jstate_eq_dec : EqDecision jstate. Proof. solve_decision. Defined.
#[export] Instance job_eq_dec : EqDecision job. Proof. solve_decision. Defined.
#[export] Instance fuse_eq_dec : EqDecision fuse. Proof. solve_decision. Defined.
#[export] Instance cop_eq_dec : EqDecision cop. Proof. solve_decision. Defined.
#[export] Instance kont_eq_dec : EqDecision kont. Proof. solve_decision. Defined.
#[export] Instance ystate_eq_dec : EqDecision ystate. Proof. solve_decision. Defined.
#[export] Instance ypc_eq_dec : EqDecision ypc. Proof. solve_decision. Defined.
#[export] Instance ydat_eq_dec : EqDecision ydat. Proof. solve_decision. Defined.
#[export] Instance frame_eq_dec : EqDecision frame. Proof. solve_decision. Defined.

Definition posb (n : nat) : bool := match n with 0 => false | S _ => true end.
Definition is_wake (w : waker) (fr : frame) : bool := match fr with FWake w' => bool_decide (w' = w) | _ => false end.
Definition is_unpark (c : nat) (fr : frame) : bool := match fr with FUnpark c' => bool_decide (c' = c) | _ => false end.
Definition is_rq1 (fr : frame) : bool := match fr with FRQ1 => true | _ => false end.
Definition is_push (fr : frame) : bool := match fr with FRQ2 | FD2 => true | _ => false end.

Definition unfreg (s : state) (e : nat) (w : waker) : bool :=
  negb (getev s e).(fired) && bool_decide (w ∈ (getev s e).(wakers)).
(* calling w (now) ends in WakeQueue.wake: directly, through a DrainWaker that holds it, through a DoubleWaker *)
Definition dbl_q (s : state) (k : nat) : bool := match getdbl s k with Some (WQueue, _) => true | _ => false end.
Definition effw (s : state) (w : waker) : bool := match w with WQueue => true | WDouble k => dbl_q s k | _ => false end.
Definition effq (s : state) (w : waker) : bool :=
  match w with
  | WDrain d => match getdw s d with (DWWillWake, Some w') => effw s w' | _ => false end
  | _ => effw s w
  end.
Definition dw_woken (s : state) (d : nat) : bool := match (getdw s d).1 with DWWoken => true | _ => false end.
(* the wake-up of DrainWaker d is guaranteed (before wake_with has been called) *)
Definition gd (s : state) (e d : nat) : bool := unfreg s e (WDrain d) || posb (np (is_wake (WDrain d)) s) || dw_woken s d.
Definition gq (s : state) (e : nat) : bool := unfreg s e WQueue || posb (np (is_wake WQueue) s).
Definition gt (s : state) (c e : nat) : bool := unfreg s e (WThread c) || posb (np (is_wake (WThread c)) s).

Definition exf (f : frame -> bool) (s : state) : bool := existsb (existsb f) (stacks s).
(* some wake-up that reaches WakeQueue is registered with e (unfired), or in flight, or about to be installed by wake_with *)
Definition cfr (s : state) (e : nat) (fr : frame) : bool :=
  match fr with FWake w => effq s w | FWakeWith d w => effw s w && gd s e d | _ => false end.
Definition cover (s : state) (e : nat) : bool :=
  (negb (getev s e).(fired) && existsb (effq s) (getev s e).(wakers)) || exf (cfr s e) s.

Definition hsusp (s : state) : option nat := match s.(jobs) with j :: _ => susp j | [] => None end.
Definition awoken (s : state) : bool := match s.(qs) with AwokenWhileRunning => true | _ => false end.
Definition tokb (s : state) (c : nat) : bool := default false (toks s !! c).
(* the context waker a job is polled with *)
Definition ctxw (c : nat) (k : kont) : waker := match k with KDrain => WQueue | KRoj => WThread c | KDq f d => WDrain d end.
(* the obligation attached to a frame of actor c *)
Definition frame_ok (s : state) (c : nat) (fr : frame) : bool :=
  match fr with
  | FDRrequeue j => match susp j with Some e => awoken s || gq s e | None => false end
  | FDRpend => match hsusp s with Some e => awoken s || gq s e | None => false end
  | FROpend j => match susp j with Some e => awoken s || gt s c e | None => false end
  | FROcheck j => match susp j with Some e => if is_wfu s.(qs) then gt s c e else true | None => false end
  | FROpark j => match susp j with
                 | Some e => if is_wfu s.(qs) then gt s c e else tokb s c || posb (np (is_unpark c) s) || gt s c e
                 | None => false end
  | FDQrequeue f d j => match susp j with Some e => gd s e d | None => false end
  | FDQtake2 f d | FDQwfw f d | FDQstore f d | FDQwfp f d => match hsusp s with Some e => gd s e d | None => false end
  | FJob j w k => bool_decide (w = ctxw c k)
  | _ => true
  end.
Definition frames_ok (s : state) : bool :=
  forallb (fun '(c, st) => forallb (frame_ok s c) st) (imap (fun c st => (c, st)) (stacks s)).
(* the obligation attached to the queue state when nobody runs the queue *)
Definition queue_ok (s : state) : bool :=
  match s.(qs) with
  | WaitingForWake => match hsusp s with Some e => cover s e | None => false end
  | WaitingForPoll f =>
      match hsusp s with Some e => cover s e || posb (np is_rq1 s) || posb (np is_push s) || posb s.(insched) | None => false end
  | Idle => match s.(jobs) with
            | [] => true
            | _ => posb (np is_rq1 s) || match hsusp s with Some e => cover s e | None => false end
            end
  | Pending => posb (np is_push s + s.(insched))
  | _ => true
  end.
Definition wake_ok (s : state) : bool := frames_ok s && queue_ok s.
