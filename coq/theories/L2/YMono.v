(* C08: the clauses of Inv_y about frames and jobs are stable under steps that only add to the state *)
From stdpp Require Import list numbers option.
From RecordUpdate Require Import RecordUpdate.
From L2 Require Import Model Base Own Jobs Fut YDefs.
#[global] Unset Lia Cache.

Record ext (s s' : state) : Prop := {
  x_in : forall t, t ∈ Ys s -> t ∈ Ys s';
  x_new : forall t, t ∈ Ys s' -> t ∈ Ys s \/ (s.(nextop) <= t.1.1 /\ length s.(futs) <= t.1.2);
  x_fired : forall e, e < length s.(evs) -> firedP s e -> firedP s' e;
  x_futs : length s.(futs) <= length s'.(futs);
  x_nop : s.(nextop) <= s'.(nextop);
  x_evs : length s.(evs) <= length s'.(evs);
  x_log : forall e, e ∈ s.(log) -> e ∈ s'.(log);
}.
Definition yev_of (e : gev) : option nat :=
  match e with GUStart o | GUStep o | GUFinish o | GUCancel o | GYdrop o => Some o | _ => None end.

Section Ext.
  Context (nev : nat) (s s' : state) (X : ext s s').
  Context (Hrng : forall o f r, (o, f, r) ∈ Ys s -> r + 1 < length s.(evs)).
  Lemma noy_ext o : o < s.(nextop) -> noy s o -> noy s' o.
  Proof. intros Ho H f r Hin. destruct (x_new _ _ X _ Hin) as [?|[? _]]; [by eapply H|cbn in *; lia]. Qed.
  Lemma noy_back o : noy s' o -> noy s o.
  Proof. intros H f r Hin. eapply H. by apply (x_in _ _ X). Qed.
  Lemma futok_ext f : futok s f -> futok s' f.
  Proof.
    intros [H1 H2]. split; [pose proof (x_futs _ _ X); lia|]. intros o r Hin.
    destruct (x_new _ _ X _ Hin) as [?|[_ ?]]; [apply (x_log _ _ X); by eapply H2|cbn in *; lia].
  Qed.
  Lemma tkok_ext tk : tkok s tk -> tkok s' tk.
  Proof. destruct tk; [apply futok_ext|done]. Qed.
  Lemma usrp_ext p : usrp nev s p -> usrp nev s' p.
  Proof.
    destruct p; try done. cbn. intros [H1 H2]. split; [pose proof (x_futs _ _ X); lia|]. intros o r Hin.
    destruct (x_new _ _ X _ Hin) as [?|[_ ?]]; [by eapply H2|cbn in *; lia].
  Qed.
  Lemma scok_ext o st sc : o < s.(nextop) -> scok nev s o st sc -> scok nev s' o st sc.
  Proof.
    intros Ho [H1 H2]. split.
    - intros f r Hin. destruct (x_new _ _ X _ Hin) as [Hold|[? _]]; [|cbn in *; lia].
      destruct (H1 _ _ Hold) as [?|[? [Hr [?|[Hf ?]]]]]; [by left| |].
      + right. split; [done|]. split; [apply (x_fired _ _ X); [specialize (Hrng _ _ _ Hold); lia|done]|by left].
      + right. split; [done|]. split; [apply (x_fired _ _ X); [specialize (Hrng _ _ _ Hold); lia|done]|]. right.
        split; [apply (x_fired _ _ X); [specialize (Hrng _ _ _ Hold); lia|done]|done].
    - intros Hn. specialize (H2 (noy_back _ Hn)). rewrite Forall_forall in H2 |- *. intros p Hp. by apply usrp_ext, H2.
  Qed.
  Lemma jobok_ext j : jobok nev s j -> jobok nev s' j.
  Proof.
    intros [Ho H]. split; [pose proof (x_nop _ _ X); lia|]. destruct j as [o|o st sc|o c tk]; cbn in Ho.
    - by apply noy_ext.
    - by apply scok_ext.
    - destruct H. split; [by apply noy_ext|by apply tkok_ext].
  Qed.
  Lemma yfrok_ext pc y st u :
    (firedP s' (S y.(y_r)) -> firedP s (S y.(y_r))) -> (forall e, yev_of e = Some y.(y_op) -> e ∈ s'.(log) -> e ∈ s.(log)) ->
    yfrok nev s pc y st u -> yfrok nev s' pc y st u.
  Proof.
    intros Hd Hu (H1 & H2 & H3 & H4 & H5 & H6 & H7 & H8).
    assert (Hiff : forall e, yev_of e = Some y.(y_op) -> e ∈ s'.(log) <-> e ∈ s.(log)).
    { intros e He. split; [by apply Hu|apply (x_log _ _ X)]. }
    split; [by apply (x_in _ _ X)|]. split; [tauto|]. split; [rewrite Hiff by done; done|].
    rewrite !Hiff by done. split; [done|]. split; [done|]. split; [done|]. split; [|done].
    intros Hy. apply (x_fired _ _ X); [specialize (Hrng _ _ _ H1); lia|by apply H7].
  Qed.
  Lemma frok_ext fr :
    (forall pc y st u, fr = FY pc y st u ->
       (firedP s' (S y.(y_r)) -> firedP s (S y.(y_r))) /\ (forall e, yev_of e = Some y.(y_op) -> e ∈ s'.(log) -> e ∈ s.(log))) ->
    frok nev s fr -> frok nev s' fr.
  Proof.
    intros HY H. destruct fr; cbn in H |- *; try done; try (by apply jobok_ext); try (by apply futok_ext).
    all: try (destruct H as (H1 & H2 & H3); split; [pose proof (x_nop _ _ X); lia|]; split; [by apply noy_ext|by apply tkok_ext]).
    destruct (HY _ _ _ _ eq_refl) as [Hd Hu]. by apply yfrok_ext.
  Qed.
End Ext.
