(* a DrainWaker d is referred to by at most one frame (the poller's frames of that job poll, then the pending wake_with), and
   it is in state WillWake only after that wake_with has been executed *)
From stdpp Require Import list numbers option.
From RecordUpdate Require Import RecordUpdate.
From L2 Require Import Model Base Arm Own.
#[global] Unset Lia Cache.

Definition carries (d : nat) (fr : frame) : bool :=
  match fr with
  | FJob _ _ (KDq _ d') | FDQrequeue _ d' _ | FDQtake2 _ d' | FDQwfw _ d' | FDQstore _ d' | FDQwfp _ d' | FWakeWith d' _ => bool_decide (d' = d)
  | _ => false
  end.
Definition will (s : state) (d : nat) : bool := match (getdw s d).1 with DWWillWake => true | _ => false end.
Record Inv_dw (s : state) : Prop := {
  id_one : forall d, np (carries d) s + b2n (will s d) <= 1;
  id_fresh : forall d, length s.(dws) <= d -> np (carries d) s = 0;
}.
Record dw_cond (T : ftables) : Prop := {
  dc_wake : forall st, (T.(t_dw_wake) st).1 <> DWWillWake;
}.

Lemma will_setdw_ne s d d0 c : d <> d0 -> will (setdw s d0 c) d = will s d.
Proof. intros H. unfold will, getdw, setdw; cbn. by rewrite list_lookup_insert_ne. Qed.
Lemma will_setdw_eq s d c : will (setdw s d c) d = true -> c.1 = DWWillWake.
Proof.
  unfold will, getdw, setdw; cbn. destruct (decide (d < length (dws s))).
  - rewrite list_lookup_insert by done. cbn. by destruct c.1.
  - rewrite lookup_ge_None_2 by (rewrite insert_length; lia). done.
Qed.
Lemma will_fresh s d : length s.(dws) <= d -> will s d = false.
Proof. intros H. unfold will, getdw. by rewrite lookup_ge_None_2. Qed.
Lemma will_app s d x (s' : state) : s'.(dws) = s.(dws) ++ [x] -> x.1 <> DWWillWake -> will s' d = true -> will s d = true.
Proof.
  intros H Hx. unfold will, getdw. rewrite H. destruct (decide (d < length (dws s))).
  - by rewrite lookup_app_l.
  - rewrite lookup_app_r by lia. destruct (d - length (dws s)) as [|m]; cbn; [by destruct x.1|]. done.
Qed.
Lemma will_same s s' d : s'.(dws) = s.(dws) -> will s' d = will s d.
Proof. intros H. unfold will, getdw. by rewrite H. Qed.

Section Pres.
  Context (T : ftables) (HD : dw_cond T).
  Lemma step_dw s a s' : Inv_dw s -> step T s a = Some s' -> Inv_dw s'.
  Proof.
    intros [I1 I2] (l & r & Hst & Hs' & Hg & He)%step_arm.
    pose proof (fun d => np_arm (carries d) s s' a l r Hst Hs') as Hu. pose proof (e_dws _ _ _ _ _ He) as Hd. clear Hst Hs' He.
    split; intros d; specialize (Hu d); specialize (I1 d); pose proof (I2 d) as I2'; [|intros Hlen; rewrite Hd in Hlen].
    all: destruct l; try destruct k; cbn in Hu, Hd, Hg |- *; try cbn in Hlen.
    all: rewrite ?cntf_app, ?cntf_opt_wake, ?cntf_fired_frames, ?cntf_cont_fr in Hu by done; cbn in Hu.
    (* dws untouched *)
    all: try (rewrite (will_same s s' d Hd); repeat case_bool_decide; lia).
    all: try (specialize (I2' Hlen); repeat case_bool_decide; lia).
    (* the arms that allocate or write a DrainWaker cell *)
    all: try (rewrite ?app_length, ?insert_length in Hlen; cbn in Hlen; specialize (I2' ltac:(lia)); repeat case_bool_decide; lia).
    all: try (lazymatch type of Hd with _ = _ ++ _ => idtac end; (* drain_queue takes a fresh DrainWaker *)
              case_bool_decide as Hdd;
              [ subst d; rewrite (I2 _ (le_n _)) in Hu; assert (will s' (length (dws s)) = false) as ->; [|cbn; lia];
                unfold will, getdw; by rewrite Hd, lookup_app_r, Nat.sub_diag by lia
              | destruct (will s' d) eqn:Ew; [|cbn; lia]; rewrite (will_app s d _ s' Hd) in I1 by done; cbn in *; lia ]).
    all: lazymatch type of Hd with _ = <[?d0 := ?c]> _ => rewrite (will_same (setdw s d0 c) s' d Hd);
           destruct (decide (d = d0)) as [->|Hne]; [|rewrite will_setdw_ne by done; repeat case_bool_decide; try congruence; lia] end.
    all: repeat case_bool_decide; try congruence.
    all: lazymatch goal with |- _ + b2n (will ?x ?dd) <= 1 => destruct (will x dd) eqn:Ew; [|cbn in *; lia] end.
    all: try (destruct (will s d0); cbn in *; lia).
    all: apply will_setdw_eq in Ew; cbn in Ew; destruct Hg as [_ Hg]; pose proof (dc_wake _ HD st) as Hn; rewrite Hg in Hn; done.
  Qed.
End Pres.

Lemma init_dw scripts npool nev : Inv_dw (init scripts npool nev).
Proof. split; intros d; [|intros _]; rewrite np_init by done; [|done]. unfold will, getdw, init; cbn [dws]. rewrite lookup_nil. cbn. lia. Qed.
