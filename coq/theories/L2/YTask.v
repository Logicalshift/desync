(* future_sync: the owner task of a SyncFuture that has returned Pending (waiting for queue_ready, or inside the user future waiting
   for an external event) is going to be woken: its task waker is registered with the cell it waits for, or a wake-up / unpark
   is in flight, or the token is there.  (In WaitingForScheduler the SyncFuture is its SchedulerFuture: Task.twf.) *)
From stdpp Require Import list numbers option.
From RecordUpdate Require Import RecordUpdate.
From L2 Require Import Model Base Arm Own Jobs Shape OpShape DwInv Fut Wake WakeInv WakeLem WakeStep1 WakeStep2 WakeStep3 WakeStep4 WakeStep5 Term TaskPend Task TaskInv.
#[global] Unset Lia Cache.

Definition twr (s : state) (c e : nat) : bool :=
  tokb s c || posb (np (is_unpark c) s) || posb (np (is_wake (WTask c)) s) || unfreg s e (WTask c).
Definition twr2 (s : state) (c e1 e2 : nat) : bool :=
  tokb s c || posb (np (is_unpark c) s) || posb (np (is_wake (WTask c)) s) || (unfreg s e1 (WTask c) && unfreg s e2 (WTask c)).
Definition yguar (s : state) (c : nat) (y : ydat) (st : ystate) : bool :=
  match st with
  | YQueue _ => twr s c y.(y_r)
  | YFuture (PAwait e :: _) => twr s c e
  | YFuture (PAwaitEither e1 e2 :: _) => twr2 s c e1 e2
  | _ => false
  end.
Definition yob (s : state) (c : nat) (fr : frame) : bool :=
  match fr with FY YPpend y st _ | FY YPpark y st _ => yguar s c y st | _ => true end.
Definition Inv_ytw (s : state) : Prop := forall c st fr, stacks s !! c = Some st -> fr ∈ st -> yob s c fr = true.

Lemma twr_true s c e : twr s c e = true <-> tpend s c = true \/ unfreg s e (WTask c) = true.
Proof. unfold twr. fold (tpend s c). by rewrite orb_true_iff. Qed.
Lemma twr2_true s c e1 e2 : twr2 s c e1 e2 = true <-> tpend s c = true \/ (unfreg s e1 (WTask c) = true /\ unfreg s e2 (WTask c) = true).
Proof. unfold twr2. fold (tpend s c). by rewrite orb_true_iff, andb_true_iff. Qed.
(* an obligation only looks at the pending wake-up and at the registrations of the task waker *)
Lemma yob_keep s s' c fr :
  (tpend s c = true -> tpend s' c = true) ->
  (forall e, unfreg s e (WTask c) = true -> unfreg s' e (WTask c) = true \/ tpend s' c = true) ->
  yob s c fr = true -> yob s' c fr = true.
Proof.
  intros Hp He.
  assert (H1 : forall e, twr s c e = true -> twr s' c e = true).
  { intros e. rewrite !twr_true. intros [H|H]; [left; by apply Hp|]. destruct (He e H); [by right|by left]. }
  assert (H2 : forall e1 e2, twr2 s c e1 e2 = true -> twr2 s' c e1 e2 = true).
  { intros e1 e2. rewrite !twr2_true. intros [H|[Ha Hb]]; [left; by apply Hp|].
    destruct (He e1 Ha); [|by left]. destruct (He e2 Hb); [by right|by left]. }
  destruct fr; try done. destruct pc; try done; cbn; destruct st as [b|[|[] b]]; try done; try apply H1; apply H2.
Qed.
Lemma isy_opfr fr : (match fr with FY _ _ _ _ => True | _ => False end) -> opfr fr = true. Proof. by destruct fr. Qed.
Lemma yob_rest_trivial s a fr0 rest s' c fr : Inv_op s -> stacks s !! a = Some (fr0 :: rest) -> opfr fr0 = true -> fr ∈ rest -> yob s' c fr = true.
Proof. intros HP Hst Ho Hin. pose proof (below_op s a fr0 rest fr HP Hst Ho Hin). by destruct fr. Qed.

Lemma elem_of_filter_keep (P : waker -> bool) w l : P w = true -> w ∈ l -> w ∈ List.filter P l.
Proof. intros HP Hin. apply elem_of_list_In, filter_In. split; [by apply elem_of_list_In|done]. Qed.
Lemma getev_ins (s s' : state) e x e' : evs s' = <[e := x]> (evs s) -> getev s' e' = getev s e' \/ (e' = e /\ e < length (evs s) /\ getev s' e' = x).
Proof.
  intros H. unfold getev. rewrite H. destruct (decide (e' = e)) as [->|Hne]; [|left; by rewrite list_lookup_insert_ne].
  destruct (decide (e < length (evs s))); [right; by rewrite list_lookup_insert|left; by rewrite list_insert_ge by lia].
Qed.
Lemma unfreg_wakers (s s' : state) e ws e' w : evs s' = <[e := getev s e <| wakers := ws |>]> (evs s) ->
  (w ∈ (getev s e).(wakers) -> w ∈ ws) -> unfreg s e' w = true -> unfreg s' e' w = true.
Proof.
  intros H Hws. unfold unfreg. destruct (getev_ins s s' e _ e' H) as [->|(-> & _ & ->)]; [done|]. cbn.
  intros [Hf Hin]%andb_true_iff. rewrite Hf. cbn. apply bool_decide_eq_true in Hin. apply bool_decide_eq_true. by apply Hws.
Qed.
Lemma unfreg_set_in (s s' : state) e ws w : evs s' = <[e := getev s e <| wakers := ws |>]> (evs s) ->
  (getev s e).(fired) = false -> w ∈ ws -> unfreg s' e w = true.
Proof.
  intros H Hf Hin. pose proof (getev_fired_range _ _ Hf) as Hlt. set (x := getev s e <| wakers := ws |>) in *.
  assert (E : getev s' e = x) by (unfold getev; by rewrite H, list_lookup_insert).
  unfold unfreg. rewrite E. cbn. rewrite Hf. cbn. by apply bool_decide_eq_true.
Qed.
(* a oneshot receiver replaces its own waker and keeps those of the other tasks *)
Lemma rereg_keeps a c (l : list waker) : WTask c ∈ l -> WTask c ∈ WTask a :: List.filter (fun w => negb (is_task a w)) l.
Proof.
  intros Hin. destruct (decide (c = a)) as [->|Hne]; [left|right]. apply elem_of_filter_keep; [|done]. cbn. by apply negb_true_iff, Nat.eqb_neq.
Qed.
(* the event fires: a registered task waker is now in flight on the firing thread *)
Lemma unfreg_fired (s s' : state) a old post e e' c :
  stacks s !! a = Some old -> stacks s' = <[a := fired_frames s e ++ post]> (stacks s) ->
  evs s' = <[e := {| fired := true; wakers := [] |}]> (evs s) ->
  unfreg s e' (WTask c) = true -> unfreg s' e' (WTask c) = true \/ tpend s' c = true.
Proof.
  intros Ha Hs Hev Hu. destruct (getev_ins s s' e _ e' Hev) as [E|(-> & _ & _)]; [left; unfold unfreg; by rewrite E|].
  right. unfold unfreg in Hu. apply andb_true_iff in Hu as [_ Hin]. apply bool_decide_eq_true in Hin.
  apply (tpend_wake s' a). eapply fsat_new; [exact Ha|exact Hs|]. apply elem_of_app. left. apply in_wake_frames. by apply elem_of_rev.
Qed.
Lemma unfreg_alloc s (s' : state) l e w : s'.(evs) = s.(evs) ++ l -> unfreg s e w = true -> unfreg s' e w = true.
Proof.
  intros H Hu. unfold unfreg in *. assert (Hlt : e < length (evs s)).
  { apply andb_true_iff in Hu as [Hf _]. apply negb_true_iff in Hf. by apply getev_fired_range. }
  unfold getev in *. by rewrite H, lookup_app_l.
Qed.
Lemma getev_reg_fired s e w e' : (getev (setev s e (getev s e <| wakers := w :: (getev s e).(wakers) |>)) e').(fired) = (getev s e').(fired).
Proof.
  destruct (decide (e' = e)) as [->|Hne]; [|by rewrite getev_setev_ne].
  destruct (decide (e < length (evs s))); [by rewrite getev_setev_eq|]. unfold getev, setev; cbn. by rewrite list_insert_ge by lia.
Qed.

(* the one step that gives a registration up: the owner drops its receiver *)
Definition ydrop (fr : frame) : bool := match fr with FY YPdrop1 _ _ _ => true | _ => false end.

Section YT.
  Context (T : ftables).
  Lemma step_unfreg s a s' fr rest e c : step T s a = Some s' -> stacks s !! a = Some (fr :: rest) -> unfreg s e (WTask c) = true ->
    unfreg s' e (WTask c) = true \/ tpend s' c = true \/ (c = a /\ ydrop fr = true).
  Proof.
    intros (l & r & Hst & Hs' & _ & He)%step_arm Hst0 Hu. rewrite Hst in Hst0. pose proof (e_evs _ _ _ _ _ He) as Hev. clear He.
    destruct l; cbn [arm_old arm_evs arm_new app] in *; injection Hst0 as <- _.
    all: try (left; by rewrite (unfreg_evs s s' e _ Hev)).
    (* future_sync allocates its two oneshot cells *)
    { left. by eapply (unfreg_alloc s). }
    all: rewrite <- ?app_assoc in Hs'.
    (* an event fires / a oneshot is sent or dropped *)
    all: try (apply or_assoc; left; by eapply (unfreg_fired s s' a _ _ _ e c Hst Hs' Hev)).
    (* the owner drops its receiver: its own waker is discarded *)
    all: try (lazymatch goal with |- _ \/ _ \/ (_ /\ ydrop (FY YPdrop1 _ _ _) = true) =>
              destruct (decide (c = a)) as [->|Hne]; [by right; right|];
              left; apply (unfreg_wakers s s' _ _ _ _ Hev); [|exact Hu]; intros Hin; apply elem_of_filter_keep; [cbn; by apply negb_true_iff, Nat.eqb_neq|done] end).
    (* a waker is registered: the task wakers already there stay *)
    all: left; unfold addw in Hev.
    all: lazymatch type of Hev with
         | _ = evs (setev (setev _ ?e1 ?c1) _ _) =>
             apply (unfreg_wakers (setev s e1 c1) s' _ _ _ _ Hev); [by right|]; apply (unfreg_wakers s (setev s e1 c1) _ _ _ _ eq_refl); [by right|exact Hu]
         | _ => apply (unfreg_wakers s s' _ _ _ _ Hev); [|exact Hu]; intros Hin; first [by right | right; by apply elem_of_filter_keep | by apply rereg_keeps]
         end.
  Qed.

  (* an obligation is stable, except that the owner uses its own up when it returns from the park or drops the future *)
  Lemma step_yob s a s' fr0 rest c st fr : Inv_op s -> step T s a = Some s' -> stacks s !! a = Some (fr0 :: rest) ->
    stacks s !! c = Some st -> fr ∈ st -> yob s c fr = true ->
    yob s' c fr = true \/ (c = a /\ fr = fr0 /\ parks fr0 || ydrop fr0 = true).
  Proof.
    intros HP Hstep Hst Hc Hin Hy.
    destruct (decide (c = a /\ parks fr0 || ydrop fr0 = true)) as [[-> Hx]|Hn].
    - rewrite Hst in Hc. injection Hc as <-. apply elem_of_cons in Hin as [->|Hin]; [by right|left].
      eapply (yob_rest_trivial s a fr0 rest); [done|done| |done]. by destruct fr0.
    - left. revert Hy. apply yob_keep.
      + intros Hp. destruct (step_tpend T s a s' c fr0 rest Hstep Hst ltac:(by eapply lookup_lt_Some) Hp) as [?|[<- Hpk]]; [done|].
        destruct Hn. by rewrite Hpk.
      + intros e Hu. destruct (step_unfreg s a s' fr0 rest e c Hstep Hst Hu) as [?|[?|[-> Hd]]]; [by left|by right|].
        destruct Hn. by rewrite Hd, orb_true_r.
  Qed.

  Lemma step_ytw s a s' : Inv_op s -> Inv_ytw s -> step T s a = Some s' -> Inv_ytw s'.
  Proof.
    intros HP HI Hstep.
    (* the old frames: of the stepping actor's own top frame only what is below it is still there *)
    assert (Hold : forall fr0 rest (new : list frame), stacks s !! a = Some (fr0 :: rest) ->
              (parks fr0 || ydrop fr0 = true -> fr0 ∈ new -> yob s' a fr0 = true \/ fr0 ∈ rest) ->
              forall c st fr, stacks s !! c = Some st -> fr ∈ st -> (c = a -> fr ∈ new) -> yob s c fr = true -> yob s' c fr = true).
    { intros fr0 rest new Hst Hx c st fr Hc Hin Hca Hy.
      destruct (step_yob s a s' fr0 rest c st fr HP Hstep Hst Hc Hin Hy) as [?|(-> & -> & Hp)]; [done|].
      destruct (Hx Hp (Hca eq_refl)) as [?|Hr]; [done|]. eapply (yob_rest_trivial s a fr0 rest); [done|done| |done]. by destruct fr0. }
    pose proof Hstep as (l & r & Hst & Hs' & Hg & He)%step_arm. pose proof (e_evs _ _ _ _ _ He) as Hev. clear He.
    destruct l; try match goal with c : cont |- _ => destruct c end; try destruct k; cbn [arm_old arm_new arm_evs arm_guard cont_fr app] in *.
    all: rewrite <- ?app_assoc in Hs'; cbn [app] in Hs'; unfold fired_frames in Hs'.
    all: try (lazymatch type of Hs' with context [upolls ?u] => destruct (upolls u) end).
    all: try (lazymatch type of Hg with ygoto ?pc ?st = _ => destruct pc, st; try discriminate Hg; injection Hg as <- end).
    all: unfold Inv_ytw; eapply (frames_update (fun s c fr => yob s c fr = true) s s' a _ _ Hst Hs'); [ |apply (Hold _ _ _ Hst)|exact HI].
    all: try (lazymatch goal with |- _ = true -> _ ∈ _ -> _ =>
              first [discriminate | intros _ [Heq|Hr]%elem_of_cons; [discriminate Heq|by right] | intros _ _; by left] end).
    all: try (lazymatch goal with |- forall fr, fr ∈ _ -> fr ∈ _ \/ _ => new_frames end).
    - (* the poll returned Pending, the task goes to sleep: the obligation is carried over *)
      by destruct (step_yob s a _ _ _ a _ (FY YPpend y st UAwait) HP Hstep Hst Hst ltac:(left) (HI a _ _ Hst ltac:(left))) as [H|(_ & _ & [=])].
    - (* YPrecv registers the task waker with queue_ready *)
      cbn [yob yguar]. apply twr_true. right. apply (unfreg_set_in s s' _ _ _ Hev Hg). left.
    - (* the user future registers with an event *)
      cbn [yob yguar]. apply twr_true. right. apply (unfreg_set_in s s' _ _ _ Hev Hg). left.
    - (* ... with two events *)
      cbn [yob yguar]. apply twr2_true. right. apply orb_false_iff in Hg as [F1 F2].
      set (s1 := setev s e1 (getev s e1 <| wakers := WTask a :: (getev s e1).(wakers) |>)) in *. split.
      + apply (unfreg_wakers s1 s' _ _ _ _ Hev); [by right|]. apply (unfreg_set_in s s1 _ _ _ eq_refl F1). left.
      + apply (unfreg_set_in s1 s' _ _ _ Hev); [unfold s1; by rewrite getev_reg_fired|left].
  Qed.
End YT.

Lemma init_ytw scripts npool nev : Inv_ytw (init scripts npool nev).
Proof. intros c st fr Hc Hin. destruct (init_stacks _ _ _ _ _ Hc) as [->|[sc ->]]; by apply elem_of_list_singleton in Hin as ->. Qed.
