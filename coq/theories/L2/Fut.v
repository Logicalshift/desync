(* C07, safety parts: a scheduler-future result is taken at most once (the code's "already returned" panic is unreachable),
   because exactly one consumer (frame or sync job) refers to a future until its result has been taken *)
From stdpp Require Import list numbers option.
From RecordUpdate Require Import RecordUpdate.
From L2 Require Import Model Base Arm Own Shape.
#[global] Unset Lia Cache.

(* the consumer of future f: the caller's await / drop / sync() frames and the sync job that reads it;
   the poll frames above an await continuation are not counted (weight 0) *)
Definition wj (f : nat) (j : job) : bool := match j with JSync _ _ (Some f') => bool_decide (f' = f) | _ => false end.
Definition wf (f : nat) (fr : frame) : bool :=
  match fr with
  | FUse f' _ | FAwRet f' | FPark f' | FDropRet f' _ | FFS1 f' => bool_decide (f' = f)
  | FY _ y _ _ => bool_decide (y.(y_f) = f)          (* the SyncFuture owns its SchedulerFuture until that returns Ready or is dropped *)
  | FS1 _ (Some f') | FClosure _ (Some f') | FSDpush _ (Some f') | FSBreg _ (Some f') | FSBpush _ (Some f') => bool_decide (f' = f)
  | FJob j _ _ | FDRrequeue j | FDQrequeue _ _ j | FROpend j | FROcheck j | FROpark j | FD1 j => wj f j
  | _ => false
  end.
Fixpoint cntj (f : nat) (l : list job) : nat := match l with [] => 0 | j :: r => (if wj f j then 1 else 0) + cntj f r end.
Definition tot (f : nat) (s : state) : nat := np (wf f) s + cntj f s.(jobs).
Lemma cntj_app f a b : cntj f (a ++ b) = cntj f a + cntj f b. Proof. induction a; cbn; lia. Qed.

(* a poll frame for f sits directly on the continuation frame of the await / drop loop for f *)
Definition pollfam (fr : frame) : option nat :=
  match fr with
  | FSFpoll f | FDQtake f | FDQdeq f | FDQrequeue f _ _ | FDQtake2 f _ | FDQstore f _ | FDQwfp f _ | FDQempty1 f | FDQempty2 f
  | FJob _ _ (KDq f _) => Some f
  | _ => None
  end.
Definition iscont (f : nat) (fr : frame) : bool :=
  match fr with FAwRet f' | FDropRet f' _ => bool_decide (f' = f) | FY YPsfret y _ _ => bool_decide (y.(y_f) = f) | _ => false end.
Definition adjok (x : frame) (r : list frame) : bool :=
  match pollfam x with Some f => match r with y :: _ => iscont f y | [] => false end | None => true end.
Fixpoint pollall (st : list frame) : bool := match st with [] => true | x :: r => adjok x r && pollall r end.

(* number of times the result of f has been delivered (ghost log) *)
Fixpoint nres (f : nat) (l : list gev) : nat :=
  match l with [] => 0 | GResolve f' _ :: r => (if bool_decide (f' = f) then 1 else 0) + nres f r | _ :: r => nres f r end.
Record Inv_fut (s : state) : Prop := {
  if_one : forall f, nres f s.(log) + tot f s <= 1;
  if_ret : forall f, (getf s f).(res) = FReturned -> tot f s = 0;
  if_fresh : forall f, length s.(futs) <= f -> nres f s.(log) + tot f s = 0;
  if_poll : forall c st, stacks s !! c = Some st -> pollall st = true;
}.

Record fut_cond (T : ftables) : Prop := { fc_dummy : True }.

Lemma pollall_app pre r : pollall (pre ++ r) = true -> pollall r = true.
Proof. induction pre as [|x pre IH]; cbn; [done|]. intros [_ H]%andb_true_iff. by apply IH. Qed.
Lemma pollall_chain pre r : forallb chain pre = true -> pollall r = true -> pollall (pre ++ r) = true.
Proof.
  induction pre as [|x pre IH]; cbn; [done|]. intros [H1 H2]%andb_true_iff Hr. rewrite IH by done.
  by destruct x.
Qed.

Lemma res_setf s f c fq x : (getf (setf s f c) fq).(res) = x -> (fq = f /\ c.(res) = x) \/ (getf s fq).(res) = x.
Proof.
  unfold getf, setf; cbn. destruct (decide (fq = f)) as [->|Hne]; [|rewrite list_lookup_insert_ne by done; by right].
  destruct (decide (f < length (futs s))).
  - rewrite list_lookup_insert by done. cbn. by left.
  - rewrite !lookup_ge_None_2 by (rewrite ?insert_length; lia). by right.
Qed.
(* appended default cells read like the cells that were not there *)
Lemma getf_alloc s (s' : state) l fq : s'.(futs) = s.(futs) ++ l -> Forall (fun c => c = fc0) l -> getf s' fq = getf s fq.
Proof.
  intros H Hl. unfold getf. rewrite H. destruct (decide (fq < length (futs s))); [by rewrite lookup_app_l|].
  rewrite lookup_app_r, (lookup_ge_None_2 (futs s)) by lia. destruct (l !! (fq - length (futs s))) as [c|] eqn:E; [|done].
  apply elem_of_list_lookup_2 in E. by rewrite (proj1 (List.Forall_forall _ _) Hl c) by (by apply elem_of_list_In).
Qed.
Lemma jobs_setf s f c : jobs (setf s f c) = jobs s. Proof. done. Qed.
Lemma getf_futs (s' s : state) f : s'.(futs) = s.(futs) -> getf s' f = getf s f.
Proof. intros H. unfold getf. by rewrite H. Qed.

Lemma pollfam_ret_ready k : pollfam (ret_ready k) = pollfam (FJob (JPlain 0) WQueue k). Proof. by destruct k. Qed.
Lemma pollfam_ret_pending k j : pollfam (ret_pending k j) = pollfam (FJob j WQueue k). Proof. by destruct k. Qed.

(* a poll frame stays on its continuation frame; a poll that returns Ready leaves together with it *)
Lemma pollall_arm s a l r : pollall (arm_old l ++ r) = true -> pollall (arm_new s a l ++ r) = true.
Proof.
  destruct l; cbn [arm_old arm_new app]; intros Hpo.
  all: rewrite <- ?app_assoc; cbn [app].
  all: try (apply pollall_chain; [first [apply chain_fired_frames|apply chain_opt_wake]|]).
  all: cbn [pollall adjok pollfam iscont] in Hpo |- *.
  all: rewrite ?bool_decide_true by done; try done.
  all: unfold adjok in *; rewrite ?pollfam_ret_ready, ?pollfam_ret_pending; try done.
  all: apply andb_true_iff in Hpo as [_ Hpo]; try done.
  all: by apply (pollall_app (cont_fr c)).
Qed.

(* the continuation popped with a Ready poll of f is the consumer frame of f *)
Lemma cont_wf f c r fq : match cont_fr c ++ r with [] => false | y :: _ => iscont f y end = true -> (c = CNone -> nocont r) ->
  cntf (wf fq) (cont_fr c) = if bool_decide (f = fq) then 1 else 0.
Proof.
  destruct c; cbn; [intros H Hn; exfalso; specialize (Hn eq_refl)|intros ->%bool_decide_eq_true _; lia..].
  destruct r as [|[] ?]; try done. by destruct pc.
Qed.

Section Pres.
  Context (T : ftables).
  Lemma step_fut_inv s a s' : Inv_fut s -> step T s a = Some s' -> Inv_fut s'.
  Proof.
    intros [I1 I2 I3 I4] Hstep.
    assert (I4' : forall c st, stacks s' !! c = Some st -> pollall st = true).
    { revert Hstep. apply (allstk_step T (fun st => pollall st = true)); [|done]. intros l r _. apply pollall_arm. }
    apply step_arm in Hstep as (l & r & Hst & Hs' & Hg & He).
    pose proof (I4 _ _ Hst) as Hpo.
    pose proof (fun f => np_arm (wf f) s s' a l r Hst Hs') as Hu.
    split; [| | |exact I4']; clear I4 I4' Hst Hs'.
    all: pose proof (e_futs _ _ _ _ _ He) as Hf.
    all: intros fq; specialize (I1 fq); pose proof (I2 fq) as I2'; pose proof (I3 fq) as I3'; specialize (Hu fq).
    all: unfold tot in *; rewrite ?(e_log _ _ _ _ _ He), ?(e_jobs _ _ _ _ _ He), ?Hf; clear He.
    all: set (n := np (wf fq) s') in *; clearbody n.
    all: destruct l; try destruct k.
    all: cbn [arm_old arm_new arm_log arm_jobs arm_futs arm_guard app] in *.
    all: cbn [cntf wf wj] in Hu; rewrite ?cntf_app, ?cntf_opt_wake, ?cntf_fired_frames in Hu by done; cbn [cntf wf wj ret_ready ret_pending] in Hu.
    all: cbn [nres app]; rewrite ?cntj_app; cbn [cntj wj y_f] in *.
    (* the result cell read in the second clause, in terms of the old state *)
    all: try (intros Hr; lazymatch type of Hf with
              | _ = futs _ => rewrite (getf_futs s' s fq Hf) in Hr; specialize (I2' Hr)
              | _ = futs _ ++ _ => rewrite (getf_alloc s s' _ fq Hf ltac:(repeat constructor)) in Hr; specialize (I2' Hr)
              | _ = <[?f := ?c]> _ => rewrite (getf_futs s' (setf s f c) fq Hf) in Hr; apply res_setf in Hr as [[-> Hr]|Hr];
                  [cbn in Hr; first [discriminate Hr|specialize (I2' Hr)|idtac]|specialize (I2' Hr)]
              end).
    all: try (intros Hlen; rewrite ?app_length, ?insert_length in Hlen; cbn [length] in Hlen; assert (Hx : length (futs s) <= fq) by lia; specialize (I3' Hx)).
    all: lazymatch type of Hg with
         | _ /\ jobs _ = _ :: _ => destruct Hg as [_ Hj]; rewrite Hj in *; cbn [cntj] in *
         | _ /\ (_ = CNone -> _) => apply andb_true_iff in Hpo as [Hpo _]; rewrite (cont_wf _ _ _ _ Hpo (proj2 Hg)) in Hu
         | _ => idtac end.
    (* most arms hand the consumer frame on or do not mention a future; the others compare fq with the arm's future *)
    all: try lia.
    all: try (repeat case_bool_decide; simplify_eq; lia).
    (* left: the second clause at ATopFuture / ATopSuspend / ATopFutSync - a cell that is allocated by this step has not been returned *)
    all: case_bool_decide; [subst; unfold getf in Hr; rewrite lookup_ge_None_2 in Hr by lia; discriminate Hr|lia].
  Qed.
End Pres.

Lemma init_fut scripts npool nev : Inv_fut (init scripts npool nev).
Proof.
  split.
  - intros f. unfold tot. rewrite np_init by done. cbn. lia.
  - intros f _. unfold tot. by rewrite np_init.
  - intros f _. unfold tot. rewrite np_init by done. cbn. lia.
  - by apply (allstk_init (fun st => pollall st = true)).
Qed.

Lemma tot_pos s c st fr f : stacks s !! c = Some st -> fr ∈ st -> wf f fr = true -> tot f s >= 1.
Proof.
  intros Hc Hin Hw. unfold tot. assert (np (wf f) s > 0); [|lia]. apply npl_pos. exists c, st. split; [done|].
  apply cntf_pos. by exists fr.
Qed.

(* the code's panics are unreachable *)
Lemma fut_no_panic T s a : own_cond T -> Inv_own s -> Inv_fut s -> would_panic T s a = false.
Proof.
  intros HT HO [I1 I2 I3 I4]. unfold would_panic. destruct (actors s !! a) as [ac|] eqn:Ea; [|done].
  destruct (stack ac) as [|fr rest] eqn:Est; [done|].
  pose proof (stacks_lookup _ _ _ Ea) as Hst. rewrite Est in Hst. pose proof (I4 _ _ Hst) as Hp.
  assert (Hret : forall f fr', fr' ∈ fr :: rest -> wf f fr' = true -> (getf s f).(res) <> FReturned).
  { intros f fr' Hin Hw Hr. pose proof (tot_pos s a _ fr' f Hst Hin Hw). rewrite (I2 f Hr) in H. lia. }
  assert (Hcont : forall f, pollfam fr = Some f -> (getf s f).(res) <> FReturned).
  { intros f Hf. cbn in Hp. apply andb_true_iff in Hp as [Hp _]. unfold adjok in Hp. rewrite Hf in Hp.
    destruct rest as [|y r]; [done|]. apply (Hret f y); [right; left|]. destruct y; try done. by destruct pc. }
  destruct fr; try done.
  - (* FD1 *) destruct (t_desync (ft_base T) (qs s)) as [q p] eqn:Ep. cbn. destruct p; try done.
    apply (oc_desync _ HT) in Ep as [_ Hq]. by destruct (io_nopanic _ HO); apply Hq.
  - (* FFS1 *) destruct (res (getf s f)) eqn:E; try done.
    exfalso. apply (Hret f (FFS1 f)); [left|cbn; by apply bool_decide_eq_true|done].
  - (* FSFpoll *) destruct (res (getf s f)) eqn:E; try done; [|by apply (Hcont f eq_refl) in E].
    destruct (t_poll T f (qs s)) as [q p] eqn:Ep. cbn. destruct p; try done.
    apply (oc_poll _ HT) in Ep as [_ Hq]. by destruct (io_nopanic _ HO).
  - destruct (res (getf s f)) eqn:E; try done. by apply (Hcont f eq_refl) in E.
  - destruct (res (getf s f)) eqn:E; try done. by apply (Hcont f eq_refl) in E.
  - (* FS1 *) destruct (t_sync (ft_base T) (qs s) (bool_decide (jobs s = []))) as [q p] eqn:Ep. cbn. destruct p; try done.
    apply (oc_sync _ HT) in Ep as [_ Hq]. by destruct (io_nopanic _ HO).
  - (* FClosure *) destruct tk as [f|]; [|done]. destruct (res (getf s f)) eqn:E; try done.
    exfalso. apply (Hret f (FClosure op (Some f))); [left|cbn; by apply bool_decide_eq_true|done].
  - (* FROpend *) destruct (t_roj_pend T (qs s)) eqn:E; [done|]. exfalso.
    destruct (runner_working s a _ HO Hst) as [H1 H2]; [cbn; lia|]. destruct (oc_roj_pend _ HT _ H1 H2) as (? & H3 & _). congruence.
  - (* FROcheck *) destruct (t_roj_park T (qs s)) eqn:E; try done. exfalso.
    apply (oc_roj_park _ HT (qs s)); [|done]. apply (runner_owned s a _ HO Hst). cbn; lia.
  - (* FJob *) destruct j as [| |op c [f|]]; try done. destruct (res (getf s f)) eqn:E; try done.
    exfalso. apply (Hret f (FJob (JSync op c (Some f)) w k)); [left|cbn; by apply bool_decide_eq_true|done].
Qed.
