(* C04 (liveness part, every pool maximum including 0) - sync always returns, even when no pool thread is free or exists,
   because the caller then runs the queue itself.  Layer L1, every program / number of objects / pool maximum / schedule.

   In every reachable state in which no thread can move (terminal), every caller has finished its script - every sync, try_sync
   and desync call has returned; nobody is inside the condition-variable wait; no queue is being run, and a queue that still holds
   jobs is Pending and in the schedule (with a pool maximum of 0 nobody will ever take it: desync jobs may legitimately stay there).
   Needs f_sticky_notify = true: a notification sent to a registered waiter that is not yet inside the wait must not be lost
   (the `rescheduled` flag of sync_background).  The refutation below shows that the hypothesis is necessary (defect F2).
   f_dormant_blocks is not needed for this theorem (it is kept in C04_full for uniformity).  Fully proved.

   The invariant (L1z/ZDefs.v): a caller in sync_background is registered with the queue from the push of its job on; where it has
   just passed a reschedule it has been kicked (or its job has run); and if it is about to wait or waits, unkicked, with its job
   still stored, then the queue is Running or a reschedule_queue frame (FRQ1) for it is on top of some stack - and FRQ1 kicks
   every registered waiter before it goes away. *)
From stdpp Require Import list numbers option.
From L0 Require Import Types.
From Gen Require Import Tables.
From L1 Require Import Model Own Shape Stuck Live Wait Help Final.
From Props Require Import C04.
From L1z Require Import ZDefs ZFinal.

Theorem C04_full_holds : C04_full.
Proof. exact (fun T F HK HT _ HN => callers_done T F HK HT HN). Qed.

Theorem C04_sync_returns_any_pool_L1 :
  forall (T : tables) (F : facts), core_tables T -> own_conditions T -> F.(f_sticky_notify) = true ->
  forall nq mx scripts tr s, wf_scripts nq scripts -> run T F (init nq mx scripts) tr = Some s -> terminal T F s ->
    forall a ac, a < length scripts -> s.(actors) !! a = Some ac -> ac.(stack) = [FTop []].
Proof. exact callers_done. Qed.

(* the whole picture of a terminal state: callers done, nobody waiting, queues Idle-and-empty or Pending-and-scheduled *)
Theorem C04_terminal_state_any_pool_L1 :
  forall (T : tables) (F : facts), core_tables T -> own_conditions T -> F.(f_sticky_notify) = true ->
  forall nq mx scripts tr s, wf_scripts nq scripts -> run T F (init nq mx scripts) tr = Some s -> terminal T F s -> quiet0 s.
Proof. exact sync_returns_any_pool. Qed.

Theorem C04_waiter_invariant_L1 :
  forall (T : tables) (F : facts), core_tables T -> own_conditions T -> F.(f_sticky_notify) = true ->
  forall nq mx scripts tr s, wf_scripts nq scripts -> run T F (init nq mx scripts) tr = Some s -> All0 s.
Proof. exact reachable_all0. Qed.

Print Assumptions C04_full_holds.
Print Assumptions C04_sync_returns_any_pool_L1.
Print Assumptions C04_terminal_state_any_pool_L1.
Print Assumptions C04_waiter_invariant_L1.

(* non-vacuity: pool maximum 0, two callers sync the same object; with the generated tables and facts both return *)
Definition exZ_scripts : list (list op) := [[OSync 0]; [OSync 0]].
Definition exZ_trace : list nat := [0; 0; 0; 1; 1; 1; 0; 0; 1; 1; 1; 1; 1; 1; 1; 1; 1; 1; 1; 1; 1; 1; 1; 1].
Example C04_pool_zero_hypotheses_hold :
  exists s, run gen_tables gen_facts (init 1 0 exZ_scripts) exZ_trace = Some s /\ wf_scripts 1 exZ_scripts /\
            terminal_b gen_tables gen_facts s = true /\ stack <$> s.(actors) = [[FTop []]; [FTop []]] /\ s.(ran) = [1; 0].
Proof. eexists. split; [vm_compute; reflexivity|]. split; [repeat constructor|]. repeat split; vm_compute; reflexivity. Qed.

(* refutation for the unrepaired notification (defect F2): if a notification to a registered waiter that is not yet waiting is
   lost, the second caller sleeps for ever although the queue is claimable - the same program, the same pool of 0 *)
Definition f2_facts : facts := {| f_dormant_blocks := true; f_sticky_notify := false |}.
Definition f2_trace : list nat := [0; 0; 0; 1; 1; 1; 0; 0; 1; 1; 1; 1; 1; 1; 1].
Example C04_needs_sticky_notify_refuted :
  exists s, run gen_tables f2_facts (init 1 0 exZ_scripts) f2_trace = Some s /\ terminal_b gen_tables f2_facts s = true /\
            stack <$> s.(actors) = [[FTop []]; [FSBwait 0; FTop []]] /\
            (fun q => (qs q, jobs q, owner q)) <$> s.(queues) = [(Pending, [JSyncBg 1 1], None)] /\ s.(sched) = [0].
Proof. eexists. split; [vm_compute; reflexivity|]. repeat split; vm_compute; reflexivity. Qed.
