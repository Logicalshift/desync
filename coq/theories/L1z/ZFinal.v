(* L1z: sync returns for every pool maximum, also 0: in a reachable state in which nobody can move every caller is done *)
From stdpp Require Import list numbers option.
From RecordUpdate Require Import RecordUpdate.
From L1 Require Import Model Own Shape Stuck Live Wait Help Final Pool.
From L1z Require Import ZDefs ZBase.

(* the stepping actor with its new stack: not a waiter, or a waiter that stays registered (the queues are those
   of s, or updated without touching wake_blocked) and keeps its flags *)
Ltac wok_tac HZ Ea Est :=
  first
  [ apply wok_plain; reflexivity
  | eapply (wok_keep _ _ _ _ _ (HZ _ _ Ea));
    [ reflexivity | reflexivity | rewrite Est; cbn; congruence
    | intros ? Hreg; cbn; repeat (apply registered_alter; [intros ?; reflexivity|]); exact Hreg
    | rewrite Est; cbn; congruence | reflexivity
    | rewrite Est; cbn; first [done | intros ? [= <-]; by split] ] ].

Section ZStep.
  Context (T : tables) (F : facts) (HK : core_tables T) (HN : F.(f_sticky_notify) = true).

  Lemma step_z s a s' : Shape s -> Inv s -> WF s -> QInv s -> ZInv s -> step T F s a = Some s' -> ZInv s'.
  Proof.
    intros HS HIv HW HQ HZ (ac & fr & rest & m & new & Ea & Est & He & ->)%step_eff.
    destruct (HZ a ac Ea) as [W1 W2 W3 W4]. rewrite Est in W1, W2, W3, W4.
    pose proof (WF_self s a ac HW Ea) as Hwf. rewrite Est in Hwf. cbn [forallb] in Hwf. apply andb_true_iff in Hwf as [Hfrok _].
    pose proof (shape_top s a ac fr rest HS Ea Est) as Hsh.
    destruct He; shape_inv Hsh; cbn [frame_ok] in Hfrok; cbn [app]; unfold spawn.
    (* this dispatch closes every path on which the stepping actor is no waiter afterwards, or stays registered as it was;
       it leaves FSBreg, the kicked FSBcheck / FSBwoken, FSBstealidle, FSBcheck -> FSBwait, the failed FSBclaim and FSBsteal *)
    all: lazymatch goal with
      (* a closure runs: flags of the waiting caller go up first *)
      | |- ZInv (setstack (run_job ?F ?s ?j) ?a ?st) =>
          assert (HZ1 : ZInv (run_job F s j)) by (eapply Z_ups; [apply ups_run_job|exact HZ]);
          destruct (run_job_self F s j a ac Ea) as (ac1 & Ea1 & Est1); [by rewrite Est|]; rewrite Est in Est1;
          eapply (Z_goto _ _ a ac1 id st HZ1 Ea1); [ by rewrite list_alter_id | intros ?; rewrite Est1; discriminate | reflexivity | wok_tac HZ1 Ea1 Est1 ]
      (* a pool thread is spawned *)
      | |- ZInv (setstack (_ <| threads := _ |> <| actors := _ ++ [?new] |>) _ ?st) =>
          set (s1 := s <| threads := _ |> <| actors := _ |>);
          assert (HZ1 : ZInv s1) by (eapply (Z_add_actor s s1); [done|done|done|done|done|done|exact HZ]);
          assert (Ea1 : actors s1 !! a = Some ac) by (subst s1; cbn; by apply lookup_app_l_Some);
          eapply (Z_goto s1 _ a ac id st HZ1 Ea1); [ by rewrite list_alter_id | intros ?; rewrite Est; discriminate | reflexivity | wok_tac HZ1 Ea1 Est ]
      (* reschedule_queue: every registered waiter is kicked before the FRQ1 frame goes away *)
      | Eq : queues _ !! ?q = Some ?qq, E : t_resched _ _ _ = _ |- ZInv (setstack (updq (foldl (notify ?F) ?s ?ws) ?q ?g) ?a ?st) =>
          assert (HZ1 : ZInv (foldl (notify F) s ws)) by (eapply Z_ups; [apply ups_foldl_notify|exact HZ]);
          destruct (foldl_notify_self F ws s a ac Ea) as (ac1 & Ea1 & Est1); [by rewrite Est|]; rewrite Est in Est1;
          assert (Eq1 : queues (foldl (notify F) s ws) !! q = Some qq) by (rewrite (proj1 (foldl_notify_obs F ws s)); exact Eq);
          eapply (Z_set _ _ a ac1 HZ1 Ea1);
          [ intros ?b ?Hne; by rewrite actors_setstack_lookup, decide_False
          | intros q'; change (queues (setstack ?X _ _)) with (queues X); rewrite queues_updq; destruct (decide (q = q')) as [<-|Hne]; [|apply qrel_refl];
            rewrite Eq1; split; [done|]; split; [done|]; intros Hrun; left; cbn;
            rewrite Hrun, (k_resched_r _ HK) in E; congruence
          | intros q' Hh; rewrite Est1 in Hh; injection Hh as <-; right; intros zb zab zqq Hzb Hzab Hzqq Hzin;
            rewrite Eq1 in Hzqq; injection Hzqq as <-; by eapply (frq1_kicked F s ws)
          | intros ac' Hac'; rewrite actors_setstack_lookup, decide_True in Hac' by done; rewrite actors_updq_eq, Ea1 in Hac'; injection Hac' as <-;
            wok_tac HZ1 Ea1 Est1 ]
      (* a new operation *)
      | |- ZInv (setstack (upda (_ <| nextop := _ |>) _ ?f) _ ?st) =>
          destruct o; (eapply (Z_goto s _ a ac f _ HZ Ea); [ reflexivity | intros ?; rewrite Est; discriminate | reflexivity | apply wok_plain; reflexivity ])
      | |- ZInv (setstack (upda _ _ _) _ _) => idtac
      (* one queue changes *)
      | |- ZInv (setstack (updq ?X ?q ?g) _ ?st) => try (
          eapply (Z_goto_q s _ a ac id st HZ Ea);
          [ by rewrite list_alter_id | intros ?; rewrite Est; discriminate
          | first [reflexivity | unfold updq; cbn; by rewrite <- list_alter_compose]
          | intros qq0 Hqq0; try (match goal with Eq : queues _ !! _ = Some _ |- _ => rewrite Eq in Hqq0; injection Hqq0 as <- end);
            split; [cbn; first [done | intros zb Hzb Hin; apply elem_of_list_filter; done]|]; split;
            [ cbn; first
              [ done
              | intros i b Hb [Hin|Hin]%elem_of_app; [done|]; apply elem_of_list_singleton in Hin; first [discriminate | injection Hin as _ Hin; congruence]
              | intros i b Hb Hin; match goal with E : jobs _ = _ :: _ |- _ => rewrite E end; by right ]
            | intros Hrun; cbn;
              lazymatch goal with
              | E : t_desync _ _ = _ |- _ => rewrite Hrun, (k_desync_r _ HK) in E; left; congruence
              | E : t_sync _ _ _ = _ |- _ => rewrite Hrun, (k_sync_r _ HK) in E; left; congruence
              | E : t_trysync _ _ _ = _ |- _ => rewrite Hrun, (k_try_r _ HK) in E; left; congruence
              | E : t_claim _ _ = Some _ |- _ => by rewrite Hrun, (k_claim_r _ HK) in E
              | E : t_next _ _ = Some _ |- _ => by rewrite Hrun, (k_next_r _ HK) in E
              | E : t_drain_fin _ _ (bool_decide ?P) = _ |- _ =>
                  rewrite Hrun, (k_fin _ HK) in E; destruct (bool_decide P) eqn:Eb; first [discriminate E | injection E as <-];
                  first [right; right; exact (proj1 (bool_decide_eq_true _) Eb) | by left]
              | _ => first [by left | right; left; reflexivity]
              end ]
          | wok_tac HZ Ea Est ]; fail)
      (* no queue changes *)
      | |- ZInv (setstack _ _ ?st) => try (
          eapply (Z_goto s _ a ac id st HZ Ea); [ by rewrite list_alter_id | intros ?; rewrite Est; discriminate | reflexivity | wok_tac HZ Ea Est ]; fail)
      end.
    (* the steps of sync_background at which the invariant is at work *)
    all: lazymatch goal with
      (* FSBreg: the caller registers; the notification flag starts set *)
      | |- ZInv (setstack (upda (updq _ ?q1 ?g1) _ ?f) _ ?st) =>
          eapply (Z_goto_q s _ a ac f st HZ Ea) with (q := q1) (g := g1); [ reflexivity | intros ?; rewrite Est; discriminate | reflexivity | | ];
          [ intros qq0 _; split; [cbn; intros zb _ Hin; apply elem_of_app; by left|]; split; [done|by left]
          | split; cbn; try done;
            [ intros q0 [= <-]; apply bool_decide_eq_true in Hfrok; destruct (queue_exists s _ Hfrok) as [qq Eq];
              exists (g1 qq); rewrite list_lookup_alter, Eq; split; [done|]; cbn; apply elem_of_app; right; by left
            | intros _; by left ] ]
      (* FSBcheck / FSBwoken: kicked, so try to claim the queue (the flag is consumed) *)
      | |- ZInv (setstack (upda _ _ ?f) _ ?st) =>
          eapply (Z_goto s _ a ac f st HZ Ea); [ reflexivity | intros ?; rewrite Est; discriminate | reflexivity | ];
          split; cbn; try done; intros q0 [= <-]; by apply W1
      (* FSBstealidle: the queue goes Idle and a reschedule is on its way; the job has run *)
      | |- ZInv (setstack (updq _ ?q1 ?g1) _ ?st) =>
          eapply (Z_goto_q s _ a ac id st HZ Ea) with (q := q1) (g := g1); [ by rewrite list_alter_id | intros ?; rewrite Est; discriminate | reflexivity | | ];
          [ intros qq0 _; split; [done|]; split; [done|]; intros _; right; by left
          | split; cbn; try done;
            [ intros q0 [= <-]; apply (registered_alter g1); [done|by apply W1] | intros _; right; by apply W3 ] ]
      | |- ZInv (setstack _ _ ?st) =>
          eapply (Z_goto s _ a ac id st HZ Ea); [ by rewrite list_alter_id | intros ?; rewrite Est; discriminate | reflexivity | ];
          split; cbn; try done; try (intros q0 [= <-]; by apply W1);
          lazymatch type of Est with
          (* FSBcheck: not kicked, not ready: the caller waits; somebody is still going to reschedule the queue *)
          | _ = FSBcheck ?q :: _ =>
              intros q0 qq0 o0 [= <-] Hr0 Hk0 Hq0 Hj0;
              destruct (W4 q qq0 o0 eq_refl Hrdy (or_introl Hkick) Hq0 Hj0) as [?|Ht]; [by left|right];
              apply has_top_actor in Ht as (zb & zab & Hzb & Hzh); apply has_top_actor; exists zb, zab; split; [|done];
              rewrite actors_setstack_lookup, decide_False; [done|]; intros <-; rewrite Ea in Hzb; injection Hzb as <-; by rewrite Est in Hzh
          (* FSBclaim fails: the queue is running *)
          | _ = FSBclaim ?q :: _ =>
              intros q0 qq0 o0 [= <-] Hr0 Hk0 Hq0 Hj0; left;
              assert (qq0 = qq) as -> by (change (queues s !! q = Some qq0) in Hq0; congruence);
              destruct (qc_core _ _ _ (HQ _ _ Eq)) as [Hc|[Hc|Hc]]; [| |done]; rewrite Hc in *;
              match goal with Ec : t_claim _ _ = None |- _ => first [by rewrite (k_claim_i _ HK) in Ec | by rewrite (k_claim_p _ HK) in Ec] end
          (* FSBsteal: the job has run *)
          | _ = FSBsteal _ :: _ => done
          end
      end.
  Qed.
End ZStep.

(* the invariants that do not need a pool thread *)
Record All0 (s : state) : Prop := {
  z_shape : Shape s; z_inv : Inv s; z_wf : WF s; z_q : QInv s; z_j : JInv s; z_z : ZInv s;
}.

Lemma init_z nq mx scripts : ZInv (init nq mx scripts).
Proof.
  intros w ac Hw. unfold init in Hw; cbn in Hw. rewrite list_lookup_fmap in Hw. destruct (scripts !! w); [|done]. injection Hw as <-.
  by apply wok_plain.
Qed.

(* what a state looks like when nobody can move and the pool may be empty *)
Record quiet0 (s : state) : Prop := {
  (* every caller has finished its script: every sync, try_sync and desync call has returned *)
  q0_callers : forall a ac, s.(actors) !! a = Some ac -> a < ncallers s -> ac.(stack) = [FTop []];
  (* nobody is inside the condition-variable wait of sync_background *)
  q0_nowait : forall a ac q rest, s.(actors) !! a = Some ac -> ac.(stack) <> FSBwait q :: rest;
  (* no queue is being run; a queue is Idle and empty, or it is Pending, holds jobs and sits in the schedule
     (waiting for a pool thread, which only exists if the pool maximum allows one) *)
  q0_queues : forall q qq, s.(queues) !! q = Some qq ->
      qq.(owner) = None /\ ((qq.(qs) = Idle /\ qq.(jobs) = []) \/ (qq.(qs) = Pending /\ qq.(jobs) <> [] /\ q ∈ s.(sched)));
}.

Section Zero.
  Context (T : tables) (F : facts) (HK : core_tables T) (HT : own_conditions T) (HN : F.(f_sticky_notify) = true).

  Lemma step_all0 s a s' : All0 s -> step T F s a = Some s' -> All0 s'.
  Proof.
    intros [H1 H2 H3 H4 H5 H6] Hs. split.
    - by eapply step_shape.
    - by eapply step_inv.
    - by eapply step_wf.
    - by eapply (step_q T F HK).
    - by eapply step_j.
    - by eapply (step_z T F HK HN).
  Qed.
  Lemma init_all0 nq mx scripts : wf_scripts nq scripts -> All0 (init nq mx scripts).
  Proof. intros Hs. split; [apply init_shape|apply init_inv|by apply init_wf|apply init_q|apply init_j|apply init_z]. Qed.
  Theorem reachable_all0 nq mx scripts tr s : wf_scripts nq scripts -> run T F (init nq mx scripts) tr = Some s -> All0 s.
  Proof. intros Hs. apply (run_invariant T F All0 step_all0). by apply init_all0. Qed.

  Theorem terminal_quiet0 s : All0 s -> terminal T F s -> quiet0 s.
  Proof.
    intros [HS HI HW HQ HJ HZ] Hterm.
    pose proof (stuck_frames T F s HS HW Hterm) as Hstuck.
    pose proof (fun f => stuck_tops s f Hstuck) as HA. pose proof (fun q qq => stuck_not_running s q qq HS HI Hstuck) as HB1.
    (* nobody waits: an unkicked waiter whose job is stored needs a running queue or a pending reschedule_queue *)
    assert (HC : forall w ac q rest, s.(actors) !! w = Some ac -> ac.(stack) = FSBwait q :: rest -> False).
    { intros w ac q rest Ew Est. destruct (HJ w ac Ew) as [J1 J2].
      assert (Hr : ready ac = false) by (apply (J2 q); by rewrite Est).
      destruct (J1 q) as [(qq & o & G1 & G2)|(b & st & o & G1 & (q' & G2))]; [by rewrite Est|done| |].
      - destruct (HZ w ac Ew) as [_ _ _ Z4].
        destruct (Z4 q qq o) as [Hrun|Ht]; try done; [by rewrite Est|right; by rewrite Est|by destruct (HB1 q qq G1)|by apply HA in Ht].
      - assert (Ht : has_top s (FROrun q' (JSyncBg o w)) \/ has_top s (FDRrun q' (JSyncBg o w))) by (destruct G2; [left|right]; by exists b, st).
        destruct Ht as [Ht|Ht]; by apply HA in Ht. }
    split.
    - intros a ac Ea Hlt. destruct (stuck_caller s a ac HS Ea Hlt (Hstuck a ac Ea)) as [?|(q & rest & Es)]; [done|]. by destruct (HC a ac q rest).
    - intros a ac q rest Ea Es. by eapply HC.
    - intros q qq Hq. destruct (HQ q qq Hq) as [C1 C2 C3].
      assert (Ho : owner qq = None).
      { destruct (owner qq) eqn:Eo; [|done]. exfalso. apply (HB1 q qq Hq). apply (inv_state s HI q qq Hq). by eexists. }
      split; [done|]. destruct C1 as [Hc|[Hc|Hc]]; [| |by destruct (HB1 q qq Hq)].
      + left. split; [done|]. destruct (decide (jobs qq = [])) as [|Hn]; [done|]. exfalso. pose proof (C3 Hc Hn) as Ht. by apply HA in Ht.
      + right. destruct (C2 Hc) as [Hj [Hs|[Hs|Hs]]]; [done|by apply HA in Hs|by apply HA in Hs].
  Qed.

  (* sync always returns, whatever the pool maximum (also 0) *)
  Theorem sync_returns_any_pool nq mx scripts tr s :
    wf_scripts nq scripts -> run T F (init nq mx scripts) tr = Some s -> terminal T F s -> quiet0 s.
  Proof. intros Hs Hr. apply terminal_quiet0. by eapply reachable_all0. Qed.

  Corollary callers_done nq mx scripts tr s :
    wf_scripts nq scripts -> run T F (init nq mx scripts) tr = Some s -> terminal T F s ->
    forall a ac, a < length scripts -> s.(actors) !! a = Some ac -> ac.(stack) = [FTop []].
  Proof.
    intros Hs Hr Hterm a ac Ha Ea. destruct (sync_returns_any_pool nq mx scripts tr s Hs Hr Hterm) as [Q1 _ _].
    apply (Q1 a ac Ea). destruct (reachable_pool_bounded T F nq mx scripts tr s Hr) as (_ & _ & H3). unfold ncallers. lia.
  Qed.
End Zero.
