(* L1z: how wake-ups and a step of one actor act on the waiter invariant *)
From stdpp Require Import list numbers option.
From RecordUpdate Require Import RecordUpdate.
From L1 Require Import Model Own Shape Stuck Live.
From L1z Require Import ZDefs.

Lemma waitq_regq st q : waitq st = Some q -> regq st = Some q.
Proof. destruct st as [|[] ?]; cbn; try done. Qed.

Lemma woken_ups m s : woken m s -> ups m s.
Proof.
  intros Hw. split; [apply Hw|]. intros b. destruct (actors s !! b) as [x|] eqn:Hx.
  - destruct (woken_lookup _ _ _ _ Hw Hx) as (x' & -> & []). by split.
  - apply lookup_ge_None in Hx. rewrite <- (woken_length _ _ Hw) in Hx. apply lookup_ge_None in Hx. by rewrite Hx.
Qed.
Lemma ups_foldl_notify F ws s : ups (foldl (notify F) s ws) s.
Proof. apply woken_ups, woken_foldl_notify. Qed.
Lemma ups_run_job F s j : ups (run_job F s j) s.
Proof. apply woken_ups, woken_run_job. Qed.

Lemma regq_wake q r : regq (FSBwoken q :: r) = regq (FSBwait q :: r). Proof. done. Qed.
Lemma Z_ups X s : ups X s -> ZInv s -> ZInv X.
Proof.
  intros [HQ HA] HZ w x' Hw. pose proof (HA w) as Hw'. rewrite Hw in Hw'. destruct (actors s !! w) as [x|] eqn:Ex; [|done].
  destruct Hw' as (HS & HR & HK). destruct (HZ w x Ex) as [Z1 Z2 Z3 Z4].
  assert (Htop : forall f, (forall q, f <> FSBwait q) -> has_top s f -> has_top X f).
  { intros f Hf (b & ab & Hb & Hh)%has_top_actor. apply has_top_actor. specialize (HA b). rewrite Hb in HA.
    destruct (actors X !! b) as [ab'|] eqn:Eb'; [|done]. exists b, ab'. split; [done|]. destruct HA as ([->|(q & r & E1 & E2)] & _); [done|].
    rewrite E1 in Hh. injection Hh as <-. by destruct (Hf q). }
  destruct HS as [HS|(q0 & r & E1 & E2)].
  - split; rewrite ?HS, ?HQ.
    + done.
    + intros Hk. destruct (Z2 Hk) as [?|?]; auto.
    + intros Hr. auto.
    + intros q qq o Hq Hr Hk Hqq Hj.
      assert (ready x = false) by (destruct (ready x); [by rewrite HR in Hr|done]).
      assert (Hk0 : kicked x = false \/ hd_error (stack x) = Some (FSBwait q)).
      { destruct Hk as [Hk|Hk]; [left|by right]. destruct (kicked x); [by rewrite HK in Hk|done]. }
      destruct (Z4 q qq o Hq) as [?|Ht]; try done; [by left|]. right. by apply Htop.
  - split; rewrite ?E2, ?HQ.
    + rewrite regq_wake, <- E1. done.
    + intros Hk. destruct Z2 as [?|?]; auto. rewrite E1. by destruct r as [|[] ?].
    + done.
    + done.
Qed.

(* with sticky notifications every registered waiter has been kicked after the wake-ups of reschedule_queue *)
Lemma notify_kicked F s w aw : F.(f_sticky_notify) = true -> s.(actors) !! w = Some aw ->
  exists aw', (notify F s w).(actors) !! w = Some aw' /\ aw'.(kicked) = true /\ forall q r, aw'.(stack) <> FSBwait q :: r.
Proof.
  intros HF Ew. unfold notify. rewrite HF. set (s1 := upda s w _).
  assert (E1 : actors s1 !! w = Some (aw <| kicked := true |>)) by (subst s1; rewrite actors_upda_lookup, decide_True, Ew by done; done).
  rewrite E1. cbn. destruct (stack aw) as [|[] rest] eqn:Es; try (eexists; split; [done|]; split; [done|]; cbn; rewrite Es; done).
  rewrite actors_setstack_lookup, decide_True, E1 by done. eexists. split; [done|]. split; done.
Qed.
Definition kwoken (x : actor) : Prop := x.(kicked) = true /\ forall q r, x.(stack) <> FSBwait q :: r.
Lemma kwoken_aup x' x : aup x' x -> kwoken x -> kwoken x'.
Proof.
  intros (HS & _ & HK) [K1 K2]. split; [auto|]. destruct HS as [->|(q & r & E1 & E2)]; [done|]. rewrite E2. done.
Qed.
Lemma foldl_notify_kicked F ws s w aw : F.(f_sticky_notify) = true -> s.(actors) !! w = Some aw -> (w ∈ ws \/ kwoken aw) ->
  exists aw', (foldl (notify F) s ws).(actors) !! w = Some aw' /\ kwoken aw'.
Proof.
  intros HF. revert s aw. induction ws as [|v ws IH]; intros s aw Ew Hin; cbn.
  - destruct Hin as [Hin|Hk]; [by apply elem_of_nil in Hin|eauto].
  - destruct (decide (v = w)) as [->|Hne].
    + destruct (notify_kicked F s w aw HF Ew) as (aw' & E1 & E2). by apply (IH _ aw' E1); right.
    + destruct (woken_ups _ _ (woken_notify F s v)) as [_ HA]. specialize (HA w). rewrite Ew in HA.
      destruct (actors (notify F s v) !! w) as [aw'|] eqn:E1; [|done]. apply (IH _ aw' E1).
      destruct Hin as [Hin|Hk]; [left|right; by eapply kwoken_aup]. apply elem_of_cons in Hin as [?|?]; [congruence|done].
Qed.

Lemma qrel_refl a s' q o : qrel a s' q o o.
Proof. destruct o as [qq|]; cbn; [|done]. repeat split; try done. by left. Qed.

Lemma Z_set X s' a ac : ZInv X -> X.(actors) !! a = Some ac ->
  (forall b, b <> a -> s'.(actors) !! b = X.(actors) !! b) ->
  (forall q, qrel a s' q (X.(queues) !! q) (s'.(queues) !! q)) ->
  (forall q, hd_error ac.(stack) = Some (FRQ1 q) ->
     has_top s' (FRQ1 q) \/ (forall b ab qq, b <> a -> X.(actors) !! b = Some ab -> X.(queues) !! q = Some qq -> b ∈ qq.(wake_blocked) -> ab.(kicked) = true /\ forall q' r, ab.(stack) <> FSBwait q' :: r)) ->
  (forall ac', s'.(actors) !! a = Some ac' -> wok s' a ac') ->
  ZInv s'.
Proof.
  intros HZ Ea HA HQ HC HD w aw Hw. destruct (decide (w = a)) as [->|Hne]; [by apply HD|].
  rewrite HA in Hw by done. destruct (HZ w aw Hw) as [Z1 Z2 Z3 Z4]. split; try done.
  - intros q Hq. destruct (Z1 q Hq) as (qq & Hqq & Hin). specialize (HQ q). rewrite Hqq in HQ. destruct (queues s' !! q) as [qq'|]; [|done].
    destruct HQ as (Q1 & _). exists qq'. split; [done|]. by apply Q1.
  - intros q qq' o Hq Hr Hk Hqq' Hj. specialize (HQ q). rewrite Hqq' in HQ. destruct (queues X !! q) as [qq|] eqn:Hqq; [|done].
    destruct HQ as (Q1 & Q2 & Q3). specialize (Q2 o w Hne Hj).
    destruct (Z4 q qq o Hq Hr Hk Hqq Q2) as [Hrun|Ht].
    + destruct (Q3 Hrun) as [?|[?|He]]; [by left|by right|]. rewrite He in Hj. by apply elem_of_nil in Hj.
    + apply has_top_actor in Ht as (b & ab & Hb & Hh). destruct (decide (b = a)) as [->|Hba].
      * rewrite Ea in Hb. injection Hb as <-. destruct (HC q Hh) as [?|Hall]; [by right|].
        destruct (Z1 q (waitq_regq _ _ Hq)) as (qq0 & Hqq0 & Hin). rewrite Hqq in Hqq0. injection Hqq0 as <-.
        destruct (Hall w aw qq Hne Hw Hqq Hin) as [Hk1 Hk2]. destruct Hk as [Hk|Hk]; [congruence|].
        destruct (stack aw) as [|fr r] eqn:Es; [done|]. injection Hk as ->. by destruct (Hk2 q r).
      * right. apply has_top_actor. exists b, ab. split; [by rewrite HA|done].
Qed.

Lemma Z_add_actor s s1 new : s1.(queues) = s.(queues) -> s1.(actors) = s.(actors) ++ [new] ->
  regq new.(stack) = None -> kneed new.(stack) = false -> rneed new.(stack) = false -> waitq new.(stack) = None -> ZInv s -> ZInv s1.
Proof.
  intros Hq Ha N1 N2 N3 N4 HZ w aw Hw. rewrite Ha in Hw. apply lookup_app_Some in Hw as [Hw|[_ Hw]].
  - destruct (HZ w aw Hw) as [Z1 Z2 Z3 Z4]. split; rewrite ?Hq; try done.
    intros q qq o H1 H2 H3 H4 H5. destruct (Z4 q qq o H1 H2 H3 H4 H5) as [?|Ht]; [by left|right].
    apply has_top_actor in Ht as (b & ab & Hb & Hh). apply has_top_actor. exists b, ab. split; [|done]. rewrite Ha. by apply lookup_app_l_Some.
  - destruct (w - length (actors s)); [|done]. cbn in Hw. injection Hw as <-. split; rewrite ?N1, ?N2, ?N3, ?N4; done.
Qed.

(* the stepping actor: nothing to show when its new stack is not a waiter's *)
Lemma wok_plain s a ac : regq ac.(stack) = None -> kneed ac.(stack) = false -> rneed ac.(stack) = false -> waitq ac.(stack) = None -> wok s a ac.
Proof. intros N1 N2 N3 N4. split; rewrite ?N1, ?N2, ?N3, ?N4; done. Qed.

Lemma actors_updq_eq Y q f : (updq Y q f).(actors) = Y.(actors). Proof. done. Qed.

Lemma frq1_kicked F s ws b ab : F.(f_sticky_notify) = true -> (foldl (notify F) s ws).(actors) !! b = Some ab -> b ∈ ws -> kwoken ab.
Proof.
  intros HF Hb Hin. destruct (ups_foldl_notify F ws s) as [_ HA]. specialize (HA b). rewrite Hb in HA.
  destruct (actors s !! b) as [ab0|] eqn:E0; [|done].
  destruct (foldl_notify_kicked F ws s b ab0 HF E0 (or_introl Hin)) as (ab' & E1 & E2). rewrite Hb in E1. by injection E1 as ->.
Qed.

(* A step that wakes nobody, made from a frame other than FRQ1: the stepping actor updates its flags by f and replaces
   its stack by st; X is the state before the new stack is set. *)
Section Goto.
  Context (s X : state) (a : nat) (ac : actor) (f : actor -> actor) (st : list frame).
  Context (HZ : ZInv s) (Ea : s.(actors) !! a = Some ac) (HA : X.(actors) = alter f a s.(actors)).
  Context (Hfr : forall q, hd_error ac.(stack) <> Some (FRQ1 q)).

  (* one queue is updated by g: nobody else is unregistered, no waiter's job appears from nowhere, and a queue
     that stops Running is empty or about to be rescheduled by the stepping actor *)
  Lemma Z_goto_q q g : X.(queues) = alter g q s.(queues) ->
    (forall qq, s.(queues) !! q = Some qq ->
       (forall b, b <> a -> b ∈ qq.(wake_blocked) -> b ∈ (g qq).(wake_blocked)) /\
       (forall i b, b <> a -> JSyncBg i b ∈ (g qq).(jobs) -> JSyncBg i b ∈ qq.(jobs)) /\
       (qq.(qs) = Running -> (g qq).(qs) = Running \/ hd_error st = Some (FRQ1 q) \/ (g qq).(jobs) = [])) ->
    wok (setstack X a st) a (f ac <| stack := st |>) -> ZInv (setstack X a st).
  Proof.
    intros HQ Hg Hw. assert (Ea' : (setstack X a st).(actors) !! a = Some (f ac <| stack := st |>)).
    { by rewrite actors_setstack_lookup, decide_True, HA, list_lookup_alter, Ea. }
    apply (Z_set s _ a ac HZ Ea).
    - intros b Hne. by rewrite actors_setstack_lookup, decide_False, HA, list_lookup_alter_ne.
    - intros q'. change (queues (setstack X a st)) with (queues X). rewrite HQ. destruct (decide (q = q')) as [<-|Hne].
      + rewrite list_lookup_alter. destruct (queues s !! q) as [qq|] eqn:Eq; [|done]. destruct (Hg qq eq_refl) as (G1 & G2 & G3).
        split; [done|]. split; [done|]. intros Hr. destruct (G3 Hr) as [?|[Ht|?]]; auto. right; left. apply has_top_actor. eauto.
      + rewrite list_lookup_alter_ne by done. apply qrel_refl.
    - intros q' Hh. by destruct (Hfr q').
    - intros ac' Hac'. rewrite Ea' in Hac'. by injection Hac' as <-.
  Qed.
  Lemma Z_goto : X.(queues) = s.(queues) -> wok (setstack X a st) a (f ac <| stack := st |>) -> ZInv (setstack X a st).
  Proof. intros HQ. apply (Z_goto_q 0 id); [by rewrite list_alter_id|]. intros qq _. split_and!; auto. Qed.
End Goto.

Definition registered (l : list queue) (a q : nat) : Prop := exists qq, l !! q = Some qq /\ a ∈ qq.(wake_blocked).
Lemma registered_alter (g : queue -> queue) q0 l a q : (forall x, (g x).(wake_blocked) = x.(wake_blocked)) ->
  registered l a q -> registered (alter g q0 l) a q.
Proof.
  intros Hg (qq & Hq & Hin). destruct (decide (q0 = q)) as [->|]; [|exists qq; by rewrite list_lookup_alter_ne].
  exists (g qq). by rewrite list_lookup_alter, Hq, Hg.
Qed.

(* the stepping actor stays registered with the queues its new stack is registered with *)
Lemma wok_keep s s' a ac ac' : wok s a ac -> ac'.(ready) = ac.(ready) -> ac'.(kicked) = ac.(kicked) ->
  (forall q, regq ac'.(stack) = Some q -> regq ac.(stack) = Some q) ->
  (forall q, registered s.(queues) a q -> registered s'.(queues) a q) ->
  (kneed ac'.(stack) = true -> kneed ac.(stack) = true) -> rneed ac'.(stack) = false ->
  (forall q, waitq ac'.(stack) = Some q -> kneed ac.(stack) = true /\ hd_error ac'.(stack) <> Some (FSBwait q)) ->
  wok s' a ac'.
Proof.
  intros [W1 W2 W3 W4] Hr Hk Hreg Hq Hkn Hrn Hwt. split.
  - intros q Hq'. apply Hq, (W1 q (Hreg q Hq')).
  - intros H. rewrite Hr, Hk. auto.
  - by rewrite Hrn.
  - intros q qq o Hw Hr' Hk' _ _. destruct (Hwt q Hw) as [H1 H2]. rewrite Hr, Hk in *. destruct (W2 H1), Hk'; congruence.
Qed.
