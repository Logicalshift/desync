(* Theorems of C11 (pipe_in) over the model in Model.v; all proved from the invariants of Inv.v. *)
From stdpp Require Import list numbers option.
From RecordUpdate Require Import RecordUpdate.
From PipeIn Require Import Model Step Inv.

Theorem order_exactly_once items s : reachable items s ->
  processed s.(log) ++ inhand s ++ s.(ready) ++ s.(future) = items.
Proof. intros H. apply (i_items _ _ (Inv_reach _ _ H)). Qed.

Corollary processed_prefix items s : reachable items s -> processed s.(log) `prefix_of` items.
Proof. intros H. exists (inhand s ++ s.(ready) ++ s.(future)). symmetry. by apply order_exactly_once. Qed.

Theorem exclusive items s : reachable items s -> excl s.(log) = Some (fst <$> s.(running)).
Proof. intros H. apply (i_excl _ _ (Inv_reach _ _ H)). Qed.

Lemma foldl_excl_none l : foldl excl_step None l = None.
Proof. induction l; cbn; done. Qed.
Lemma excl_app l1 l2 : excl (l1 ++ l2) = foldl excl_step (excl l1) l2.
Proof. unfold excl. by rewrite foldl_app. Qed.
Lemma excl_prefix l1 l2 r : excl (l1 ++ l2) = Some r -> exists r1, excl l1 = Some r1.
Proof. rewrite excl_app. destruct (excl l1) as [r1|]; [by exists r1|]. by rewrite foldl_excl_none. Qed.
Lemma excl_at_start l1 o l2 r : excl (l1 ++ EStart o :: l2) = Some r -> excl l1 = Some None.
Proof.
  rewrite excl_app. cbn. destruct (excl l1) as [[o'|]|]; cbn; [|done|]; rewrite foldl_excl_none; done.
Qed.
Lemma excl_at_process l1 e l2 r : is_process e = true -> excl (l1 ++ e :: l2) = Some r ->
  exists k, excl l1 = Some (Some (OPoll k)).
Proof.
  rewrite excl_app. cbn. destruct (excl l1) as [[[k| |]|]|], e; cbn; rewrite ?foldl_excl_none; try done; by exists k.
Qed.
Lemma excl_at_finish l1 o l2 r : excl (l1 ++ EFinish o :: l2) = Some r -> excl l1 = Some (Some o).
Proof.
  rewrite excl_app. cbn. destruct (excl l1) as [[o'|]|]; cbn; rewrite ?foldl_excl_none; try done.
  destruct (op_eqb o o') eqn:E; rewrite ?foldl_excl_none; [|done]. intros _.
  destruct o, o'; cbn in E; try done; apply Nat.eqb_eq in E; by subst.
Qed.
(* "operation o is open" means: o was started, has not finished, and only Process events followed its start *)
Lemma excl_open l o : excl l = Some (Some o) ->
  exists l0 l', l = l0 ++ EStart o :: l' /\ excl l0 = Some None /\ forallb is_process l' = true.
Proof.
  induction l as [|e l IH] using rev_ind; [done|].
  rewrite excl_snoc. destruct (excl l) as [[o'|]|] eqn:E; cbn; [| |done].
  - destruct e as [| |x|x]; [done|by destruct (op_eqb o0 o')|..].
    all: destruct o' as [k| |]; [|done..]; intros [= <-]; destruct (IH eq_refl) as (l0 & l' & -> & H0 & Hp).
    all: eexists l0, (l' ++ [_]); split; [by rewrite <- app_assoc|]; split; [done|]; by rewrite forallb_app, Hp.
  - destruct e as [o1| | |]; [|done..]. intros [= <-]. exists l, []. done.
Qed.

Lemma foldl_susp_none l : foldl susp_step None l = None.
Proof. induction l; cbn; done. Qed.
Lemma item_eqb_eq x y : item_eqb x y = true -> x = y.
Proof.
  destruct x as [n b], y as [m c]. unfold item_eqb; cbn. intros [H1 H2]%andb_true_iff.
  apply Nat.eqb_eq in H1. apply Bool.eqb_prop in H2. by subst.
Qed.
Lemma susp_at_begin l1 x l2 r : susp_ok (l1 ++ EBegin x :: l2) = Some r ->
  is_slow x = true /\ susp_ok l1 = Some None /\ (l2 = [] \/ exists l2', l2 = EProcess x :: l2').
Proof.
  unfold susp_ok. rewrite foldl_app. cbn. fold (susp_ok l1).
  destruct (susp_ok l1) as [[y|]|]; cbn; rewrite ?foldl_susp_none; try done.
  destruct (is_slow x) eqn:Es; rewrite ?foldl_susp_none; [|done].
  destruct l2 as [|e l2]; [by auto|]. cbn.
  destruct e as [| | |y]; rewrite ?foldl_susp_none; try done.
  destruct (item_eqb x y) eqn:E; rewrite ?foldl_susp_none; [|done].
  apply item_eqb_eq in E as <-. intros _. split; [done|]. split; [done|]. right. by eexists.
Qed.

Corollary process_inside_poll_job items s l1 x l2 : reachable items s -> s.(log) = l1 ++ EProcess x :: l2 ->
  exists k l0 l', l1 = l0 ++ EStart (OPoll k) :: l' /\ excl l0 = Some None /\ forallb is_process l' = true.
Proof.
  intros H Hl. pose proof (exclusive _ _ H) as He. rewrite Hl in He.
  apply excl_at_process in He as [k Hk]; [|done]. exists k. by apply excl_open.
Qed.
(* the open operation spans the suspension of an item: the Begin of a (slow) item lies inside a poll job, and the next
   event of the whole log, if any, is the Process of the same item - no operation starts or finishes, nothing else is
   processed in between; while the item is suspended the poll job is the running operation *)
Theorem suspension_atomic items s : reachable items s -> susp_ok s.(log) = Some (susp_item s).
Proof. intros H. apply (i_susp _ _ (Inv_reach _ _ H)). Qed.
Corollary begin_then_process items s l1 x l2 : reachable items s -> s.(log) = l1 ++ EBegin x :: l2 ->
  is_slow x = true /\
  (exists k l0 l', l1 = l0 ++ EStart (OPoll k) :: l' /\ excl l0 = Some None /\ forallb is_process l' = true) /\
  ((l2 = [] /\ exists k, s.(running) = Some (OPoll k, JSusp x)) \/ exists l2', l2 = EProcess x :: l2').
Proof.
  intros H Hl. pose proof (suspension_atomic _ _ H) as Hs. pose proof (exclusive _ _ H) as He. rewrite Hl in Hs, He.
  destruct (susp_at_begin _ _ _ _ Hs) as (H1 & H2 & H3). split; [done|]. split.
  - apply excl_at_process in He as [k Hk]; [|done]. exists k. by apply excl_open.
  - destruct H3 as [->|H3]; [left|by right]. split; [done|].
    unfold susp_ok in Hs. rewrite foldl_app in Hs. cbn in Hs. fold (susp_ok l1) in Hs. rewrite H2 in Hs. cbn in Hs. rewrite H1 in Hs.
    injection Hs as Hs. unfold susp_item in Hs. destruct s.(running) as [[[k| |] []]|]; try done. injection Hs as ->. by exists k.
Qed.
Corollary start_when_nothing_open items s l1 o l2 : reachable items s -> s.(log) = l1 ++ EStart o :: l2 -> excl l1 = Some None.
Proof. intros H Hl. pose proof (exclusive _ _ H) as He. rewrite Hl in He. by eapply excl_at_start. Qed.

Theorem no_lost_item_inv items s : reachable items s ->
  s.(pollfn) = true -> wake_pending s || job_queued s || running_or_armed s = true.
Proof. intros H Hp. by apply alarm_iff, (i_alarm _ _ (Inv_reach _ _ H)). Qed.

Corollary no_lost_item items s : reachable items s ->
  s.(pollfn) = true -> wake_pending s = false -> job_queued s = false -> poll_running s = false ->
  exists k, s.(reg) = Some k /\ is_live s.(wctx) k = true /\ s.(ready) = [] /\ s.(ended) = false.
Proof.
  intros H Hp H1 H2 H3. pose proof (no_lost_item_inv _ _ H Hp) as HA. rewrite H1, H2 in HA. cbn in HA.
  unfold running_or_armed, poll_running, waker_armed in *.
  assert (Hw : match s.(reg) with
     | Some k => is_live s.(wctx) k && match s.(ready) with [] => true | _ => false end && negb s.(ended)
     | None => false end = true).
  { destruct s.(running) as [[[k| |] pc]|]; try done. destruct pc; done. }
  destruct s.(reg) as [k|]; [|done]. exists k. split; [done|].
  apply andb_true_iff in Hw as [[Ha Hb]%andb_true_iff Hc]. split; [done|].
  split; [by destruct s.(ready)|by destruct s.(ended)].
Qed.

Lemma existsb_all_false {A} (f : A -> bool) l : (forall i w, l !! i = Some w -> f w = false) -> existsb f l = false.
Proof.
  induction l as [|x l IH]; [done|]. intros H. cbn. rewrite (H 0 x eq_refl). cbn. apply IH. intros i w Hi. by apply (H (S i)).
Qed.

Lemma quiescent_facts s : quiescent s ->
  (forall i w, s.(wakes) !! i = Some w -> w = WDone) /\ s.(chute) = false /\ s.(running) = None /\ s.(opq) = [].
Proof.
  intros Hq. destruct (proj1 (step_run_None s) (Hq ARun eq_refl)). split; [|split; [|done]].
  - intros i. apply step_wake_None, (Hq (AWake i) eq_refl).
  - apply step_chute_None, (Hq AChute eq_refl).
Qed.

(* the model's assumption about the self-wake of a suspended item, made explicit: a state with a suspended item is never
   quiescent - the runner can always re-poll the job (delivery of that wake is C06's business, not the pipe's) *)
Lemma suspended_not_quiescent s k x : s.(running) = Some (OPoll k, JSusp x) -> ~ quiescent s.
Proof. intros Hr Hq. destruct (quiescent_facts _ Hq) as (_ & _ & Hn & _). congruence. Qed.
Lemma suspended_resumes s k x : s.(running) = Some (OPoll k, JSusp x) ->
  step s ARun = Some (s <| log := s.(log) ++ [EProcess x] |> <| running := Some (OPoll k, JPoll) |>).
Proof. intros Hr. cbn. by rewrite Hr. Qed.

Lemma quiescent_asleep items s : reachable items s -> quiescent s -> s.(pollfn) = true -> waker_armed s = true.
Proof.
  intros H Hq Hp. destruct (quiescent_facts _ Hq) as (Hw & Hc & Hr & Ho).
  pose proof (no_lost_item_inv _ _ H Hp) as HA.
  unfold wake_pending, job_queued, running_or_armed in HA. rewrite Hr, Ho in HA. cbn in HA.
  rewrite existsb_all_false in HA; [done|]. intros i w Hi. by rewrite (Hw _ _ Hi).
Qed.

Lemma quiescent_released items s : reachable items s -> quiescent s -> s.(pollfn) = false -> s.(released) = true.
Proof.
  intros H Hq Hp. destruct (quiescent_facts _ Hq) as (Hw & Hc & Hr & Ho).
  rewrite (i_rel _ _ (Inv_reach _ _ H)). unfold holders. by rewrite Hp, Hc, Hr.
Qed.

Theorem terminal_complete items s : reachable items s -> quiescent s -> env_finished s -> s.(ext) = true ->
  processed s.(log) = items /\ s.(pollfn) = false /\ s.(released) = true.
Proof.
  intros H Hq [Hf He] Hx. pose proof (Inv_reach _ _ H) as I.
  assert (Hp : s.(pollfn) = false).
  { destruct s.(pollfn) eqn:Hp; [|done]. pose proof (quiescent_asleep _ _ H Hq Hp) as Ha.
    unfold waker_armed in Ha. rewrite He in Ha. destruct s.(reg); [|done]. by rewrite andb_false_r in Ha. }
  split; [|split; [done|by eapply quiescent_released]].
  destruct (quiescent_facts _ Hq) as (Hw & Hc & Hr & Ho).
  destruct (i_cleared _ _ I) as (_ & HB & _). destruct (HB Hp) as [H0|[_ Hrd]].
  - pose proof (i_strong _ _ I) as HS. unfold inv_strong in HS. rewrite Hx in HS. cbn in HS. lia.
  - pose proof (i_items _ _ I) as HI. unfold inv_items, inhand in HI. rewrite Hr, Hrd, Hf in HI. by rewrite !app_nil_r in HI.
Qed.

Theorem weak_reference items s : reachable items s ->
  s.(strong) = Nat.b2n s.(ext) + nstrong s.(wakes) /\
  (forall w, holds_strong w = true -> inside_poll w = true).
Proof. intros H. split; [apply (i_strong _ _ (Inv_reach _ _ H))|]. by intros []. Qed.

Corollary never_keeps_alive items s : reachable items s ->
  (forall i w, s.(wakes) !! i = Some w -> inside_poll w = false) ->
  s.(strong) = Nat.b2n s.(ext) /\
  (s.(ext) = false -> s.(freed) = true \/ run_free s.(running) = true \/ last_free s.(opq) = true).
Proof.
  intros H Hn. pose proof (Inv_reach _ _ H) as I. pose proof (i_strong _ _ I) as HS. unfold inv_strong in HS.
  rewrite nstrong_lsum, lsum_zero in HS; [|intros i w Hi; specialize (Hn _ _ Hi); by destruct w].
  split; [lia|]. intros Hx. rewrite Hx in HS. cbn in HS. pose proof (i_free _ _ I) as HF. unfold inv_free in HF.
  rewrite HS in HF. destruct HF as [(?&?&?)|[(?&?&?)|(?&?&?)]]; auto.
Qed.

Theorem shutdown_flag items s : reachable items s -> s.(evt_gone) = true -> quiescent s ->
  s.(pollfn) = false /\ s.(released) = true.
Proof.
  intros H Hg Hq. pose proof (Inv_reach _ _ H) as I.
  assert (Hp : s.(pollfn) = false).
  { destruct s.(pollfn) eqn:Hp; [|done]. pose proof (quiescent_asleep _ _ H Hq Hp) as Ha.
    unfold waker_armed in Ha. destruct (i_gone _ _ I Hg) as [_ Hr]. by rewrite Hr in Ha. }
  split; [done|by eapply quiescent_released].
Qed.

Lemma step_freed_frozen items s a s' : reachable items s -> s.(freed) = true -> step s a = Some s' ->
  s'.(log) = s.(log) /\ s'.(freed) = true.
Proof.
  intros H Hf Hs. destruct (free_freed _ (i_free _ _ (Inv_reach _ _ H)) Hf) as [Hr Ho].
  assert (Hn : a = ARun \/ a <> ARun) by (destruct a; auto). destruct Hn as [->|Hn].
  - cbn in Hs. by rewrite Hr, Ho in Hs.
  - destruct (step_not_run _ _ _ Hn Hs) as [? ?]. split; congruence.
Qed.

Lemma step_event_sets_flag s a s' : s.(freed) = true -> (a = AEnvAvail \/ a = AEnvEnd) -> step s a = Some s' -> s'.(evt_gone) = true.
Proof. intros Hf Ha H%step_spec. destruct H, Ha; try done; cbn; by rewrite Hf. Qed.

(* once the object is gone (freed), the FIRST stream event e leads, whatever happens afterwards, to the release of
   poll_fn (stream + closure) in every quiescent state *)
Theorem shutdown items s e s1 tr s2 : reachable items s -> s.(freed) = true ->
  (e = AEnvAvail \/ e = AEnvEnd) -> step s e = Some s1 -> run s1 tr = Some s2 -> quiescent s2 ->
  s2.(pollfn) = false /\ s2.(released) = true.
Proof.
  intros H Hf He Hs Hr Hq. apply (shutdown_flag items); [by eapply reachable_run, Hr; eapply reachable_step| |done].
  eapply (run_invariant_all (fun s => evt_gone s = true)), Hr; [by eapply step_event_sets_flag|].
  intros ? ? ? ? Hst. by apply (step_mono _ _ _ Hst).
Qed.

(* nothing is processed (no operation runs at all) once the object is gone *)
Theorem no_process_after_gone items s tr s' : reachable items s -> s.(freed) = true -> run s tr = Some s' ->
  s'.(log) = s.(log) /\ s'.(freed) = true.
Proof.
  intros H Hf Hr.
  apply (run_invariant_all (fun s' => reachable items s' /\ s'.(log) = s.(log) /\ s'.(freed) = true)) in Hr as (_ & ?);
    [done|done|].
  intros s1 a s2 (H1 & Hl & Hf1) Hs. destruct (step_freed_frozen _ _ _ _ H1 Hf1 Hs) as [Hl2 ?].
  split; [by eapply reachable_step|]. split; congruence.
Qed.

Lemma step_label_enabled s a : step_label s a = None <-> step s a = None.
Proof. destruct a; cbn; [|destruct (wakes s !! i) as [[]|]; cbn|..]; by repeat case_match. Qed.
