(* PipeWakers are one-shot: a waker's context goes Fresh -> Live -> Taken and never back, and every poll job ever
   scheduled (except the initial one) is paid for by exactly one consumed waker:
       #jobs scheduled + #threads between take and enqueue <= 1 + #wakers consumed. *)
From stdpp Require Import list numbers option.
From RecordUpdate Require Import RecordUpdate.
From PipeIn Require Import Model Step Inv.

Definition inv_oneshot (s : state) : Prop := length s.(wctx) + npend s.(wakes) <= 1 + ntaken s.(wctx).
Lemma step_oneshot s a s' : inv_fresh s -> inv_oneshot s -> step s a = Some s' -> inv_oneshot s'.
Proof.
  unfold inv_oneshot, npend, ntaken. intros (_ & _ & F3) HI H%step_spec.
  destruct H; rewrite ?upd_rel_set; cbn; rewrite ?lsum_app, ?app_length, ?insert_length; cbn; try lia.
  all: try (match goal with |- context [lsum ?f (<[_:=?w']> (wakes _))] =>
      pose proof (lsum_insert f _ _ _ w' Hw) as Hn; cbn in Hn end).
  all: try (match goal with |- context [lsum ?f (<[_:=?x']> (wctx _))] =>
      pose proof (lsum_insert f _ _ _ x' Hc) as Hm; cbn in Hm end).
  all: try lia.
  (* p_new: the waker a job creates was fresh *)
  destruct (F3 _ _ Hr) as (_ & _ & C).
  match goal with |- context [lsum ?f (<[_:=_]> _)] => pose proof (lsum_insert f _ _ _ WkLive (C eq_refl)) as Hm; cbn in Hm end.
  lia.
Qed.

Definition wk_rank (x : wk) : nat := match x with WkFresh => 0 | WkLive => 1 | WkTaken => 2 end.
Lemma step_wctx_mono s a s' : inv_fresh s -> step s a = Some s' ->
  forall k x, s.(wctx) !! k = Some x -> exists y, s'.(wctx) !! k = Some y /\ wk_rank x <= wk_rank y.
Proof.
  intros (_ & _ & F3) H%step_spec k' x0 Hx.
  destruct H; rewrite ?upd_rel_set; cbn; try (exists x0; split; [exact Hx|lia]).
  - (* p_new *) destruct (F3 _ _ Hr) as (_ & B & C). destruct (decide (k' = k)) as [->|Hne].
    + rewrite (C eq_refl) in Hx. injection Hx as <-. exists WkLive. rewrite list_lookup_insert by done. split; [done|cbn; lia].
    + exists x0. rewrite list_lookup_insert_ne by done. split; [done|lia].
  - (* p_call *) destruct (decide (k' = k)) as [->|Hne].
    + exists WkTaken. rewrite list_lookup_insert by (by apply lookup_lt_Some in Hx). split; [done|destruct x0; cbn; lia].
    + exists x0. rewrite list_lookup_insert_ne by done. split; [done|lia].
  - (* p_enq *) exists x0. rewrite lookup_app_l by (by apply lookup_lt_Some in Hx). done.
Qed.

Theorem one_shot items s : reachable items s -> length s.(wctx) + npend s.(wakes) <= 1 + ntaken s.(wctx).
Proof.
  intros [tr H]. apply (run_invariant_all (fun s => Inv items s /\ inv_oneshot s)) in H as [_ ?]; [done| |].
  - split; [apply Inv_init|]. unfold inv_oneshot. vm_compute. lia.
  - intros s0 a s1 [I Ho] Hs. split; [by eapply Inv_step|]. eapply step_oneshot, Hs; [apply I|done].
Qed.

Theorem waker_monotone items s a s' : reachable items s -> step s a = Some s' ->
  forall k x, s.(wctx) !! k = Some x -> exists y, s'.(wctx) !! k = Some y /\ wk_rank x <= wk_rank y.
Proof. intros H. apply step_wctx_mono, (Inv_reach _ _ H). Qed.
