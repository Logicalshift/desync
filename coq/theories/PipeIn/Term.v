(* Without environment steps the system comes to rest: every non-environment step decreases [measure]. So from every
   state a quiescent state is reached by ANY schedule of the pipe-side actors in at most [measure s] steps: the
   quiescent states [terminal_complete] and [shutdown] talk about are always reached (no livelock hides a lost item). *)
From stdpp Require Import list numbers option.
From RecordUpdate Require Import RecordUpdate.
From PipeIn Require Import Model Step Inv Thm.

(* Where the weights of [measure] come from: a queued operation weighs 6 because the job it starts weighs 5 (JNew, then
   4, 3, .. down the body); an available item weighs 3 because taking it lifts the job from 3 (JPoll) to 5 (JProc);
   WEnq (14) pays for WDropRc (7) and the job it queues (6), WDropRc (7) for the OFree it may queue (6), WTake (2)
   for the chute job (1). *)
Lemma step_measure s a s' : is_env a = false -> step s a = Some s' -> measure s' < measure s.
Proof.
  unfold measure. intros Ha H%step_spec.
  destruct H; try discriminate Ha; rewrite ?upd_rel_set; cbn; rewrite ?app_length; cbn.
  all: try rewrite Hr; try rewrite Ho; try rewrite Hrd; try rewrite Hch; cbn.
  all: try (match goal with |- context [<[_:=?w']> _] => pose proof (lsum_insert wcost _ _ _ w' Hw) as Hn; cbn in Hn end).
  all: try lia.
  destruct o; lia. (* p_start *)
Qed.

Lemma run_measure s tr s' : Forall (fun a => is_env a = false) tr -> run s tr = Some s' -> measure s' + length tr <= measure s.
Proof.
  revert s. induction tr as [|a tr IH]; intros s Hf.
  - intros [= <-]. cbn. lia.
  - apply Forall_cons_1 in Hf as [Ha Hf]. rewrite run_cons. destruct (step s a) as [s1|] eqn:E; [|done]. intros Hr.
    specialize (IH _ Hf Hr). pose proof (step_measure _ _ _ Ha E). cbn. lia.
Qed.

Theorem reaches_quiescent s : exists tr s', Forall (fun a => is_env a = false) tr /\ run s tr = Some s' /\
  all_done s' = true /\ length tr <= measure s.
Proof.
  remember (measure s) as n eqn:Hn. revert s Hn. induction n as [n IH] using lt_wf_ind. intros s ->.
  destruct (quiescent_or_enabled s) as [Hd|(a & s1 & Ha & Hs)].
  - exists [], s. split; [constructor|]. split; [done|]. split; [done|cbn; lia].
  - pose proof (step_measure _ _ _ Ha Hs) as Hlt.
    destruct (IH _ Hlt s1 eq_refl) as (tr & s' & Hf & Hr & Hd & Hl).
    exists (a :: tr), s'. split; [by constructor|]. split; [by rewrite run_cons, Hs|]. split; [done|cbn; lia].
Qed.

Lemma run_pipe_side s tr s' : Forall (fun a => is_env a = false) tr -> run s tr = Some s' ->
  s'.(future) = s.(future) /\ s'.(ended) = s.(ended) /\ s'.(ext) = s.(ext).
Proof.
  intros Hf Hr.
  eapply (run_invariant _ (fun s' => s'.(future) = s.(future) /\ s'.(ended) = s.(ended) /\ s'.(ext) = s.(ext)));
    [done| |exact Hf|exact Hr].
  intros s1 a s2 Ha (?&?&?) (?&?&?)%step_pipe_side; [|done]. split; [|split]; congruence.
Qed.

(* once the environment has finished (object alive), EVERY pipe-side schedule that runs to rest ends with all items
   processed and poll_fn released, and such schedules exist and are bounded *)
Theorem eventually_complete items s : reachable items s -> env_finished s -> s.(ext) = true ->
  (forall tr s', Forall (fun a => is_env a = false) tr -> run s tr = Some s' -> quiescent s' ->
     processed s'.(log) = items /\ s'.(pollfn) = false /\ s'.(released) = true) /\
  (exists tr s', Forall (fun a => is_env a = false) tr /\ run s tr = Some s' /\ quiescent s' /\ length tr <= measure s).
Proof.
  intros H [Hf He] Hx. split.
  - intros tr s' Hne Hr Hq. destruct (run_pipe_side _ _ _ Hne Hr) as (H1 & H2 & H3).
    apply terminal_complete; [by eapply reachable_run|done|split; congruence|congruence].
  - destruct (reaches_quiescent s) as (tr & s' & Hne & Hr & Hd & Hl).
    exists tr, s'. split; [done|]. split; [done|]. split; [by apply all_done_quiescent|done].
Qed.
