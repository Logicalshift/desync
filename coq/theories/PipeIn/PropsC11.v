(* C11 - "pipe_in processes every stream item once, in order, exclusively".  The pipe_in layer: `pipe_in`, `PipeContext`
   and `PipeWaker` of /repo/src/pipe.rs over ObjExec, the object seen as a FIFO that executes one operation at a time
   (model: PipeIn/Model.v).

   reachable items s := exists tr, run (init items) tr = Some s        (tr : list actor, any length, any interleaving of
   the object's runner, the wake threads, the chute and the environment: items becoming available, end of input,
   duplicate wakes, other operations on the object, the last external owner dropping the object).

   The no-lost-item invariant (C11_no_lost_item_invariant), in words: as long as poll_fn is present, the pipe is never "asleep without
   an alarm clock": at least one of
     (i)   a wake is in flight that WILL schedule a poll job / take poll_fn (a thread about to call `wake` on a
           PipeWaker whose context is still Some, or already inside PipeContext::poll before its enqueue / take),
     (ii)  a poll job is queued on the object,
     (iii) a poll job is running and its OWN PipeWaker is still live (so the Pending poll_next that ends it leaves
           a live waker with the input), or it has not yet created its waker, or it is about to clear poll_fn,
     (iv)  no poll job is in its body (none running, or it has returned and only waits to be finished), the waker
           registered with the input is a live PipeWaker, and the input had
           nothing to report since it was registered (no item available, not ended).
   (iv) is exactly the state "the last job saw Pending"; any availability event in that state TAKES the live waker and
   puts a wake in flight = (i); the wake takes the context = still (i); it enqueues = (ii); the job starts = (iii).
   A running job whose waker has been consumed by a duplicate wake is covered by the (i)/(ii) that wake produced:
   the new job cannot start before the running one ends (exclusivity), so it will poll the input again afterwards.
   In a quiescent state (i)-(iii) are false, so (iv) holds: nothing available, not ended - this is
   C11_terminal_complete. *)
From stdpp Require Import list numbers option.
From RecordUpdate Require Import RecordUpdate.
From PipeIn Require Import Model Step Inv Thm Term OneShot.

(* 1. order, exactly once: the Process events are, in order, exactly the items taken from the input so far
      (the item in the hands of the running job - possibly suspended in the middle of its processing - excepted);
      what is left is still in the input, in order.  An item is a pair (number, slow). *)
Theorem C11_order_exactly_once :
  forall items s, reachable items s ->
    processed s.(log) ++ inhand s ++ s.(ready) ++ s.(future) = items.
Proof. exact order_exactly_once. Qed.

(* 2. exclusive: the log is well bracketed - an operation starts only when none is open, finishes only if it is the
      open one, and a Process event only occurs while a poll job is the open operation; and the open operation is the
      running one. *)
Theorem C11_exclusive :
  forall items s, reachable items s -> excl s.(log) = Some (fst <$> s.(running)).
Proof. exact exclusive. Qed.

Theorem C11_process_inside_poll_job :
  forall items s l1 x l2, reachable items s -> s.(log) = l1 ++ EProcess x :: l2 ->
    exists k l0 l', l1 = l0 ++ EStart (OPoll k) :: l' /\ excl l0 = Some None /\ forallb is_process l' = true.
Proof. exact process_inside_poll_job. Qed.

(* 2'. slow items: the processing of an item may suspend once in the middle (Begin ... Process).  The poll job stays the
       object's open operation across the suspension: the Begin lies inside a poll job and the NEXT event of the whole
       log is the Process of the same item - no operation starts or finishes and nothing else is processed in between;
       as long as there is no such next event the poll job is the running operation, suspended on that item.
       ASSUMPTION about the self-wake: the model lets the runner re-poll a suspended job at any time
       (C11_suspended_resumes), i.e. it assumes that the wake-up the processing future sends to its own task waker is
       delivered; that is property C06 of the scheduler layers.  Hence a state with a suspended item is never quiescent. *)
Theorem C11_suspension_atomic :
  forall items s, reachable items s -> susp_ok s.(log) = Some (susp_item s).
Proof. exact suspension_atomic. Qed.

Theorem C11_begin_then_process :
  forall items s l1 x l2, reachable items s -> s.(log) = l1 ++ EBegin x :: l2 ->
    is_slow x = true /\
    (exists k l0 l', l1 = l0 ++ EStart (OPoll k) :: l' /\ excl l0 = Some None /\ forallb is_process l' = true) /\
    ((l2 = [] /\ exists k, s.(running) = Some (OPoll k, JSusp x)) \/ exists l2', l2 = EProcess x :: l2').
Proof. exact begin_then_process. Qed.

Theorem C11_suspended_resumes :
  forall s k x, s.(running) = Some (OPoll k, JSusp x) ->
    step s ARun = Some (s <| log := s.(log) ++ [EProcess x] |> <| running := Some (OPoll k, JPoll) |>).
Proof. exact suspended_resumes. Qed.

Theorem C11_suspended_not_quiescent :
  forall s k x, s.(running) = Some (OPoll k, JSusp x) -> ~ quiescent s.
Proof. exact suspended_not_quiescent. Qed.

Theorem C11_start_when_nothing_open :
  forall items s l1 o l2, reachable items s -> s.(log) = l1 ++ EStart o :: l2 -> excl l1 = Some None.
Proof. exact start_when_nothing_open. Qed.

(* 3. no lost item *)
Theorem C11_no_lost_item_invariant :
  forall items s, reachable items s ->
    s.(pollfn) = true -> wake_pending s || job_queued s || running_or_armed s = true.
Proof. exact no_lost_item_inv. Qed.

Theorem C11_no_lost_item :
  forall items s, reachable items s ->
    s.(pollfn) = true -> wake_pending s = false -> job_queued s = false -> poll_running s = false ->
    exists k, s.(reg) = Some k /\ is_live s.(wctx) k = true /\ s.(ready) = [] /\ s.(ended) = false.
Proof. exact no_lost_item. Qed.

(* 4. terminal completeness *)
Theorem C11_terminal_complete :
  forall items s, reachable items s -> quiescent s -> env_finished s -> s.(ext) = true ->
    processed s.(log) = items /\ s.(pollfn) = false /\ s.(released) = true.
Proof. exact terminal_complete. Qed.

(* 5a. weak reference: the strong count is the external owners' unit plus the wake threads between the successful
       upgrade and the drop of the temporary Arc, all of which are inside PipeContext::poll *)
Theorem C11_weak_reference :
  forall items s, reachable items s ->
    s.(strong) = Nat.b2n s.(ext) + nstrong s.(wakes) /\
    (forall w, holds_strong w = true -> inside_poll w = true).
Proof. exact weak_reference. Qed.

Theorem C11_never_keeps_alive :
  forall items s, reachable items s ->
    (forall i w, s.(wakes) !! i = Some w -> inside_poll w = false) ->
    s.(strong) = Nat.b2n s.(ext) /\
    (s.(ext) = false -> s.(freed) = true \/ run_free s.(running) = true \/ last_free s.(opq) = true).
Proof. exact never_keeps_alive. Qed.

(* 5b. shutdown.  "Gone" = freed (the final operation of Desync::drop has run).  If the last owner drops the object while an
       item is suspended, Desync::drop waits behind the suspended poll job (FIFO, one operation at a time): the item is
       finished first (example ex_drop_while_suspended); the statement covers every reachable state, suspended or not. *)
Theorem C11_shutdown :
  forall items s e s1 tr s2, reachable items s -> s.(freed) = true ->
    (e = AEnvAvail \/ e = AEnvEnd) -> step s e = Some s1 -> run s1 tr = Some s2 -> quiescent s2 ->
    s2.(pollfn) = false /\ s2.(released) = true.
Proof. exact shutdown. Qed.

Theorem C11_no_process_after_gone :
  forall items s tr s', reachable items s -> s.(freed) = true -> run s tr = Some s' ->
    s'.(log) = s.(log) /\ s'.(freed) = true.
Proof. exact no_process_after_gone. Qed.

(* 4'. the quiescent states of C11_terminal_complete and C11_shutdown are always reached: every pipe-side step decreases [measure], and
       after the environment has finished every pipe-side schedule that runs to rest has processed everything *)
Theorem C11_pipe_side_terminates :
  forall s a s', is_env a = false -> step s a = Some s' -> measure s' < measure s.
Proof. exact step_measure. Qed.

Theorem C11_reaches_quiescent :
  forall s, exists tr s', Forall (fun a => is_env a = false) tr /\ run s tr = Some s' /\
    all_done s' = true /\ length tr <= measure s.
Proof. exact reaches_quiescent. Qed.

Theorem C11_eventually_complete :
  forall items s, reachable items s -> env_finished s -> s.(ext) = true ->
    (forall tr s', Forall (fun a => is_env a = false) tr -> run s tr = Some s' -> quiescent s' ->
       processed s'.(log) = items /\ s'.(pollfn) = false /\ s'.(released) = true) /\
    (exists tr s', Forall (fun a => is_env a = false) tr /\ run s tr = Some s' /\ quiescent s' /\ length tr <= measure s).
Proof. exact eventually_complete. Qed.

(* the mechanism "the waker is one-shot": contexts only move Fresh -> Live -> Taken, and every scheduled poll job
   (wctx has one entry per poll job ever queued) beyond the initial one is paid for by one consumed waker *)
Theorem C11_one_shot :
  forall items s, reachable items s -> length s.(wctx) + npend s.(wakes) <= 1 + ntaken s.(wctx).
Proof. exact one_shot. Qed.

Theorem C11_waker_monotone :
  forall items s a s', reachable items s -> step s a = Some s' ->
    forall k x, s.(wctx) !! k = Some x -> exists y, s'.(wctx) !! k = Some y /\ wk_rank x <= wk_rank y.
Proof. exact waker_monotone. Qed.

(* bookkeeping *)
Theorem C11_labels_defined_iff_enabled : forall s a, step_label s a = None <-> step s a = None.
Proof. exact step_label_enabled. Qed.
Theorem C11_all_done_quiescent : forall s, all_done s = true -> quiescent s.
Proof. exact all_done_quiescent. Qed.

Print Assumptions C11_order_exactly_once.
Print Assumptions C11_exclusive.
Print Assumptions C11_process_inside_poll_job.
Print Assumptions C11_start_when_nothing_open.
Print Assumptions C11_suspension_atomic.
Print Assumptions C11_begin_then_process.
Print Assumptions C11_suspended_resumes.
Print Assumptions C11_suspended_not_quiescent.
Print Assumptions C11_no_lost_item_invariant.
Print Assumptions C11_no_lost_item.
Print Assumptions C11_terminal_complete.
Print Assumptions C11_weak_reference.
Print Assumptions C11_never_keeps_alive.
Print Assumptions C11_shutdown.
Print Assumptions C11_no_process_after_gone.
Print Assumptions C11_pipe_side_terminates.
Print Assumptions C11_reaches_quiescent.
Print Assumptions C11_eventually_complete.
Print Assumptions C11_one_shot.
Print Assumptions C11_waker_monotone.
Print Assumptions C11_labels_defined_iff_enabled.
Print Assumptions C11_all_done_quiescent.
