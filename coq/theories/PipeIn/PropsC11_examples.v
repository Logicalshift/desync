(* Non-vacuity of the hypotheses of the C11 theorems: concrete reachable states (runs of Sim.v) that satisfy them. *)
From stdpp Require Import list numbers option.
From PipeIn Require Import Model Sim Step.

Ltac by_run tr := exists tr; vm_compute; reflexivity.

(* terminal_complete: quiescent + environment finished + object alive is reachable (ready-immediately, during/after, burst,
   duplicate wake) *)
Example ex_terminal_a : exists s, reachable (P [10;11;12]) s /\ quiescent s /\ env_finished s /\ s.(ext) = true /\ processed s.(log) = (P [10;11;12]).
Proof.
  eexists. split; [by_run tr_a|]. split; [by apply all_done_quiescent|]. done.
Qed.
Example ex_terminal_b : exists s, reachable (P [10;11;12]) s /\ quiescent s /\ env_finished s /\ s.(ext) = true.
Proof.
  eexists. split; [by_run tr_b|]. split; [by apply all_done_quiescent|]. done.
Qed.
Example ex_terminal_c : exists s, reachable (P [10;11;12]) s /\ quiescent s /\ env_finished s /\ s.(ext) = true.
Proof.
  eexists. split; [by_run tr_c|]. split; [by apply all_done_quiescent|]. done.
Qed.
Example ex_terminal_d : exists s, reachable (P [10;11]) s /\ quiescent s /\ env_finished s /\ s.(ext) = true.
Proof.
  eexists. split; [by_run tr_d|]. split; [by apply all_done_quiescent|]. done.
Qed.

(* no_lost_item_inv: a reachable state in which ONLY clause (iv) holds (asleep with a live registered waker), and one in
   which ONLY clause (ii) holds (job 0 went Pending with a waker already consumed by a duplicate wake) *)
Example ex_asleep : exists s, reachable (P [10;11]) s /\ s.(pollfn) = true /\ wake_pending s = false /\ job_queued s = false
  /\ poll_running s = false /\ waker_armed s = true.
Proof.
  eexists. split; [by_run (take 11 tr_e)|]. done.
Qed.
Example ex_dead_waker_registered : exists s, reachable (P [10;11]) s /\ s.(pollfn) = true /\ wake_pending s = false
  /\ job_queued s = true /\ poll_running s = false /\ waker_armed s = false /\ s.(reg) = Some 0.
Proof.
  eexists. split; [by_run (take 20 tr_d)|]. done.
Qed.

(* shutdown: the object is gone, then an item event, then a run to a quiescent state *)
Example ex_shutdown : exists s s1 s2 tr, reachable (P [10;11]) s /\ s.(freed) = true /\ s.(pollfn) = true /\
  step s AEnvAvail = Some s1 /\ run s1 tr = Some s2 /\ quiescent s2 /\ processed s2.(log) = (P [10]).
Proof.
  eexists _, _, _, (W 1 3 ++ [AChute]). split; [by_run (take 14 tr_e)|].
  split; [done|]. split; [done|]. split; [vm_compute; reflexivity|]. split; [vm_compute; reflexivity|].
  split; [by apply all_done_quiescent|done].
Qed.

(* weak_reference: a reachable state in which the pipe transiently holds a strong reference although the external
   owners are gone (inside PipeContext::poll), and the object is still alive because of it *)
Example ex_transient_strong : exists s, reachable (P [10;11]) s /\ s.(ext) = false /\ s.(strong) = 1 /\ nstrong s.(wakes) = 1 /\ s.(freed) = false.
Proof.
  eexists. split; [by_run (take 3 tr_f)|]. done.
Qed.

(* slow items: a reachable state with an item suspended (the poll job is the open operation, other work queued behind),
   and the terminal state of the same run; the object dropped while an item is suspended, then gone, then an event *)
Example ex_suspended : exists s k, reachable items_h s /\ s.(running) = Some (OPoll k, JSusp (11,true)) /\ s.(opq) = [OOther 0; OPoll 1]
  /\ excl s.(log) = Some (Some (OPoll k)).
Proof.
  eexists _, 0. split; [by_run (take 19 tr_h)|]. done.
Qed.
Example ex_terminal_h : exists s, reachable items_h s /\ quiescent s /\ env_finished s /\ s.(ext) = true /\ processed s.(log) = items_h.
Proof.
  eexists. split; [by_run tr_h|]. split; [by apply all_done_quiescent|]. done.
Qed.
Example ex_drop_while_suspended : exists s s2 tr, reachable items_i s /\ s.(running) = Some (OPoll 0, JSusp (10,true)) /\ s.(strong) = 0 /\
  run s tr = Some s2 /\ s2.(freed) = true /\ quiescent s2 /\ s2.(pollfn) = false /\ s2.(released) = true /\ processed s2.(log) = [(10,true)].
Proof.
  eexists _, _, (drop 10 tr_i). split; [by_run (take 10 tr_i)|].
  split; [done|]. split; [done|]. split; [vm_compute; reflexivity|].
  repeat (split; [done|]). split; [by apply all_done_quiescent|]. done.
Qed.
