(* [step] as a relation [pstep] over a state that is not destructed: the step lemmas of Inv.v, Term.v and OneShot.v
   start from [step_spec]. *)
From stdpp Require Import list numbers option.
From RecordUpdate Require Import RecordUpdate.
From PipeIn Require Import Model.

Lemma run_snoc s tr a : run s (tr ++ [a]) = (o ← run s tr; step o a).
Proof. unfold run. by rewrite foldl_app. Qed.
Lemma run_cons s a tr : run s (a :: tr) = (s1 ← step s a; run s1 tr).
Proof.
  unfold run. cbn. destruct (step s a) as [s1|]; cbn; [done|].
  induction tr as [|b tr IH]; cbn; [done|]. exact IH.
Qed.

Lemma run_invariant (ok : actor -> Prop) (P : state -> Prop) s0 :
  P s0 ->
  (forall s a s', ok a -> P s -> step s a = Some s' -> P s') ->
  forall tr s, Forall ok tr -> run s0 tr = Some s -> P s.
Proof.
  intros H0 Hs tr. revert s0 H0. induction tr as [|a tr IH]; intros s0 H0 s Hf.
  - by intros [= <-].
  - rewrite run_cons. apply Forall_cons_1 in Hf as [Ha Hf].
    destruct (step s0 a) as [s1|] eqn:E; [|done]. apply IH; [|done]. by eapply Hs.
Qed.
Lemma run_invariant_all (P : state -> Prop) s0 :
  P s0 ->
  (forall s a s', P s -> step s a = Some s' -> P s') ->
  forall tr s, run s0 tr = Some s -> P s.
Proof.
  intros H0 Hs tr s. apply (run_invariant (fun _ => True)); [done|by eauto|]. by apply Forall_true.
Qed.

Lemma reachable_step items s a s' : reachable items s -> step s a = Some s' -> reachable items s'.
Proof. intros [tr H] Hs. exists (tr ++ [a]). by rewrite run_snoc, H. Qed.
Lemma reachable_run items s tr s' : reachable items s -> run s tr = Some s' -> reachable items s'.
Proof. intros H Hr. by eapply (run_invariant_all (reachable items)), Hr; [|apply reachable_step]. Qed.

Lemma lsum_app {A} (f : A -> nat) l x : lsum f (l ++ [x]) = lsum f l + f x.
Proof. induction l as [|y l IH]; simpl; lia. Qed.
Lemma lsum_insert {A} (f : A -> nat) l i y x : l !! i = Some y -> lsum f (<[i:=x]> l) + f y = lsum f l + f x.
Proof.
  revert i; induction l as [|z l IH]; intros [|i]; simpl; try done.
  - intros [= ->]. lia.
  - intros H. specialize (IH _ H). lia.
Qed.
Lemma lsum_lookup_le {A} (f : A -> nat) l i y : l !! i = Some y -> f y <= lsum f l.
Proof.
  revert i; induction l as [|z l IH]; intros [|i]; simpl; try done.
  - intros [= ->]. lia.
  - intros H. specialize (IH _ H). lia.
Qed.
Lemma lsum_zero {A} (f : A -> nat) l : (forall i x, l !! i = Some x -> f x = 0) -> lsum f l = 0.
Proof.
  induction l as [|x l IH]; [done|]. intros H. simpl. rewrite (H 0 x eq_refl). apply IH. intros i y Hi. by apply (H (S i)).
Qed.
Lemma nstrong_lsum ws : nstrong ws = lsum (fun w => Nat.b2n (holds_strong w)) ws.
Proof. induction ws as [|w ws IH]; simpl; congruence. Qed.

(* One constructor per control path of [step]; the guards are equations about the projections of [s], the result is
   [s] with the fields the path writes.  [fire] and [drop_strong] are split into their cases, [upd_rel] is kept
   (see [upd_rel_set]).  [destruct] names the guards as they are named here. *)
Inductive pstep (s : state) : actor -> state -> Prop :=
  | p_start o q (Hr : running s = None) (Ho : opq s = o :: q) :
      pstep s ARun (s <| opq := q |> <| running := Some (o, JNew) |> <| log := log s ++ [EStart o] |>)
  | p_new k (Hr : running s = Some (OPoll k, JNew)) :
      pstep s ARun (s <| wctx := <[k := WkLive]> (wctx s) |> <| running := Some (OPoll k, JLockPf) |>)
  | p_lock k (Hr : running s = Some (OPoll k, JLockPf)) (Hp : pollfn s = true) :
      pstep s ARun (s <| running := Some (OPoll k, JPoll) |>)
  | p_lock_none k (Hr : running s = Some (OPoll k, JLockPf)) (Hp : pollfn s = false) :
      pstep s ARun (s <| running := Some (OPoll k, JEnd) |>)
  | p_item k x r (Hr : running s = Some (OPoll k, JPoll)) (Hrd : ready s = x :: r) :
      pstep s ARun (s <| ready := r |> <| running := Some (OPoll k, JProc x) |>)
  | p_eos k (Hr : running s = Some (OPoll k, JPoll)) (Hrd : ready s = []) (He : ended s = true) :
      pstep s ARun (upd_rel (s <| running := Some (OPoll k, JClear) |>))
  | p_pending k (Hr : running s = Some (OPoll k, JPoll)) (Hrd : ready s = []) (He : ended s = false) :
      pstep s ARun (upd_rel (s <| reg := Some k |> <| running := Some (OPoll k, JEnd) |>))
  | p_begin k x (Hr : running s = Some (OPoll k, JProc x)) (Hsl : is_slow x = true) :
      pstep s ARun (s <| log := log s ++ [EBegin x] |> <| running := Some (OPoll k, JSusp x) |>)
  | p_process k x (Hr : running s = Some (OPoll k, JProc x)) (Hsl : is_slow x = false) :
      pstep s ARun (s <| log := log s ++ [EProcess x] |> <| running := Some (OPoll k, JPoll) |>)
  | p_resume k x (Hr : running s = Some (OPoll k, JSusp x)) :
      pstep s ARun (s <| log := log s ++ [EProcess x] |> <| running := Some (OPoll k, JPoll) |>)
  | p_clear k (Hr : running s = Some (OPoll k, JClear)) :
      pstep s ARun (upd_rel (s <| pollfn := false |> <| running := Some (OPoll k, JEnd) |>))
  | p_end k (Hr : running s = Some (OPoll k, JEnd)) :
      pstep s ARun (s <| running := None |> <| log := log s ++ [EFinish (OPoll k)] |>)
  | p_other n pc (Hr : running s = Some (OOther n, pc)) :
      pstep s ARun (s <| running := None |> <| log := log s ++ [EFinish (OOther n)] |>)
  | p_free pc (Hr : running s = Some (OFree, pc)) :
      pstep s ARun (s <| freed := true |> <| running := None |> <| log := log s ++ [EFinish OFree] |>)
  | p_call i k (Hw : wakes s !! i = Some (WCall k)) (Hc : wctx s !! k = Some WkLive) :
      pstep s (AWake i) (s <| wctx := <[k := WkTaken]> (wctx s) |> <| wakes := <[i := WUpgrade]> (wakes s) |>)
  | p_call_dead i k (Hw : wakes s !! i = Some (WCall k)) (Hc : is_live (wctx s) k = false) :
      pstep s (AWake i) (s <| wakes := <[i := WDone]> (wakes s) |>)
  | p_upgrade_gone i (Hw : wakes s !! i = Some WUpgrade) (Hst : strong s = 0) :
      pstep s (AWake i) (s <| wakes := <[i := WTake]> (wakes s) |>)
  | p_upgrade i n (Hw : wakes s !! i = Some WUpgrade) (Hst : strong s = S n) :
      pstep s (AWake i) (s <| strong := S (S n) |> <| wakes := <[i := WEnq]> (wakes s) |>)
  | p_enq i (Hw : wakes s !! i = Some WEnq) :
      pstep s (AWake i) (s <| opq := opq s ++ [OPoll (length (wctx s))] |> <| wctx := wctx s ++ [WkFresh] |>
                           <| wakes := <[i := WDropRc]> (wakes s) |>)
  | p_droprc0 i (Hw : wakes s !! i = Some WDropRc) (Hst : strong s = 0) :
      pstep s (AWake i) (s <| wakes := <[i := WDone]> (wakes s) |>)
  | p_droprc_last i (Hw : wakes s !! i = Some WDropRc) (Hst : strong s = 1) :
      pstep s (AWake i) (s <| strong := 0 |> <| opq := opq s ++ [OFree] |> <| wakes := <[i := WDone]> (wakes s) |>)
  | p_droprc i n (Hw : wakes s !! i = Some WDropRc) (Hst : strong s = S (S n)) :
      pstep s (AWake i) (s <| strong := S n |> <| wakes := <[i := WDone]> (wakes s) |>)
  | p_take i (Hw : wakes s !! i = Some WTake) (Hp : pollfn s = true) :
      pstep s (AWake i) (s <| pollfn := false |> <| chute := true |> <| wakes := <[i := WDone]> (wakes s) |>)
  | p_take_none i (Hw : wakes s !! i = Some WTake) (Hp : pollfn s = false) :
      pstep s (AWake i) (s <| wakes := <[i := WDone]> (wakes s) |>)
  | p_chute (Hch : chute s = true) : pstep s AChute (upd_rel (s <| chute := false |>))
  | p_avail x f k (He : ended s = false) (Hf : future s = x :: f) (Hg : reg s = Some k) :
      pstep s AEnvAvail (s <| ready := ready s ++ [x] |> <| future := f |> <| evt_gone := freed s || evt_gone s |>
                           <| reg := None |> <| wakes := wakes s ++ [WCall k] |>)
  | p_avail_unreg x f (He : ended s = false) (Hf : future s = x :: f) (Hg : reg s = None) :
      pstep s AEnvAvail (s <| ready := ready s ++ [x] |> <| future := f |> <| evt_gone := freed s || evt_gone s |>)
  | p_close k (He : ended s = false) (Hg : reg s = Some k) :
      pstep s AEnvEnd (s <| ended := true |> <| evt_gone := freed s || evt_gone s |>
                         <| reg := None |> <| wakes := wakes s ++ [WCall k] |>)
  | p_close_unreg (He : ended s = false) (Hg : reg s = None) :
      pstep s AEnvEnd (s <| ended := true |> <| evt_gone := freed s || evt_gone s |>)
  | p_spur k x (Hc : wctx s !! k = Some x) (Hx : x <> WkFresh) :
      pstep s (AEnvSpur k) (s <| wakes := wakes s ++ [WCall k] |>)
  | p_op (Hx : ext s = true) :
      pstep s AEnvOp (s <| opq := opq s ++ [OOther (nextother s)] |> <| nextother := S (nextother s) |>)
  | p_drop0 (Hx : ext s = true) (Hst : strong s = 0) : pstep s AEnvDrop (s <| ext := false |>)
  | p_drop_last (Hx : ext s = true) (Hst : strong s = 1) :
      pstep s AEnvDrop (s <| ext := false |> <| strong := 0 |> <| opq := opq s ++ [OFree] |>)
  | p_drop n (Hx : ext s = true) (Hst : strong s = S (S n)) :
      pstep s AEnvDrop (s <| ext := false |> <| strong := S n |>).

Lemma fire_set s :
  fire s = match reg s with
           | Some k => s <| evt_gone := freed s || evt_gone s |> <| reg := None |> <| wakes := wakes s ++ [WCall k] |>
           | None => s <| evt_gone := freed s || evt_gone s |>
           end.
Proof. unfold fire. destruct s; cbn. by destruct freed, reg. Qed.

Lemma step_spec s a s' : step s a = Some s' -> pstep s a s'.
Proof.
  unfold step, drop_strong, finish, setw. intros H. destruct a; cbn in H.
  all: try match type of H with context [wakes _ !! ?i] => destruct (wakes s !! i) as [w|] eqn:Hw; [cbn in H|done] end.
  all: repeat case_match; simplify_eq; rewrite ?fire_set; cbn; repeat case_match.
  (* [solve] goal by goal: under a bare [all: econstructor; ...] a wrong constructor in one goal makes the search
     backtrack through the constructors chosen in all the other goals *)
  all: solve [econstructor; unfold is_live; by simplify_option_eq].
Qed.

Lemma upd_rel_set s : upd_rel s = s <| released := released s || negb (holders s) |>.
Proof. unfold upd_rel. destruct (holders s); destruct s; cbn; by rewrite ?orb_false_r, ?orb_true_r. Qed.

Record mono (s s' : state) : Prop := {
  m_strong : strong s = 0 -> strong s' = 0;
  m_eos : ended s = true /\ ready s = [] -> ended s' = true /\ ready s' = [];
  m_gone : evt_gone s = true -> evt_gone s' = true }.

Lemma step_mono s a s' : step s a = Some s' -> mono s s'.
Proof.
  intros H%step_spec. destruct H; rewrite ?upd_rel_set; split; cbn; try done; try congruence.
  all: try (intros [? ?]; congruence).
  all: intros ->; apply orb_true_r.
Qed.

Lemma step_not_run s a s' : a <> ARun -> step s a = Some s' -> log s' = log s /\ freed s' = freed s.
Proof. intros Ha H%step_spec. destruct H; rewrite ?upd_rel_set; done. Qed.
Lemma step_pipe_side s a s' : is_env a = false -> step s a = Some s' ->
  future s' = future s /\ ended s' = ended s /\ ext s' = ext s.
Proof. intros Ha H%step_spec. destruct H; rewrite ?upd_rel_set; done. Qed.

Lemma step_run_None s : step s ARun = None <-> running s = None /\ opq s = [].
Proof.
  cbn. split; [|by intros [-> ->]].
  destruct (running s) as [[[k| |] []]|]; try done; by repeat case_match.
Qed.
Lemma step_wake_None s i : step s (AWake i) = None <-> forall w, wakes s !! i = Some w -> w = WDone.
Proof.
  cbn. destruct (wakes s !! i) as [w|]; cbn; [|done]. split; [|intros Hw; by rewrite (Hw _ eq_refl)].
  intros H ? [= <-]. destruct w; try done; by repeat case_match.
Qed.
Lemma step_chute_None s : step s AChute = None <-> chute s = false.
Proof. cbn. by destruct (chute s). Qed.

Lemma all_done_quiescent s : all_done s = true -> quiescent s.
Proof.
  unfold all_done. intros [[Hw Hc%negb_true_iff]%andb_true_iff Hr]%andb_true_iff a Ha.
  destruct a; try done.
  - apply step_run_None. by destruct (running s), (opq s).
  - apply step_wake_None. intros w Hi%elem_of_list_lookup_2%elem_of_list_In.
    rewrite forallb_forall in Hw. specialize (Hw w Hi). by destruct w.
  - by apply step_chute_None.
Qed.

Lemma quiescent_or_enabled s : all_done s = true \/ exists a s', is_env a = false /\ step s a = Some s'.
Proof.
  assert (En : forall a, is_env a = false -> step s a = None \/ exists a s', is_env a = false /\ step s a = Some s').
  { intros a Ha. destruct (step s a) as [s'|] eqn:E; [right; by exists a, s'|by left]. }
  destruct (En ARun eq_refl) as [[Hr Ho]%step_run_None|?]; [|by right].
  destruct (En AChute eq_refl) as [Hc%step_chute_None|?]; [|by right].
  unfold all_done. rewrite Hr, Ho, Hc, !andb_true_r.
  assert (Hw : forall i w, wakes s !! i = Some w -> w = WDone \/ exists a s', is_env a = false /\ step s a = Some s').
  { intros i w Hi. destruct (En (AWake i) eq_refl) as [Hn|?]; [left|by right]. by eapply step_wake_None. }
  revert Hw. generalize (wakes s). intros ws. induction ws as [|w ws IH]; intros Hw; [by left|]. cbn.
  destruct (Hw 0 w eq_refl) as [->|?]; [|by right]. apply IH. intros i. apply (Hw (S i)).
Qed.
