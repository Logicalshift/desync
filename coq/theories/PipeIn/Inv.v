(* [step_xxx] keeps [inv_xxx].  After the sweeps over the cases of [step_spec], the bullets that remain are named after
   their constructors of [pstep], in that order. *)
From stdpp Require Import list numbers option.
From RecordUpdate Require Import RecordUpdate.
From PipeIn Require Import Model Step.

Arguments processed : simpl never.
Arguments lsum : simpl never.
Lemma processed_snoc l e : processed (l ++ [e]) = processed l ++ match e with EProcess x => [x] | _ => [] end.
Proof. unfold processed. rewrite omap_app. by destruct e. Qed.

Definition inv_items (items : list item) (s : state) : Prop :=
  processed s.(log) ++ inhand s ++ s.(ready) ++ s.(future) = items.

Lemma step_items items s a s' : inv_items items s -> step s a = Some s' -> inv_items items s'.
Proof.
  unfold inv_items, inhand. intros HI H%step_spec.
  destruct H; rewrite ?upd_rel_set; cbn; rewrite ?processed_snoc, ?app_nil_r; try exact HI.
  all: try (rewrite Hr in HI; cbn in HI); subst items; try rewrite Hrd; try rewrite Hf; rewrite <- ?app_assoc; try done.
  by destruct o. (* p_start *)
Qed.

Arguments excl : simpl never.
Lemma excl_snoc l e : excl (l ++ [e]) = excl_step (excl l) e.
Proof. unfold excl. by rewrite foldl_app. Qed.
Lemma op_eqb_refl o : op_eqb o o = true.
Proof. destruct o; cbn; by rewrite ?Nat.eqb_refl. Qed.

Definition inv_excl (s : state) : Prop := excl s.(log) = Some (fst <$> s.(running)).
Lemma step_excl s a s' : inv_excl s -> step s a = Some s' -> inv_excl s'.
Proof.
  unfold inv_excl. intros HI H%step_spec.
  destruct H; rewrite ?upd_rel_set; cbn; rewrite ?excl_snoc, HI; try done.
  all: rewrite Hr; cbn; by rewrite ?Nat.eqb_refl.
Qed.

Definition inv_strong (s : state) : Prop := s.(strong) = Nat.b2n s.(ext) + nstrong s.(wakes).
Lemma step_strong s a s' : inv_strong s -> step s a = Some s' -> inv_strong s'.
Proof.
  unfold inv_strong. intros HI H%step_spec. rewrite nstrong_lsum in HI.
  destruct H; rewrite ?upd_rel_set; cbn; rewrite nstrong_lsum, ?lsum_app; cbn; try lia.
  all: try rewrite Hx in HI; cbn in HI; try lia.
  all: match goal with |- context [<[_:=?w']> _] =>
         pose proof (lsum_insert (fun w => Nat.b2n (holds_strong w)) _ _ _ w' Hw) as Hn; cbn in Hn end; lia.
Qed.

(* Desync::drop happens once, and OFree is the last operation ever queued *)
Definition inv_free (s : state) : Prop :=
  match s.(strong) with
  | S _ => s.(freed) = false /\ no_free s.(opq) = true /\ run_free s.(running) = false
  | 0 => (s.(freed) = false /\ last_free s.(opq) = true /\ run_free s.(running) = false)
         \/ (s.(freed) = false /\ s.(opq) = [] /\ run_free s.(running) = true)
         \/ (s.(freed) = true /\ s.(opq) = [] /\ s.(running) = None)
  end.

Lemma no_free_app l o : no_free (l ++ [o]) = no_free l && negb (is_free o).
Proof. unfold no_free. rewrite forallb_app. cbn. by rewrite andb_true_r. Qed.
Lemma last_free_snoc l : no_free l = true -> last_free (l ++ [OFree]) = true.
Proof.
  induction l as [|o l IH]; cbn; [done|]. intros [H1 H2]%andb_true_iff. rewrite (IH H2), H1.
  by destruct l.
Qed.
Lemma last_free_cons o l : last_free (o :: l) = true ->
  (o = OFree /\ l = []) \/ (is_free o = false /\ last_free l = true).
Proof.
  cbn. destruct l as [|o' l'].
  - destruct o; try done. by left.
  - intros [H1 H2]%andb_true_iff. right. split; [by destruct (is_free o)|done].
Qed.
Lemma no_free_cons o l : no_free (o :: l) = true -> is_free o = false /\ no_free l = true.
Proof. cbn. intros [H1 H2]%andb_true_iff. split; [by destruct (is_free o)|done]. Qed.
Arguments no_free : simpl never.
Arguments last_free : simpl never.

Lemma free_freed s : inv_free s -> freed s = true -> running s = None /\ opq s = [].
Proof.
  unfold inv_free. intros HF Hf. destruct (strong s); [|destruct HF; congruence].
  destruct HF as [(?&?&?)|[(?&?&?)|(?&?&?)]]; [congruence..|done].
Qed.

Lemma step_free s a s' : inv_strong s -> inv_free s -> step s a = Some s' -> inv_free s'.
Proof.
  unfold inv_strong, inv_free. intros HS HI H%step_spec. rewrite nstrong_lsum in HS.
  destruct H; rewrite ?upd_rel_set; cbn; try exact HI.
  all: try (rewrite Hst in HI); try (rewrite Hr in HI); try exact HI.
  (* the running operation is not OFree, before and after *)
  all: try (destruct (strong s); [destruct HI as [?|[(_&_&[=])|(_&_&[=])]]; by left|exact HI]).
  - (* p_start: the head of the queue may be OFree *)
    rewrite Ho in HI. destruct (strong s).
    + destruct HI as [(? & [[-> ->]|[? ?]]%last_free_cons & _)|[(_&[=]&_)|(_&[=]&_)]]; [right|]; by left.
    + by destruct HI as (? & [? ?]%no_free_cons & _).
  - (* p_free *)
    destruct (strong s); [|by destruct HI as (_&_&[=])].
    destruct HI as [(_&_&[=])|[(_&?&_)|(_&_&[=])]]. by right; right.
  - (* p_enq: the thread holds a strong reference *)
    pose proof (lsum_lookup_le (fun w => Nat.b2n (holds_strong w)) _ _ _ Hw) as Hn; cbn in Hn.
    destruct (strong s); [lia|]. rewrite no_free_app; cbn. by rewrite andb_true_r.
  - (* p_droprc_last: OFree is queued behind operations that are not OFree *)
    destruct HI as (?&?&?). left. by rewrite last_free_snoc.
  - (* p_op: another owner exists, so does its strong reference *)
    rewrite Hx in HS. destruct (strong s); [done|]. rewrite no_free_app; cbn. by rewrite andb_true_r.
  - (* p_drop_last *)
    destruct HI as (?&?&?). left. by rewrite last_free_snoc.
Qed.

Definition inv_rel (s : state) : Prop := s.(released) = negb (holders s).
Lemma step_rel s a s' : inv_rel s -> step s a = Some s' -> inv_rel s'.
Proof.
  unfold inv_rel, holders. intros HI H%step_spec.
  destruct H; rewrite ?upd_rel_set; unfold holders; cbn; try exact HI.
  all: try (rewrite Hr in HI); try (rewrite Hp in HI); try (rewrite Hch in HI); cbn in HI; rewrite HI.
  all: try rewrite Hp; try by destruct (pollfn s), (chute s).
  by destruct o. (* p_start *)
Qed.

(* a queued poll job's waker has not been created yet; the ids of the poll jobs are distinct waker ids *)
Definition inv_fresh (s : state) : Prop :=
  (forall k, k ∈ omap poll_id s.(opq) -> s.(wctx) !! k = Some WkFresh) /\
  NoDup (omap poll_id s.(opq)) /\
  (forall k pc, s.(running) = Some (OPoll k, pc) ->
     k ∉ omap poll_id s.(opq) /\ k < length s.(wctx) /\ (pc = JNew -> s.(wctx) !! k = Some WkFresh)).

Lemma step_fresh s a s' : inv_fresh s -> step s a = Some s' -> inv_fresh s'.
Proof.
  unfold inv_fresh. intros (F1 & F2 & F3) H%step_spec.
  destruct H; rewrite ?upd_rel_set; cbn; rewrite ?omap_app; cbn; rewrite ?app_nil_r.
  all: try (split; [exact F1|split; [exact F2|first [exact F3|done]]]).
  all: try (split; [exact F1|split; [exact F2|]]; intros k0 pc0 [= <- <-]; destruct (F3 _ _ Hr) as (A & B & C);
            split; [done|split; [done|intros; discriminate]]).
  - (* p_start *)
    rewrite Ho in F1, F2. destruct o as [k| |]; cbn in *; [|by split; [|split]..].
    apply stdpp.list.NoDup_cons in F2 as [F2a F2b]. split; [intros k0 Hk; apply F1; by right|]. split; [done|].
    intros k0 pc0 [= <- <-]. assert (Hf : wctx s !! k = Some WkFresh) by (apply F1; by left).
    split; [done|]. split; [by apply lookup_lt_Some in Hf|done].
  - (* p_new *)
    destruct (F3 _ _ Hr) as (A & B & C). split; [|split; [done|]].
    + intros k0 Hk. rewrite list_lookup_insert_ne; [by apply F1|]. by intros ->.
    + intros k0 pc0 [= <- <-]. rewrite insert_length. split; [done|split; [done|intros; discriminate]].
  - (* p_call: the waker taken is live, hence neither queued nor about to be created *)
    split; [|split; [done|]].
    + intros k0 Hk. rewrite list_lookup_insert_ne; [by apply F1|]. intros ->. specialize (F1 _ Hk). congruence.
    + intros k0 pc0 Hr. destruct (F3 _ _ Hr) as (A & B & C). rewrite insert_length. split; [done|split; [done|]].
      intros Hpc. specialize (C Hpc). rewrite list_lookup_insert_ne; [done|]. intros ->. congruence.
  - (* p_enq: the new job's id is the next waker id *)
    split; [|split].
    + intros k0 [Hk| ->%elem_of_list_singleton]%elem_of_app.
      * specialize (F1 _ Hk). rewrite lookup_app_l; [done|]. by apply lookup_lt_Some in F1.
      * by rewrite lookup_app_r, Nat.sub_diag.
    + apply NoDup_app. split; [done|]. split; [|apply NoDup_singleton].
      intros k0 Hk ->%elem_of_list_singleton. specialize (F1 _ Hk). apply lookup_lt_Some in F1. lia.
    + intros k0 pc0 Hr. destruct (F3 _ _ Hr) as (A & B & C). rewrite app_length. cbn. split; [|split; [lia|]].
      * intros [Hk| ->%elem_of_list_singleton]%elem_of_app; [done|lia].
      * intros Hpc. rewrite lookup_app_l; [by apply C|done].
Qed.

(* No lost wake-up (Thm.no_lost_item_inv; the clauses are explained at the head of PropsC11.v).  [running_or_armed] may
   count the registered waker only while no poll job is in its body: a Pending poll_next REPLACES the registered waker
   by the job's own.  If a duplicate wake consumed that one, the wake is or was a potent thread and leaves a queued job,
   which cannot start before the running one has finished. *)
Definition alarm (s : state) : Prop := wake_pending s = true \/ job_queued s = true \/ running_or_armed s = true.
Lemma alarm_iff s : alarm s <-> wake_pending s || job_queued s || running_or_armed s = true.
Proof. unfold alarm. rewrite !orb_true_iff. tauto. Qed.
Definition inv_alarm (s : state) : Prop := s.(pollfn) = true -> alarm s.

Lemma existsb_insert {A} (f : A -> bool) l i y x : l !! i = Some y ->
  existsb f (<[i:=x]> l) || f y = existsb f l || f x.
Proof.
  revert i; induction l as [|z l IH]; intros [|i]; simpl; try done.
  - intros [= ->]. destruct (f x), (f y), (existsb f l); done.
  - intros H. specialize (IH _ H). destruct (f z); [done|]. exact IH.
Qed.
Lemma existsb_insert_keep {A} (f : A -> bool) l i y x : l !! i = Some y -> f y = false -> existsb f l = true -> existsb f (<[i:=x]> l) = true.
Proof. intros H Hy Ht. pose proof (existsb_insert f l i y x H) as He. rewrite Hy, Ht in He. by rewrite orb_false_r in He. Qed.
Lemma existsb_insert_true {A} (f : A -> bool) l i y x : l !! i = Some y -> f x = true -> existsb f (<[i:=x]> l) = true.
Proof.
  revert i; induction l as [|z l IH]; intros [|i]; simpl; try done.
  - intros _ ->. done.
  - intros H Hx. rewrite (IH _ H Hx). apply orb_true_r.
Qed.
Lemma existsb_app_l {A} (f : A -> bool) l l' : existsb f l = true -> existsb f (l ++ l') = true.
Proof. intros H. by rewrite existsb_app, H. Qed.
Lemma existsb_snoc_true {A} (f : A -> bool) l x : f x = true -> existsb f (l ++ [x]) = true.
Proof. intros H. rewrite existsb_app. cbn. by rewrite H, orb_true_r. Qed.

Arguments potent : simpl never.
Arguments is_live : simpl never.

Lemma roa_ext s s' : running s' = running s -> wctx s' = wctx s -> reg s' = reg s -> ready s' = ready s ->
  ended s' = ended s -> running_or_armed s' = running_or_armed s.
Proof. unfold running_or_armed, waker_armed. by intros -> -> -> -> ->. Qed.
Lemma roa_armed_or_body s : running_or_armed s = true ->
  waker_armed s = true \/ forall s', running s' = running s -> wctx s' = wctx s -> running_or_armed s' = true.
Proof. unfold running_or_armed. intros HR. destruct (running s) as [[[k| |] []]|]; auto; right; intros s' Er Ec; by rewrite Er, ?Ec. Qed.

(* an input event keeps the alarm: if the alarm was the armed waker, the event has taken it, and the wake thread that
   calls it is potent *)
Lemma alarm_fire s s' : alarm s -> running s' = running s -> wctx s' = wctx s -> opq s' = opq s ->
  wakes s' = wakes s ++ match reg s with Some k => [WCall k] | None => [] end -> alarm s'.
Proof.
  unfold alarm, wake_pending, job_queued. intros [HW|[HQ|HR]] Er Ec Eo Ew.
  - left. rewrite Ec, Ew. by apply existsb_app_l.
  - right; left. by rewrite Eo.
  - destruct (roa_armed_or_body _ HR) as [Ha|Hb]; [left|right; right; by apply Hb].
    rewrite Ec, Ew. unfold waker_armed in Ha. destruct (reg s) as [k|]; [|done].
    apply andb_true_iff in Ha as [[Ha _]%andb_true_iff _].
    rewrite existsb_app. cbn. unfold potent at 2. by rewrite Ha, orb_true_r.
Qed.

Lemma step_alarm s a s' : inv_fresh s -> inv_alarm s -> step s a = Some s' -> inv_alarm s'.
Proof.
  unfold inv_alarm. intros (_ & _ & F3) HI H%step_spec Hp'.
  destruct H; rewrite ?upd_rel_set in *; cbn in Hp'; try congruence; specialize (HI Hp').
  all: try lazymatch goal with Hg : reg _ = _ |- _ => apply (alarm_fire s); [done..|cbn; by rewrite Hg, ?app_nil_r] end.
  all: unfold alarm, wake_pending, job_queued in *; cbn.
  (* not the runner: the thread has become potent, or has queued a job, or each clause carries over *)
  all: try lazymatch goal with |- context [running_or_armed] =>
         rewrite ?(roa_ext s) by done;
         first [ left; by eapply existsb_insert_true
               | right; left; by apply existsb_snoc_true
               | destruct HI as [HW|[HQ|HR]];
                 [left; eauto using existsb_insert_keep, existsb_app_l|right; left; eauto using existsb_app_l|by right; right] ]
       end.
  all: unfold running_or_armed, waker_armed in HI |- *; rewrite Hr in HI; cbn; try exact HI.
  - (* p_start: a poll job leaves [job_queued] for [running_or_armed] *)
    rewrite Ho in HI. destruct o; cbn in *; auto.
  - (* p_new: the job creates its waker *)
    right; right. unfold is_live. rewrite list_lookup_insert; [done|by apply (F3 _ _ Hr)].
  - (* p_eos *) by right; right.
  - (* p_pending: the job's own live waker becomes the registered one *)
    rewrite Hrd, He; cbn. by rewrite !andb_true_r.
Qed.

(* poll_fn is only cleared at end of stream, or taken when the object is gone.
   All three conclusions are kept by every step ([step_mono]); what is to be shown is how each premise can become true. *)
Definition inv_cleared (s : state) : Prop :=
  (forall i, s.(wakes) !! i = Some WTake -> s.(strong) = 0) /\
  (s.(pollfn) = false -> s.(strong) = 0 \/ (s.(ended) = true /\ s.(ready) = [])) /\
  (forall k, s.(running) = Some (OPoll k, JClear) -> s.(ended) = true /\ s.(ready) = []).
Lemma step_cleared s a s' : inv_cleared s -> step s a = Some s' -> inv_cleared s'.
Proof.
  intros (B1 & B2 & B3) H. destruct (step_mono _ _ _ H) as [M0 Me _]. apply step_spec in H. split; [|split].
  - (* a thread gets to WTake when its upgrade finds the object gone *)
    intros j Hj. apply M0. destruct H; rewrite ?upd_rel_set in Hj; cbn in Hj.
    all: try apply list_lookup_insert_Some in Hj as [(_ & [=] & _)|[_ Hj]].
    all: try apply lookup_app_Some in Hj as [Hj|[_ [_ [=]]%list_lookup_singleton_Some]].
    all: eauto.
  - (* poll_fn is cleared by the job at JClear and by a thread at WTake *)
    intros Hp. assert (strong s = 0 \/ ended s = true /\ ready s = []) as [?|?]; [|by left; apply M0|by right; apply Me].
    destruct H; rewrite ?upd_rel_set in Hp; cbn in Hp; eauto.
  - (* the job gets to JClear when the input has ended with nothing left *)
    intros k0 Hr0. apply Me. destruct H; rewrite ?upd_rel_set in Hr0; cbn in Hr0; try discriminate; eauto.
Qed.

(* after a stream event that found the object gone the input holds no waker any more *)
Definition inv_gone (s : state) : Prop := s.(evt_gone) = true -> s.(freed) = true /\ s.(reg) = None.
Lemma step_gone s a s' : inv_free s -> inv_gone s -> step s a = Some s' -> inv_gone s'.
Proof.
  unfold inv_gone. intros HF HI H%step_spec.
  destruct H; rewrite ?upd_rel_set; cbn; try exact HI.
  all: try (intros [?|[? _]%HI]%orb_true_iff; done).
  - (* p_pending: no job registers a waker once the object is gone *)
    intros [Hfr _]%HI. apply (free_freed _ HF) in Hfr as [Hn _]. congruence.
  - (* p_free *) intros [_ ?]%HI. done.
Qed.

(* a Begin is immediately followed by the Process of the same (slow) item *)
Arguments susp_ok : simpl never.
Lemma susp_snoc l e : susp_ok (l ++ [e]) = susp_step (susp_ok l) e.
Proof. unfold susp_ok. by rewrite foldl_app. Qed.
Lemma item_eqb_refl x : item_eqb x x = true.
Proof. destruct x as [n b]. unfold item_eqb; cbn. rewrite Nat.eqb_refl. by destruct b. Qed.
Definition inv_susp (s : state) : Prop := susp_ok s.(log) = Some (susp_item s).

Lemma step_susp s a s' : inv_susp s -> step s a = Some s' -> inv_susp s'.
Proof.
  unfold inv_susp, susp_item. intros HI H%step_spec.
  destruct H; rewrite ?upd_rel_set; cbn; rewrite ?susp_snoc, HI; try done.
  all: rewrite Hr; cbn; try rewrite Hsl; rewrite ?item_eqb_refl; try done.
  by destruct o. (* p_start *)
Qed.

Record Inv (items : list item) (s : state) : Prop := {
  i_items : inv_items items s; i_excl : inv_excl s; i_strong : inv_strong s; i_free : inv_free s;
  i_rel : inv_rel s; i_fresh : inv_fresh s; i_alarm : inv_alarm s; i_cleared : inv_cleared s; i_gone : inv_gone s; i_susp : inv_susp s }.

Lemma Inv_init items : Inv items (init items).
Proof.
  split.
  - unfold inv_items, inhand; cbn. done.
  - done.
  - done.
  - unfold inv_free; cbn. done.
  - done.
  - split; [intros k Hk; by apply elem_of_nil in Hk|]. split; [constructor|]. intros k pc [=].
  - intros _. by left.
  - unfold inv_cleared; cbn. split; [by intros [|[]]|]. split; [done|done].
  - intros H. discriminate H.
  - done.
Qed.

Lemma Inv_step items s a s' : Inv items s -> step s a = Some s' -> Inv items s'.
Proof.
  intros [] H. split.
  - by eapply step_items.
  - by eapply step_excl.
  - by eapply step_strong.
  - by eapply step_free.
  - by eapply step_rel.
  - by eapply step_fresh.
  - by eapply step_alarm.
  - by eapply step_cleared.
  - by eapply step_gone.
  - by eapply step_susp.
Qed.

Lemma Inv_reach items s : reachable items s -> Inv items s.
Proof. intros [tr H]. eapply run_invariant_all; [apply Inv_init|apply Inv_step|done]. Qed.
