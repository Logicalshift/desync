(* SyncFut: the steps of the owner task and of the environment keep the invariant ([step_Inv]); the induction over runs. *)
From stdpp Require Import list numbers option.
From RecordUpdate Require Import RecordUpdate.
From SyncFut Require Import Model Spec Inv QueueStep.

(* `future_result.result.take()`: the result is there only when the SyncFuture waits for it *)
Lemma sf_take_cases F ph s k :
  cells_ok ph s -> sst_ok F s -> sf_state s.(sst) = true -> fin_kept F s.(pc) = true ->
  (ph <= ph_S3 /\ sf_take s k = k s) \/
  (ph_done <= ph /\ s.(sf).(sf_res) = SfOk /\ exists v, s.(sst) = SWaitSched v /\
   sf_take s k = emit (Ret v) (s <| sf := s.(sf) <| sf_res := SfReturned |> |> <| sst := SCompleted |> <| pc := PDone |>)).
Proof.
  intros Hc Hss Hsf Hk. destruct (sf_res_phase _ _ Hc) as (Herr & Hheld & Hph).
  unfold sf_take, sf_return. unfold sst_ok in Hss. rewrite Hk in Hss. destruct (sf_res (sf s)) eqn:Er; try done.
  - left. split; [by apply Hph|done].
  - right. split; [destruct (decide (ph <= 3)) as [H|H]; [by apply Hph in H|lia]|].
    split; [done|]. destruct (sst s) eqn:Est; try done.
    + destruct Hss as (_ & Ht & _). by apply Hheld in Ht.
    + exists v. cbn. by rewrite Est.
  - destruct (sst s); try done; naive_solver.
Qed.

Definition neutral (p : tpc) : bool :=
  match p with PLoop | PDrainLoop | PDrainJob | PDrainPend | PDrainWaker | PReadyPoll | PCreate | PUser => true | _ => false end.

Lemma in_poll_neutral p : neutral p = true -> in_poll p = true.
Proof. by destruct p. Qed.

Lemma notin_snoc {A} (x e : A) l : x ∉ l -> x <> e -> x ∉ l ++ [e].
Proof. rewrite elem_snoc. tauto. Qed.

Lemma ret_inv F nb na s p v :
  Inv F nb na (s <| pc := p |>) -> p = PLoop \/ p = PDrainLoop -> s.(sst) = SWaitSched v -> s.(sf).(sf_res) = SfOk ->
  Inv F nb na (emit (Ret v) (s <| sf := s.(sf) <| sf_res := SfReturned |> |> <| sst := SCompleted |> <| pc := PDone |>)).
Proof.
  intros [ph Hq Hc Hss Hp Hu Hw Hl] Hpc Est Er.
  assert (ph_done <= ph) as Hph by (destruct (sf_res_phase _ _ Hc) as (_ & _ & H); destruct (decide (ph <= 3)) as [H'|]; [apply H in H'; cbn in H'; congruence|lia]).
  assert (SlotEnd ∈ log s) as Hend by (destruct (qshape_cur _ _ _ _ Hq) as (Hcur & _ & He); apply He; cbn in Hcur; destruct (cur s) as [| |[]]; cbn in *; lia).
  unfold sst_ok in Hss. cbn in Hss. rewrite Est in Hss. destruct Hss as (-> & Hrs & Htx & _).
  destruct Hu as (Hu1 & Hu2 & Hu3). cbn in Hu1, Hu2, Hu3. rewrite Est in Hu3. destruct Hu3 as (Hu3 & Hu4 & Hu5 & Hu6).
  assert (Dropped ∉ log s) as Hnd by (rewrite Hu1; by destruct Hpc as [-> | ->]).
  apply (Inv_intro _ _ _ _ ph); [by apply qshape_emit| |done|done| |done|].
  - destruct Hc as (C1 & C). split; [|exact C]. destruct ph as [|[|[|[|?]]]]; try lia.
    unfold cells_at in *. cbn. split_and!; try apply C1. by right.
  - unfold ulog_ok; cbn. split_and!; [|by apply notin_snoc|intros _; right; apply elem_of_app; by left|apply elem_of_app; right; by left].
    rewrite elem_snoc. split; [intros [?|?]; done|done].
  - cbn. apply log_ok_snoc; [done|]. split_and!; done.
Qed.

(* the scheduler future is pending: its waker is set (same critical section) and SyncFuture::poll goes on *)
Lemma pending_inv F nb na s p :
  Inv F nb na (s <| pc := p |>) -> p = PLoop \/ p = PDrainWaker -> sf_state s.(sst) = true ->
  (forall ph, qshape nb na s ph -> s.(sst) = SWaitQueue -> s.(pool) = false ->
     ph_S2 <= ph \/ s.(pollable) = true \/ (s.(parked) = true /\ is_other s.(cur) = true /\ s.(owk) = Some WBoth)) ->
  (forall v, s.(sst) = SWaitSched v -> s.(pool) = true /\ s.(sf).(sf_res) = SfNone) ->
  Inv F nb na (sf_return RPending (sf_set_waker (s <| pc := p |>))).
Proof.
  intros [ph Hq Hc Hss Hp Hu Hw Hl] Hpc Hsf H1 H2. unfold sf_return, sf_set_waker. cbn.
  assert (Hc' : cells_ok ph (s <| sf := sf s <| sf_waker := Some WTask |> |>)).
  { split_and!; try (by apply Hc). by right. }
  destruct (sst s) eqn:Est; try done.
  - (* WaitingForQueue: on to `recv.poll_unpin` *)
    destruct Hpc as [-> | ->]; (apply (Inv_intro _ _ _ _ ph); [exact Hq|exact Hc'|exact Hss| |exact Hu|done|exact Hl]);
      (split; [done|by apply H1]).
  - (* WaitingForScheduler: the poll returns Pending *)
    destruct (H2 _ eq_refl). destruct Hpc as [-> | ->];
      (apply (Inv_intro _ _ _ _ ph); [exact Hq|exact Hc'|exact Hss|unfold pc_ok; cbn; by rewrite Est|exact Hu| |exact Hl]);
      unfold wait_ok; cbn; rewrite Est; by right.
Qed.

Lemma future_view F nb na ph s :
  qshape nb na s ph -> cells_ok ph s -> sst_ok F s -> ulog_ok s -> s.(sst) = SWaitFuture ->
  fin_kept F s.(pc) = true -> dropped s.(pc) = false ->
  ph = ph_S2 /\ s.(cur) = CSlot QS2 /\ in_slot s.(log) /\ s.(txheld) = true /\
  UStart ∈ s.(log) /\ UCancel ∉ s.(log) /\ no_ret s.(log) /\ Dropped ∉ s.(log).
Proof.
  intros Hq Hc Hss (Hu1 & _ & Hu) Est Hk Hd. unfold sst_ok in Hss. rewrite Est, Hk in *.
  destruct Hss as (Hrs & Htx & _). destruct (user_in_slot _ _ _ _ Hq Hc Hrs Htx) as (? & ? & ?).
  rewrite Hd in Hu1. split_and!; try done; try apply Hu. by rewrite Hu1.
Qed.

(* the user future is polled, runs or completes: an event of its own is logged; of the state only the script, the
   registrations on an event and the program counter change *)
Lemma user_event_inv F nb na s p e p' scr' evs' :
  Inv F nb na (s <| pc := p |>) -> s.(sst) = SWaitFuture -> p = PLoop \/ p = PUser ->
  (e = UPoll \/ e = UStep) /\ (p' = PUser \/ p' = PIdle) \/ e = UFinish s.(uval) /\ p' = PFinSend ->
  (forall x c w, evs' !! x = Some c -> w ∈ c.(regs) -> w = WTask) ->
  (p' = PIdle -> exists x r, scr' = UAwait x :: r /\
     (evs' !! x = None \/ exists c, evs' !! x = Some c /\ c.(fired) = false /\ WTask ∈ c.(regs))) ->
  Inv F nb na (emit e (s <| uscr := scr' |> <| evs := evs' |> <| pc := p' |>)).
Proof.
  intros [ph Hq Hc Hss Hp Hu Hw Hl] Est Hpc He Hregs Hidle.
  assert (fin_kept F p = true /\ dropped p = false) as [Hk Hd] by (by destruct Hpc as [-> | ->]).
  destruct (future_view _ _ _ _ _ Hq Hc Hss Hu Est Hk Hd) as (-> & Hcur & Hslot & Htx & V1 & V2 & V3 & V4).
  assert (Hnf : forall v, UFinish v ∉ log s).
  { destruct Hu as (_ & _ & Hu). cbn in Hu. rewrite Est in Hu. destruct Hpc as [-> | ->]; apply Hu. }
  apply (Inv_intro _ _ _ _ ph_S2).
  - apply qshape_emit; [by destruct He as [[[-> | ->] _]|[-> _]]|exact Hq].
  - split_and!; first [by apply Hc|done].
  - unfold sst_ok in *. cbn in *. rewrite Est in *. destruct Hss as (? & _ & ?). by destruct He as [[_ [-> | ->]]|[_ ->]].
  - unfold pc_ok. destruct He as [[_ [-> | ->]]|[_ ->]]; cbn; by rewrite ?Est.
  - destruct He as [[He Hp']|[-> ->]].
    + apply ulog_emit; [by destruct He as [-> | ->]|]. destruct Hpc as [-> | ->], Hp' as [-> | ->]; exact Hu.
    + destruct Hu as (_ & Hu2 & _). unfold ulog_ok, no_ret. cbn. rewrite Est.
      split_and!; try (apply notin_snoc; done); try intros v; try (apply notin_snoc; done); rewrite elem_snoc; auto.
      split; [intros [?|?]; done|done].
  - unfold wait_ok. cbn. rewrite Est. destruct (at_idle p') eqn:E; [|done]. right. apply Hidle. by destruct p'.
  - cbn. apply log_ok_snoc; [done|]. destruct He as [[[-> | ->] _]|[-> _]]; split_and!; done.
Qed.

(* `create_future()` *)
Lemma create_inv F nb na s :
  Inv F nb na (s <| pc := PCreate |>) ->
  Inv F nb na (emit UStart (s <| ready := os_droprx s.(ready) |> <| sst := SWaitFuture |> <| pc := PLoop |>)).
Proof.
  intros [ph Hq Hc Hss [Est Hrs] (Hu1 & Hu2 & Hu) Hw Hl]. cbn in Est, Hrs, Hu1, Hu2, Hu.
  unfold sst_ok in Hss. cbn in Hss. rewrite Est in Hss, Hu. destruct Hss as (Hrx & Htx & Hnr). destruct Hu as (Hu3 & Hu4 & Hu5 & Hu6).
  destruct (user_in_slot _ _ _ _ Hq Hc Hrs Htx) as (-> & Hcur & Hslot).
  apply (Inv_intro _ _ _ _ ph_S2); [by apply qshape_emit| |exact (conj Hrs (conj Htx Hnr))|done| |done|].
  - pose proof (c_at _ _ Hc) as C1. split_and!; try (by apply Hc); [|by left].
    unfold cells_at, ready_done in *. cbn. split_and!; try apply C1. by left.
  - unfold ulog_ok, no_ret. cbn. split_and!; try (apply notin_snoc; done); try intros v; try (apply notin_snoc; done); rewrite elem_snoc; auto.
    split; [intros [?|?]; [by apply Hu1|done]|done].
  - cbn. apply log_ok_snoc; [done|]. split_and!; try done. cbn. by rewrite Hu1.
Qed.

(* `recv.poll_unpin` finds nothing yet: the task's waker is left in the channel *)
Lemma readypend_inv F nb na s :
  Inv F nb na (s <| pc := PReadyPoll |>) -> s.(ready).(o_sent) = false ->
  Inv F nb na (s <| ready := s.(ready) <| o_waker := Some WTask |> |> <| pc := PIdle |>).
Proof.
  intros [ph Hq Hc Hss [Est Hpool] Hu Hw Hl] Ers. cbn in Est, Hpool.
  apply (Inv_intro _ _ _ _ ph); [exact Hq| |exact Hss| |exact Hu| |exact Hl].
  - split_and!; try (by apply Hc). by right.
  - unfold pc_ok. cbn. by rewrite Est.
  - unfold wait_ok. cbn. rewrite Est. destruct (pool s) eqn:E; [right; split_and!; auto|].
    destruct (Hpool eq_refl) as [H2|[H2|H2]]; [|by left|right; split_and!; auto].
    unfold sst_ok in Hss. cbn in Hss. rewrite Est in Hss. destruct (cells_phase _ _ Hc) as (_ & Hr & _).
    destruct (Hr H2) as [Hr'|Hr']; cbn in Hr'; [congruence|]. destruct Hss as (? & _). congruence.
Qed.

(* the completion sender is used up, by `send` or by being dropped: a slot job parked in S2 is woken *)
Lemma cells_close op ph s : op = os_send \/ op = os_droptx -> cells_ok ph s -> s.(txheld) = true -> cells_ok ph (give_up_fin op s).
Proof.
  intros Hop Hc Ht. destruct (cells_phase _ _ Hc) as (_ & _ & H3 & _ & _ & Hpk). destruct Hc as (C1&C2&C3&C4&C5&C6&C7&C8&C9).
  assert (ph <= ph_S2) as Hph by (destruct (decide (3 <= ph)) as [H|]; [destruct (H3 H); congruence|lia]).
  unfold give_up_fin. rewrite Ht, wake_opt_spec.
  assert (o_sent (op (fin s)).1 || o_txdrop (op (fin s)).1 = true /\ o_rxdrop (op (fin s)).1 = false /\
          (op (fin s)).2 = o_waker (fin s)) as (Hd & Hrx & ->).
  { destruct Hop as [-> | ->]; unfold os_send, os_droptx; rewrite ?C3; cbn; by rewrite ?orb_true_r. }
  unfold cells_ok, fin_done. cbn. rewrite Hd. split_and!; try done.
  - unfold cells_at, parked_other, fin_done in *. cbn.
    destruct ph as [|[|[|?]]]; [| | |lia]; split_and!; try apply C1.
    + (* in the FIFO: only another operation can be parked *) intros [Hp _]%andb_true_iff; by apply C1.
    + (* S1: the same *) intros [Hp _]%andb_true_iff; by apply C1.
    + (* S2: the slot job parked there left a queue waker, which is called *)
      intros [Hp Hw]%andb_true_iff. destruct (Hpk Hp) as [Ho|(_ & _ & [E|E])]; [|by rewrite E in Hw..].
      destruct C1 as (_ & _ & C1). destruct (C1 Hp) as [_ [E|E]]; by rewrite E in Hw.
  - intros [Hp _]%andb_true_iff. by apply C9.
Qed.

(* for a state that is a large term: conversion would first compare it with its update *)
Lemma cells_ok_sst ph s a : cells_ok ph s -> cells_ok ph (s <| sst := a |>).
Proof. done. Qed.
Lemma cells_ok_pc ph s p : cells_ok ph s -> cells_ok ph (s <| pc := p |>).
Proof. done. Qed.

(* `task_finished.take().map(send)` after the user future completed *)
Lemma finsend_inv F nb na s :
  Inv F nb na (s <| pc := PFinSend |>) ->
  Inv F nb na (give_up_fin os_send (s <| pc := PFinSend |>) <| sst := SWaitSched s.(uval) |> <| pc := PLoop |>).
Proof.
  intros [ph Hq Hc Hss Est Hu Hw Hl]. cbn in Est.
  destruct (future_view _ _ _ _ _ Hq Hc Hss Hu Est eq_refl eq_refl) as (-> & Hcur & Hslot & Htx & V1 & V2 & V3 & V4).
  pose proof (cells_close os_send _ _ (or_introl eq_refl) Hc Htx) as Hc'.
  unfold give_up_fin in *. cbn in Htx, Hc' |- *. rewrite Htx, wake_opt_spec in Hc' |- *.
  destruct Hu as (Hu1 & Hu2 & Hu). cbn in Hu. rewrite Est in Hu.
  unfold sst_ok in Hss. cbn in Hss. rewrite Est in Hss.
  apply (Inv_intro _ _ _ _ ph_S2); [exact Hq|by apply cells_ok_pc, cells_ok_sst| |done| |done|exact Hl].
  - unfold sst_ok. cbn. split_and!; try done; apply Hss.
  - unfold ulog_ok. cbn. split_and!; try done; apply Hu.
Qed.

(* the drop of the `state` field: the receiver of queue_ready goes, or the user future is destroyed *)
Lemma dropstate_inv F nb na s :
  Inv F nb na (s <| pc := PDropState |>) ->
  Inv F nb na (match s.(sst) with
               | SWaitQueue => s <| ready := os_droprx s.(ready) |>
               | SWaitFuture => emit UCancel s
               | _ => s
               end <| sst := SCompleted |> <| pc := after_drop_state F |>).
Proof.
  intros [ph Hq Hc Hss Hp (Hu1 & Hu2 & Hu) Hw Hl]. cbn in Hp, Hu1, Hu2, Hu. apply proj2 in Hu1. specialize (Hu1 eq_refl).
  assert (Hp' : forall s', sst s' = SCompleted -> txheld s' = txheld s -> pc s' = after_drop_state F -> pc_ok F ph s').
  { intros s' E1 E2 E3. unfold pc_ok, after_drop_state, state_first in *. rewrite E3, E1, E2. destruct (f_state_dropped_first F); cbn; auto. }
  assert (Hk : dropped (after_drop_state F) = true /\ at_done (after_drop_state F) = false /\ at_idle (after_drop_state F) = false)
    by (unfold after_drop_state; by destruct (f_state_dropped_first F)).
  destruct Hk as (Hk1 & Hk2 & Hk3).
  destruct (sst s) eqn:Est;
    (apply (Inv_intro _ _ _ _ ph); [| |done|by apply Hp'| |unfold wait_ok; cbn; by rewrite Hk3|]);
    try (unfold ulog_ok; cbn; rewrite Hk1, Hk2).
  (* per state, in the order of [Inv_intro]: shape, cells, [ulog_ok], conditions on the log *)
  (* WaitingForQueue: the receiver of queue_ready goes *)
  - exact Hq.
  - pose proof (c_at _ _ Hc) as C1. split_and!; try (by apply Hc); [|by left].
    destruct ph as [|[|[|[|?]]]]; unfold cells_at, ready_done in *; cbn; split_and!; try apply C1; by right.
  - split_and!; try done. intros H. by destruct Hu as [Hu _].
  - exact Hl.
  (* WaitingForFuture: the user future is destroyed *)
  - by apply qshape_emit.
  - exact Hc.
  - rewrite !elem_snoc. split_and!; auto; [by split; auto|intros [?|?]; done].
  - destruct Hu as (Hu3 & Hu4 & Hu5 & Hu6). cbn. apply log_ok_snoc; [done|]. split_and!; try done. cbn. split_and!; try done.
    intros HF. unfold sst_ok in Hss. cbn in Hss. unfold state_first in Hss. rewrite Est, HF in Hss. destruct Hss as (Hrs & Htx & _).
    by destruct (user_in_slot _ _ _ _ Hq Hc Hrs Htx) as (_ & _ & ?).
  (* WaitingForScheduler *)
  - exact Hq.
  - exact Hc.
  - split_and!; try done. intros _. right. apply Hu.
  - exact Hl.
  (* Completed *)
  - exact Hq.
  - exact Hc.
  - split_and!; try done. apply Hu.
  - exact Hl.
Qed.

(* the drop of the `task_finished` field *)
Lemma dropfin_inv F nb na s :
  Inv F nb na (s <| pc := PDropFin |>) ->
  Inv F nb na (give_up_fin os_droptx (s <| pc := PDropFin |>) <| pc := after_drop_fin F |>).
Proof.
  intros [ph Hq Hc Hss Hp Hu Hw Hl]. cbn in Hp.
  assert (Hc' : cells_ok ph (give_up_fin os_droptx (s <| pc := PDropFin |>))).
  { destruct (txheld s) eqn:Htx; [apply cells_close; auto|]. unfold give_up_fin. cbn. by rewrite Htx. }
  unfold give_up_fin, after_drop_fin, sst_ok, state_first in *. cbn in Hc', Hss |- *.
  destruct (txheld s) eqn:Htx; rewrite ?wake_opt_spec in *; destruct (f_state_dropped_first F) eqn:EF;
    (apply (Inv_intro _ _ _ _ ph); [exact Hq|by apply cells_ok_pc| | |exact Hu|done|exact Hl]).
  all: unfold sst_ok, pc_ok, fin_kept, state_first; cbn; rewrite ?EF, ?(Hp eq_refl); try done.
  all: destruct (sst s); try done; split_and!; try apply Hss; done.
Qed.

Lemma regs_insert (l : list evcell) e c :
  l !! e = Some c -> (forall x c w, l !! x = Some c -> w ∈ c.(regs) -> w = WTask) ->
  forall x c' w, <[ e := c <| regs := WTask :: c.(regs) |> ]> l !! x = Some c' -> w ∈ c'.(regs) -> w = WTask.
Proof.
  intros He Hl x c' w Hx Hw. destruct (decide (x = e)) as [->|Hne].
  - rewrite list_lookup_insert in Hx by (by eapply lookup_lt_Some). injection Hx as <-.
    apply elem_of_cons in Hw as [->|Hw]; [done|]. by eapply Hl.
  - rewrite list_lookup_insert_ne in Hx by done. by eapply Hl.
Qed.

Lemma task_inv F nb na d s s' :
  Inv F nb na s -> (d = false -> s.(pool) = true) -> task_step F d s = Some s' -> Inv F nb na s'.
Proof.
  intros HI Hd Hs.
  destruct (task_step_spec _ _ _ _ Hs) as [Epc ?|Epc Esf|Epc Est|Epc Est|Epc|s1 Epc Hq1|Epc Hq1|Epc|Epc|Epc Ers|Epc Ers Etx|Epc Ers Etx|Epc|Epc Eu|r Epc Eu|e r c Epc Eu Ee Ef|e r c Epc Eu Ee Ef|e r Epc Eu Ee|Epc|Epc|Epc|Epc Est|Epc Est|Epc Est1 Est2|Epc].
  (* TsDrainJob, and TsDrainEmpty: the queue has work while the slot job is not done *)
  all: try match goal with
           | H : queue_step RTask _ = Some _ |- _ => by eapply drainjob_inv
           | H : queue_step RTask _ = None |- _ =>
               destruct HI as [ph Hq _ _ Hp _ _ _]; unfold pc_ok in Hp; rewrite Epc in Hp;
               by destruct (qs_enabled _ _ RTask _ _ Hq (proj2 Hp))
           end.
  (* the other cases: with the program counter made explicit the clauses of the invariant compute *)
  all: rewrite (pc_eta s _ Epc) in HI |- *; pose proof HI as [ph Hq Hc Hss Hp Hu Hw Hl]; cbn in Hp.
  - (* TsIdle *) by apply (Inv_intro _ _ _ _ ph).
  - (* TsLoopSf *) destruct (sf_take_cases F ph _ (fun s => if d then s <| pc := PDrainLoop |> else sf_return RPending (sf_set_waker s)) Hc Hss Esf eq_refl)
      as [[Hph ->]|(Hph & Hok & v & Est & ->)]; [destruct d|].
    + by apply (Inv_intro _ _ _ _ ph).
    + apply pending_inv; [done|by left|done|..].
      * intros ph' _ _ E. rewrite Hd in E; done.
      * intros v _. split; [by apply Hd|]. by apply (sf_res_phase _ _ Hc).
    + apply (ret_inv _ _ _ s PLoop v); auto.
  - (* TsLoopUser *) apply (user_event_inv _ _ _ s PLoop UPoll PUser (uscr s) (evs s)); auto; [exact (fun x c w => c_w_ev _ _ x c w Hc)|done].
  - (* TsLoopDone *) done.
  - (* TsDrainLoop *) destruct (sf_take_cases F ph _ (fun s => s <| pc := PDrainJob |>) Hc Hss Hp eq_refl) as [[Hph ->]|(Hph & Hok & v & Est & ->)].
    + by apply (Inv_intro _ _ _ _ ph).
    + apply (ret_inv _ _ _ s PDrainLoop v); auto.
  - (* TsDrainPend *) destruct Hp as (Hsf & Hpk & Hph & Hcur).
    destruct (sf_take_cases F ph _ (fun s => s <| pc := PDrainWaker |>) Hc Hss Hsf eq_refl) as [[_ ->]|(? & _)]; [|lia].
    by apply (Inv_intro _ _ _ _ ph).
  - (* TsDrainWaker *) destruct Hp as (Hsf & Hpk & Hph & Hcur). apply pending_inv; [done|by right|done|..].
    + intros ph' Hq' _ _. destruct Hcur as [Hcur|?]; [left|by right; right].
      destruct (qshape_cur _ _ _ _ Hq') as [H _]. rewrite Hcur in H. cbn in H. lia.
    + (* a waiting-for-scheduler future has reached its slot and given the sender away: the queue is not parked *)
      intros v Est. exfalso. unfold sst_ok in Hss. cbn in Hss. rewrite Est in Hss. destruct Hss as (_ & Hrs & Htx & _).
      destruct (cells_phase _ _ Hc) as (H1 & _ & _ & _ & _ & H6). destruct (qshape_cur _ _ _ _ Hq) as [H _]. cbn in H, H1, H6.
      destruct Hcur as [Hcur|[Ho _]].
      * destruct (H6 Hpk) as [Ho|(_ & Hfd & _)]; [by rewrite Hcur in Ho|].
        pose proof (c_tx _ _ Hc) as C7. cbn in C7. rewrite Htx, Hfd in C7. done.
      * destruct (cur s); try done. destruct (decide (ph <= 1)) as [Hle|]; [rewrite H1 in Hrs; done|lia].
  - (* TsReadyOk *) apply (Inv_intro _ _ _ _ ph); [exact Hq|exact Hc|exact Hss| |exact Hu|done|exact Hl]. split; [apply Hp|done].
  - (* TsReadyErr *) pose proof (c_ready_tx _ _ Hc) as C2. cbn in C2. congruence.
  - (* TsReadyPend *) by apply readypend_inv.
  - (* TsCreate *) by apply create_inv.
  - (* TsUserFinish *) apply (user_event_inv _ _ _ s PUser (UFinish (uval s)) PFinSend (uscr s) (evs s)); auto; [exact (fun x c w => c_w_ev _ _ x c w Hc)|done].
  - (* TsUserTouch *) apply (user_event_inv _ _ _ s PUser UStep PUser r (evs s)); auto; [exact (fun x c w => c_w_ev _ _ x c w Hc)|done].
  - (* TsUserFired *) apply (user_event_inv _ _ _ s PUser UStep PUser r (evs s)); auto; [exact (fun x c w => c_w_ev _ _ x c w Hc)|done].
  - (* TsUserWait *) apply (user_event_inv _ _ _ s PUser UStep PIdle (uscr s) (<[e := c <| regs := WTask :: regs c |>]> (evs s))); auto.
    + apply (regs_insert _ _ _ Ee). exact (fun x c w => c_w_ev _ _ x c w Hc).
    + intros _. exists e, r. split; [done|]. right. exists (c <| regs := WTask :: regs c |>). split_and!; try done.
      * apply list_lookup_insert. by eapply lookup_lt_Some.
      * apply elem_of_list_here.
  - (* TsUserNoEvent *) apply (user_event_inv _ _ _ s PUser UStep PIdle (uscr s) (evs s)); auto; [exact (fun x c w => c_w_ev _ _ x c w Hc)|].
    intros _. exists e, r. split; [done|]. by left.
  - (* TsFinSend *) exact (finsend_inv _ _ _ _ HI).
  - (* TsErrSend *) done.
  - (* TsErrDropRx *) done.
  - (* TsDropQueue *) pose proof (dropstate_inv _ _ _ _ HI) as H. by rewrite Est in H.
  - (* TsDropFuture *) pose proof (dropstate_inv _ _ _ _ HI) as H. by rewrite Est in H.
  - (* TsDropState *) pose proof (dropstate_inv _ _ _ _ HI) as H. by destruct (sst s).
  - (* TsDropFin *) by apply dropfin_inv.
Qed.

Lemma adrop_inv F nb na s s' : Inv F nb na s -> step F s ADrop = Some s' -> Inv F nb na s'.
Proof.
  intros [ph Hq Hc Hss Hp (Hu1 & Hu2 & Hu) Hw Hl] Hs. cbn in Hs.
  assert (Hpc : s.(pc) = PIdle \/ s.(pc) = PDone) by (destruct (pc s); try done; auto).
  set (p' := if f_state_dropped_first F then PDropState else PDropFin) in Hs.
  assert (s' = emit Dropped (s <| pc := p' |>)) as -> by (destruct Hpc as [E|E]; rewrite E in Hs; by injection Hs as <-).
  assert (dropped p' = true /\ at_idle p' = false /\ at_done p' = false /\ at_fin_send p' = false /\ fin_kept F p' = true)
    as (K1 & K2 & K3 & K4 & K5) by (subst p'; unfold fin_kept, state_first; by destruct (f_state_dropped_first F)).
  assert (dropped (pc s) = false /\ at_fin_send (pc s) = false /\ fin_kept F (pc s) = true) as (D1 & D2 & D3)
    by (by destruct Hpc as [-> | ->]).
  rewrite D1 in Hu1. assert (Hnd : Dropped ∉ log s) by (by intros ?%Hu1).
  apply (Inv_intro _ _ _ _ ph); [by apply qshape_emit|exact Hc|..].
  - unfold sst_ok in *. cbn. rewrite D3 in Hss. by rewrite K5.
  - unfold pc_ok, state_first. cbn. subst p'. by destruct (f_state_dropped_first F).
  - unfold ulog_ok, no_ret in *. cbn. rewrite K1, K3, K4. rewrite D2 in Hu. split_and!; [rewrite elem_snoc; by split; auto|by apply notin_snoc|].
    destruct (sst s); split_and!; try (apply notin_snoc; [apply Hu|done]); try (rewrite elem_snoc; left; apply Hu);
      try (intros x; apply notin_snoc; [apply Hu|done]); try done.
    rewrite !elem_snoc. intros [H|?]; [|done]. destruct (proj1 Hu H); auto.
  - unfold wait_ok. cbn. by rewrite K2.
  - cbn. apply log_ok_snoc; [done|]. split_and!; done.
Qed.

Lemma woken_inv F nb na s b : Inv F nb na s -> (s.(pollable) = true -> b = true) -> Inv F nb na (s <| pollable := b |>).
Proof.
  intros [ph Hq Hc Hss Hp Hu Hw Hl] Hb. apply (Inv_intro _ _ _ _ ph); [exact Hq|exact Hc|exact Hss| |exact Hu| |exact Hl].
  - unfold pc_ok in *. cbn. destruct (pc s); try done. destruct Hp as [H1 H2]. split; [done|].
    intros E. destruct (H2 E) as [?|[?|?]]; auto.
  - unfold wait_ok in *. cbn. destruct (at_idle (pc s)); [|done]. destruct Hw as [?|?]; auto.
Qed.

Lemma awake_inv F nb na s s' : Inv F nb na s -> step F s AWake = Some s' -> Inv F nb na s'.
Proof. intros HI [= <-]. by apply woken_inv. Qed.

Lemma parked_id s f : (forall b, f b = b) -> s <| parked ::= f |> = s.
Proof. intros H. destruct s. unfold set. cbn. by rewrite H. Qed.

(* an external event fires: the wakers registered on it are the task's *)
Lemma aevent_inv F nb na e s s' : Inv F nb na s -> step F s (AEvent e) = Some s' -> Inv F nb na s'.
Proof.
  intros HI Hs. change (fire e s = Some s') in Hs. unfold fire in Hs.
  destruct (evs s !! e) as [c|] eqn:Ec; cbn [mbind option_bind] in Hs; [|done]. destruct (fired c) eqn:Ef; [done|]. injection Hs as <-.
  rewrite foldr_wake.
  assert (forallb (fun w => negb (wakes_queue (Some w))) (regs c) = true) as ->.
  { destruct HI as [ph _ Hc _ _ _ _ _]. apply forallb_forall. intros w Hw%elem_of_list_In.
    by rewrite (c_w_ev _ _ _ _ _ Hc Ec Hw). }
  rewrite (parked_id _ _ andb_true_r). set (b := pollable s || existsb (fun w => wakes_task (Some w)) (regs c)).
  apply (woken_inv _ _ _ _ b) in HI; [|intros E; subst b; by rewrite E]. destruct HI as [ph Hq Hc Hss Hp Hu Hw Hl].
  apply (Inv_intro _ _ _ _ ph); [exact Hq| |exact Hss|exact Hp|exact Hu| |exact Hl].
  - split_and!; try (by apply Hc).
    cbn. intros x c' w Hx Hw'. destruct (decide (x = e)) as [->|Hne].
    + rewrite list_lookup_insert in Hx by (by eapply lookup_lt_Some). injection Hx as <-. by apply elem_of_nil in Hw'.
    + rewrite list_lookup_insert_ne in Hx by done. by eapply (c_w_ev _ _ _ _ _ Hc).
  - unfold wait_ok in *. cbn in *. destruct (at_idle (pc s)); [|done]. destruct Hw as [?|Hwait]; [by left|].
    destruct (sst s); try (by right). destruct Hwait as (x & r & Hscr & Hx).
    destruct (decide (x = e)) as [->|Hne].
    + left. rewrite Ec in Hx. destruct Hx as [?|(c' & Hx & Hfc & Hreg)]; [done|]. injection Hx as <-.
      subst b. apply orb_true_iff. right. apply existsb_exists. exists WTask. split; [by apply elem_of_list_In|done].
    + right. exists x, r. split; [done|]. by rewrite list_lookup_insert_ne.
Qed.

Lemma cells_park nb na ph s w : qshape nb na s ph -> cells_ok ph s -> is_other s.(cur) = true -> w <> WTask ->
  cells_ok ph (s <| parked := true |> <| owk := Some w |>).
Proof.
  intros Hq Hc Ho Hw. destruct (qshape_cur _ _ _ _ Hq) as [Hph _]. pose proof (c_at _ _ Hc) as C1.
  split_and!; try (by apply Hc); [|by intros [= ->]|done].
  assert (ph = 0 \/ ph = 4) as [-> | ->] by (by destruct (cur s)).
  all: unfold cells_at, parked_other in *; cbn; split_and!; try apply C1; done.
Qed.

Lemma cells_unpark ph s o : cells_ok ph s -> o = s.(owk) \/ o = None -> cells_ok ph (s <| owk := o |> <| parked := false |>).
Proof.
  intros Hc Ho. destruct (cells_phase _ _ Hc) as (_ & _ & _ & _ & _ & Hpk). pose proof (c_at _ _ Hc) as C1.
  split_and!; try (by apply Hc); [|destruct Ho as [-> | ->]; [apply Hc|done]|done].
  destruct ph as [|[|[|[|?]]]]; unfold cells_at, parked_other in *; cbn; split_and!; try apply C1; done.
Qed.

Lemma aosusp_inv F nb na s s' : Inv F nb na s -> step F s AOSusp = Some s' -> Inv F nb na s'.
Proof.
  intros [ph Hq Hc Hss Hp Hu Hw Hl] Hs. cbn in Hs. destruct (is_other (cur s)) eqn:Ho; [|done].
  destruct (decide (pc s = PDrainJob)) as [Epc|Hne].
  - rewrite Epc in Hs. injection Hs as <-. rewrite (pc_eta s _ Epc) in *. cbn in Hp.
    apply (Inv_intro _ _ _ _ ph); [exact Hq|by eapply cells_park|exact Hss| |exact Hu|done|exact Hl].
    unfold pc_ok; cbn. split_and!; try apply Hp; auto.
  - assert (Hs' : (if pool s && negb (in_drain (pc s)) && negb (parked s) then Some (s <| parked := true |> <| owk := Some WQueue |>) else None) = Some s')
      by (destruct (pc s); done).
    destruct (pool s) eqn:Epool; [|done]. destruct (in_drain (pc s)) eqn:Ed; [done|]. destruct (parked s) eqn:Epk; [done|].
    injection Hs' as <-.
    apply (Inv_intro _ _ _ _ ph); [exact Hq|by eapply cells_park|exact Hss| |exact Hu| |exact Hl].
    + unfold pc_ok in *; cbn. destruct (pc s); try done. split; [apply Hp|]. cbn. by rewrite Epool.
    + unfold wait_ok in *; cbn. destruct (at_idle (pc s)); [|done]. destruct Hw as [?|Hr]; [by left|right]. destruct (sst s); try done.
      destruct Hr as (? & ? & _). split_and!; try done. left. by rewrite Epool.
Qed.

Lemma aowake_inv F nb na s s' : Inv F nb na s -> step F s AOWake = Some s' -> Inv F nb na s'.
Proof.
  intros HI Hs. cbn in Hs. destruct (is_other (cur s)) eqn:Ho; [|done].
  destruct (parked s) eqn:Epk; [|done]. destruct (in_drain (pc s)) eqn:Ed; [done|]. cbn in Hs.
  destruct (owk s) as [w|] eqn:Ew; [|done]. injection Hs as <-.
  destruct HI as [ph Hq Hc Hss Hp Hu Hw Hl].
  assert (Hw' : w = WQueue \/ w = WBoth) by (destruct w; auto; by destruct (c_owk _ _ Hc)).
  assert (exists b, wake w (s <| owk := None |>) = s <| owk := None |> <| parked := false |> <| pollable := b |> /\
                    (pollable s = true -> b = true) /\ (w = WBoth -> b = true)) as (b & -> & Hb1 & Hb2)
    by (destruct Hw' as [-> | ->]; [exists (pollable s)|exists true]; done).
  apply (Inv_intro _ _ _ _ ph); [exact Hq| |exact Hss| |exact Hu| |exact Hl].
  - apply (cells_unpark _ _ None Hc). by right.
  - unfold pc_ok in *; cbn. destruct (pc s) eqn:Epc; try done.
    destruct Hp as [H1 H2]. split; [done|]. intros E. destruct (H2 E) as [?|[?|(_ & _ & ?)]]; auto.
    right; left. apply Hb2. congruence.
  - unfold wait_ok in *; cbn. destruct (at_idle (pc s)); [|done]. destruct Hw as [?|Hr]; [left; auto|]. destruct (sst s); try (by right).
    destruct Hr as (H1 & H2 & [H3|(_ & _ & H3)]); [right; split_and!; try done; by left|].
    left. apply Hb2. congruence.
Qed.

Lemma awakeq_inv F nb na s s' : Inv F nb na s -> step F s AWakeQ = Some s' -> Inv F nb na s'.
Proof.
  intros [ph Hq Hc Hss Hp Hu Hw Hl] Hs. cbn in Hs. destruct (pool s) eqn:Epool; [|done].
  destruct (in_drain (pc s)) eqn:Ed; [done|]. destruct (parked s) eqn:Epk; [|done]. injection Hs as <-.
  apply (Inv_intro _ _ _ _ ph); [exact Hq| |exact Hss| |exact Hu| |exact Hl].
  - apply (cells_unpark _ _ (owk s) Hc). by left.
  - unfold pc_ok in *; cbn. destruct (pc s) eqn:Epc; try done. split; [apply Hp|]. cbn. by rewrite Epool.
  - unfold wait_ok in *; cbn. destruct (at_idle (pc s)); [|done]. destruct Hw as [?|Hr]; [by left|right]. destruct (sst s); try done.
    destruct Hr as (? & ? & _). split_and!; try done. left. by rewrite Epool.
Qed.

Theorem step_Inv F nb na s a s' : Inv F nb na s -> step F s a = Some s' -> Inv F nb na s'.
Proof.
  intros HI Hs. destruct a.
  - by eapply aqueue_inv.
  - cbn in Hs. eapply task_inv; [done| |done]. by destruct (pool s).
  - cbn in Hs. destruct (is_sf_poll s); [|done]. eapply task_inv; [done| |done]. done.
  - by eapply aevent_inv.
  - by eapply adrop_inv.
  - by eapply awake_inv.
  - by eapply aosusp_inv.
  - by eapply aowake_inv.
  - by eapply awakeq_inv.
Qed.

Lemma run_snoc F s tr a : run F s (tr ++ [a]) = s1 ← run F s tr; step F s1 a.
Proof. unfold run. by rewrite foldl_app. Qed.

Lemma run_invariant F (P : state -> Prop) s tr s' :
  P s -> (forall s a s', P s -> step F s a = Some s' -> P s') -> run F s tr = Some s' -> P s'.
Proof.
  intros H0 Hstep. revert s'. induction tr as [|a tr IH] using rev_ind; intros s' Hr.
  - cbn in Hr. by injection Hr as <-.
  - rewrite run_snoc in Hr. destruct (run F s tr) as [s1|]; [|done]. eapply Hstep; [by apply IH|done].
Qed.
