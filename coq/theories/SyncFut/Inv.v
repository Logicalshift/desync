(* SyncFut: the invariant.  Each clause reads few fields of the state and tests the program counter by computation, so
   that a step keeps the clauses it does not concern by conversion. *)
From stdpp Require Import list numbers option sets.
From RecordUpdate Require Import RecordUpdate.
From SyncFut Require Import Model Spec.

Lemma elem_snoc {A} (x e : A) (l : list A) : x ∈ l ++ [e] <-> x ∈ l \/ x = e.
Proof. rewrite elem_of_app, elem_of_list_singleton. done. Qed.

Lemma log_ok_nil P : log_ok P [].
Proof. intros l1 e l2 H. destruct l1; discriminate. Qed.

Lemma log_ok_snoc P l e : log_ok P l -> P l e -> log_ok P (l ++ [e]).
Proof.
  intros Hl He l1 e' l2 Heq.
  destruct l2 as [|x l2 _] using rev_ind.
  - apply app_inj_tail in Heq as [-> ->]. done.
  - rewrite app_comm_cons, app_assoc in Heq. apply app_inj_tail in Heq as [-> _]. by eapply Hl.
Qed.

Lemma log_ok_prefix P l l' : log_ok P (l ++ l') -> log_ok P l.
Proof. intros H l1 e l2 ->. eapply (H l1 e (l2 ++ l')). by rewrite <- app_assoc. Qed.

Lemma log_ok_and P Q l : log_ok P l -> log_ok Q l -> log_ok (fun l e => P l e /\ Q l e) l.
Proof. intros HP HQ l1 e l2 E. split; [by eapply HP|by eapply HQ]. Qed.

Lemma log_ok_impl (P Q : list ev -> ev -> Prop) l : (forall l e, P l e -> Q l e) -> log_ok P l -> log_ok Q l.
Proof. intros H HP l1 e l2 E. apply H. by eapply HP. Qed.

Lemma log_ok_elem P l e : log_ok P l -> e ∈ l -> exists l1 l2, l = l1 ++ e :: l2 /\ P l1 e.
Proof. intros H He. apply elem_of_list_split in He as (l1 & l2 & ->). exists l1, l2. split; [done|]. by eapply H. Qed.

Lemma seq_head i n : 0 < n -> seq i n = i :: seq (S i) (n - 1).
Proof. destruct n; [lia|]. intros _. cbn. by rewrite Nat.sub_0_r. Qed.

(* a state whose program counter is known, as its own update: the invariant's clauses then compute on it *)
Lemma pc_eta s p : s.(pc) = p -> s = s <| pc := p |>.
Proof. intros <-. by destruct s. Qed.

Definition fin_done (s : state) : bool := s.(fin).(o_sent) || s.(fin).(o_txdrop).

Definition wakes_queue (w : option waker) : bool := match w with Some (WQueue | WBoth) => true | _ => false end.
Definition wakes_task (w : option waker) : bool := match w with Some (WTask | WBoth) => true | _ => false end.

(* the updates are written with [::=] so that the state occurs once: the right-hand side stays small when the state
   is a large term *)
Lemma wake_opt_spec w s :
  wake_opt w s = s <| parked ::= fun b => b && negb (wakes_queue w) |> <| pollable ::= fun b => b || wakes_task w |>.
Proof. destruct s, w as [[]|]; unfold set; cbn; by rewrite ?andb_true_r, ?andb_false_r, ?orb_false_r, ?orb_true_r. Qed.

Lemma foldr_wake l s :
  foldr wake s l = s <| parked ::= fun b => b && forallb (fun w => negb (wakes_queue (Some w))) l |>
                     <| pollable ::= fun b => b || existsb (fun w => wakes_task (Some w)) l |>.
Proof.
  induction l as [|w l IH]; cbn [foldr forallb existsb].
  - destruct s; unfold set; cbn. by rewrite andb_true_r, orb_false_r.
  - rewrite IH. destruct s, w; unfold set; cbn; by rewrite ?andb_true_r, ?andb_false_r, ?orb_false_r, ?orb_true_r.
Qed.

Inductive qs_spec (r : runner) (s : state) : state -> Prop :=
| QsSlot q : cur s = CNone -> opq s = Slot :: q ->
    qs_spec r s (emit SlotStart (s <| opq := q |> <| cur := CSlot QS1 |>))
| QsStart k q : cur s = CNone -> opq s = Other k :: q ->
    qs_spec r s (emit (OStart k) (s <| opq := q |> <| cur := COther k |>))
| QsFinish k : cur s = COther k ->
    qs_spec r s (emit (OFinish k) (s <| cur := CNone |> <| parked := false |> <| owk := None |>))
| QsS1 : cur s = CSlot QS1 ->
    qs_spec r s (wake_opt (os_send (ready s)).2 (s <| ready := (os_send (ready s)).1 |> <| cur := CSlot QS2 |>))
| QsPark : cur s = CSlot QS2 -> fin_done s = false ->
    qs_spec r s (s <| fin := fin s <| o_waker := Some (runner_waker r) |> |> <| parked := true |>)
| QsS2 : cur s = CSlot QS2 -> fin_done s = true ->
    qs_spec r s (s <| parked := false |> <| cur := CSlot QS3 |>)
| QsS3 : cur s = CSlot QS3 ->
    qs_spec r s (wake_opt (sf_waker (sf s))
                   (emit SlotEnd (s <| sf := {| sf_res := SfOk; sf_waker := None |} |> <| cur := CNone |>))).

Lemma queue_step_spec r s s' : queue_step r s = Some s' -> qs_spec r s s'.
Proof.
  unfold queue_step, os_poll. intros Hs. destruct (cur s) as [|k|[]] eqn:Ec.
  - destruct (opq s) as [|[|k] q] eqn:Eo; simplify_eq; by constructor.
  - simplify_eq. by constructor.
  - rewrite (surjective_pairing (os_send _)) in Hs. simplify_eq. by constructor.
  - destruct (o_sent (fin s)) eqn:E1; [|destruct (o_txdrop (fin s)) eqn:E2]; simplify_eq.
    + replace (s <| fin := fin s |>) with s by (by destruct s). constructor; [done|]. unfold fin_done. by rewrite E1.
    + replace (s <| fin := fin s |>) with s by (by destruct s). constructor; [done|]. unfold fin_done. by rewrite E1, E2.
    + constructor; [done|]. unfold fin_done. by rewrite E1, E2.
  - simplify_eq. by constructor.
Qed.

Definition sf_state (x : sstate) : bool := match x with SWaitQueue | SWaitSched _ => true | _ => false end.

(* `task_finished.take()` followed by [op] on the sender: `send`, or the drop of the unsent sender *)
Definition give_up_fin (op : oneshot -> oneshot * option waker) (s : state) : state :=
  if txheld s then wake_opt (op (fin s)).2 (s <| fin := (op (fin s)).1 |> <| txheld := false |>) else s.

Definition drain_next (s : state) : tpc :=
  match cur s with
  | CNone => PDrainLoop
  | CSlot QS2 => if parked s then PDrainPend else PDrainJob
  | _ => PDrainJob
  end.

Inductive task_spec (F : sfacts) (d : bool) (s : state) : state -> Prop :=
| TsIdle : pc s = PIdle -> pollable s = true -> task_spec F d s (s <| pollable := false |> <| pc := PLoop |>)
| TsLoopSf : pc s = PLoop -> sf_state (sst s) = true ->
    task_spec F d s (sf_take s (fun s => if d then s <| pc := PDrainLoop |> else sf_return RPending (sf_set_waker s)))
| TsLoopUser : pc s = PLoop -> sst s = SWaitFuture -> task_spec F d s (emit UPoll (s <| pc := PUser |>))
| TsLoopDone : pc s = PLoop -> sst s = SCompleted -> task_spec F d s (emit RetErr (s <| pc := PDone |>))
| TsDrainLoop : pc s = PDrainLoop -> task_spec F d s (sf_take s (fun s => s <| pc := PDrainJob |>))
| TsDrainJob s1 : pc s = PDrainJob -> queue_step RTask s = Some s1 -> task_spec F d s (s1 <| pc := drain_next s1 |>)
| TsDrainEmpty : pc s = PDrainJob -> queue_step RTask s = None -> task_spec F d s (s <| pc := PDrainWaker |>)
| TsDrainPend : pc s = PDrainPend -> task_spec F d s (sf_take s (fun s => s <| pc := PDrainWaker |>))
| TsDrainWaker : pc s = PDrainWaker -> task_spec F d s (sf_return RPending (sf_set_waker s))
| TsReadyOk : pc s = PReadyPoll -> o_sent (ready s) = true -> task_spec F d s (s <| pc := PCreate |>)
| TsReadyErr : pc s = PReadyPoll -> o_sent (ready s) = false -> o_txdrop (ready s) = true ->
    task_spec F d s (emit RetErr (s <| ready := os_droprx (ready s) |> <| sst := SCompleted |> <| pc := PDone |>))
| TsReadyPend : pc s = PReadyPoll -> o_sent (ready s) = false -> o_txdrop (ready s) = false ->
    task_spec F d s (s <| ready := ready s <| o_waker := Some WTask |> |> <| pc := PIdle |>)
| TsCreate : pc s = PCreate ->
    task_spec F d s (emit UStart (s <| ready := os_droprx (ready s) |> <| sst := SWaitFuture |> <| pc := PLoop |>))
| TsUserFinish : pc s = PUser -> uscr s = [] -> task_spec F d s (emit (UFinish (uval s)) (s <| pc := PFinSend |>))
| TsUserTouch r : pc s = PUser -> uscr s = UTouch :: r -> task_spec F d s (emit UStep (s <| uscr := r |>))
| TsUserFired e r c : pc s = PUser -> uscr s = UAwait e :: r -> evs s !! e = Some c -> fired c = true ->
    task_spec F d s (emit UStep (s <| uscr := r |>))
| TsUserWait e r c : pc s = PUser -> uscr s = UAwait e :: r -> evs s !! e = Some c -> fired c = false ->
    task_spec F d s (emit UStep (s <| evs := <[ e := c <| regs := WTask :: regs c |> ]> (evs s) |> <| pc := PIdle |>))
| TsUserNoEvent e r : pc s = PUser -> uscr s = UAwait e :: r -> evs s !! e = None ->
    task_spec F d s (emit UStep (s <| pc := PIdle |>))
| TsFinSend : pc s = PFinSend ->
    task_spec F d s (give_up_fin os_send s <| sst := SWaitSched (uval s) |> <| pc := PLoop |>)
| TsErrSend : pc s = PErrSend -> task_spec F d s (give_up_fin os_send s <| pc := PErrDropRx |>)
| TsErrDropRx : pc s = PErrDropRx ->
    task_spec F d s (emit RetErr (s <| ready := os_droprx (ready s) |> <| sst := SCompleted |> <| pc := PDone |>))
| TsDropQueue : pc s = PDropState -> sst s = SWaitQueue ->
    task_spec F d s (s <| ready := os_droprx (ready s) |> <| sst := SCompleted |> <| pc := after_drop_state F |>)
| TsDropFuture : pc s = PDropState -> sst s = SWaitFuture ->
    task_spec F d s (emit UCancel s <| sst := SCompleted |> <| pc := after_drop_state F |>)
| TsDropState : pc s = PDropState -> sst s <> SWaitQueue -> sst s <> SWaitFuture ->
    task_spec F d s (s <| sst := SCompleted |> <| pc := after_drop_state F |>)
| TsDropFin : pc s = PDropFin -> task_spec F d s (give_up_fin os_droptx s <| pc := after_drop_fin F |>).

Lemma task_step_spec F d s s' : task_step F d s = Some s' -> task_spec F d s s'.
Proof.
  unfold task_step, os_poll, give_up_fin. intros Hs. destruct (pc s) eqn:Epc; try done.
  - destruct (pollable s) eqn:E; simplify_eq. by constructor.
  - destruct (sst s) eqn:Est; simplify_eq; try by constructor.
    + apply TsLoopSf; [done|by rewrite Est].
    + apply TsLoopSf; [done|by rewrite Est].
  - simplify_eq. by constructor.
  - destruct (queue_step RTask s) eqn:E; simplify_eq; by constructor.
  - simplify_eq. by constructor.
  - simplify_eq. by constructor.
  - destruct (o_sent (ready s)) eqn:E1; [|destruct (o_txdrop (ready s)) eqn:E2]; simplify_eq; by constructor.
  - simplify_eq. by constructor.
  - destruct (uscr s) as [|[|e] r] eqn:Eu; [| |destruct (evs s !! e) as [c|] eqn:Ee; [destruct (fired c) eqn:Ef|]];
      simplify_eq; by econstructor.
  - rewrite (surjective_pairing (os_send _)) in Hs. simplify_eq. by constructor.
  - rewrite (surjective_pairing (os_send _)) in Hs. simplify_eq. by constructor.
  - simplify_eq. by constructor.
  - destruct (sst s) eqn:Est; simplify_eq; try by constructor.
    + apply TsDropState; congruence.
    + apply TsDropState; congruence.
  - rewrite (surjective_pairing (os_droptx _)) in Hs. simplify_eq. by constructor.
Qed.

Definition others_log (i : nat) (c : qcur) (l : list ev) : Prop :=
  (forall k, OStart k ∈ l <-> k < i) /\ (forall k, OFinish k ∈ l <-> k < i /\ c <> COther k).

Lemma others_start i l : others_log i CNone l ->
  others_log (S i) (COther i) (l ++ [OStart i]) /\ OStart i ∉ l /\ forall j, j < i -> OFinish j ∈ l.
Proof.
  unfold others_log. intros [H1 H2]. split_and!.
  - intros k. rewrite elem_snoc, H1. split; [intros [?|[= ->]]; lia|]. intros ?. destruct (decide (k = i)) as [->|]; [by right|left; lia].
  - intros k. rewrite elem_snoc, H2. split; [intros [[? _]|[=]]|intros [? ?]].
    + split; [lia|]. intros [= ->]. lia.
    + left. split; [|done]. destruct (decide (k = i)) as [->|]; [done|lia].
  - rewrite H1. lia.
  - intros j Hj. by apply H2.
Qed.

Lemma others_finish i l : others_log (S i) (COther i) l ->
  others_log (S i) CNone (l ++ [OFinish i]) /\ OStart i ∈ l /\ OFinish i ∉ l.
Proof.
  unfold others_log. intros [H1 H2]. split_and!.
  - intros k. rewrite elem_snoc, H1. split; [intros [?|[= ->]]; lia|auto].
  - intros k. rewrite elem_snoc, H2. split; [intros [[? ?]|[= ->]]; split; (lia||done)|].
    intros [? _]. destruct (decide (k = i)) as [->|]; [by right|left]. split; [done|congruence].
  - apply H1. lia.
  - rewrite H2. tauto.
Qed.

Lemma others_idle i c c' l : is_other c = false -> is_other c' = false -> others_log i c l -> others_log i c' l.
Proof.
  intros Hc Hc' [H1 H2]. split; [done|]. intros k. rewrite H2.
  split; (intros [? _]; split; [done|]); intros E; by rewrite E in *.
Qed.

(* The phase of the slot job, a number so that "not yet", "already" and "the next" are arithmetic. *)
Notation ph_fifo := 0 (only parsing).
Notation ph_S1 := 1 (only parsing).
Notation ph_S2 := 2 (only parsing).
Notation ph_S3 := 3 (only parsing).
Notation ph_done := 4 (only parsing).
Definition slot_phase (p : spc) : nat := match p with QS1 => ph_S1 | QS2 => ph_S2 | QS3 => ph_S3 end.

(* the last index is the phase; the shape reads only the FIFO, the operation in progress and the log *)

Inductive qshape_on (nb na : nat) (q : list qop) (c : qcur) (l : list ev) : nat -> Prop :=
| QA i : i <= nb ->
    q = (Other <$> seq i (nb - i)) ++ Slot :: (Other <$> seq nb na) ->
    (c = CNone \/ (exists i', i = S i' /\ c = COther i')) -> others_log i c l ->
    SlotStart ∉ l -> SlotEnd ∉ l -> qshape_on nb na q c l ph_fifo
| QB p : q = Other <$> seq nb na -> c = CSlot p -> others_log nb c l ->
    SlotStart ∈ l -> SlotEnd ∉ l -> qshape_on nb na q c l (slot_phase p)
| QC j : nb <= j <= nb + na ->
    q = Other <$> seq j (nb + na - j) ->
    (c = CNone \/ (exists j', j = S j' /\ nb <= j' /\ c = COther j')) -> others_log j c l ->
    SlotStart ∈ l -> SlotEnd ∈ l -> qshape_on nb na q c l ph_done.
Definition qshape (nb na : nat) (s : state) : nat -> Prop := qshape_on nb na s.(opq) s.(cur) s.(log).

Definition is_queue_ev (e : ev) : bool :=
  match e with OStart _ | OFinish _ | SlotStart | SlotEnd => true | _ => false end.

Lemma qshape_emit nb na e s ph : is_queue_ev e = false -> qshape nb na s ph -> qshape nb na (emit e s) ph.
Proof.
  intros He Hq.
  assert (El : forall x, is_queue_ev x = true -> x ∈ log s ++ [e] <-> x ∈ log s).
  { intros x Hx. rewrite elem_snoc. split; [intros [?| ->]; [done|congruence]|by left]. }
  assert (Ho : forall i c, others_log i c (log s) -> others_log i c (log s ++ [e])).
  { intros i c [H1 H2]. split; intros k; by rewrite El. }
  destruct Hq; [eapply QA|eapply QB|eapply QC]; cbn; try done; try (by apply Ho); by rewrite El.
Qed.

Lemma qshape_cur nb na s ph : qshape nb na s ph ->
  match s.(cur) with CSlot p => ph = slot_phase p | _ => ph = ph_fifo \/ ph = ph_done end /\
  (SlotStart ∈ s.(log) <-> ph_S1 <= ph) /\ (SlotEnd ∈ s.(log) <-> ph = ph_done).
Proof.
  unfold qshape. intros [i _ _ Hc _ ? ?|p _ -> _ ? ?|j _ _ Hc _ ? ?].
  - split; [destruct Hc as [->|(? & _ & ->)]; auto|]. split; (split; [done|lia]).
  - split; [done|]. destruct p; cbn; split; (split; [done||lia|done||lia]).
  - split; [destruct Hc as [->|(? & _ & _ & ->)]; auto|]. split; (split; [done||lia|done]).
Qed.

Definition task_waker_only (w : option waker) : Prop := w = None \/ w = Some WTask.

Definition ready_done (s : state) : Prop := s.(ready).(o_sent) = true \/ s.(ready).(o_rxdrop) = true.
Definition parked_other (s : state) : Prop := s.(parked) = true -> is_other s.(cur) = true.
Definition cells_at (ph : nat) (s : state) : Prop :=
  match ph with
  | ph_fifo | ph_S1 => s.(ready).(o_sent) = false /\ s.(sf).(sf_res) = SfNone /\ parked_other s
  | ph_S2 => ready_done s /\ s.(sf).(sf_res) = SfNone /\
         (s.(parked) = true -> fin_done s = false /\ (s.(fin).(o_waker) = Some WQueue \/ s.(fin).(o_waker) = Some WBoth))
  | ph_S3 => ready_done s /\ s.(sf).(sf_res) = SfNone /\ s.(parked) = false /\ fin_done s = true
  | _ (* ph_done *) => ready_done s /\ (s.(sf).(sf_res) = SfOk \/ s.(sf).(sf_res) = SfReturned) /\ parked_other s /\ fin_done s = true
  end.

(* a conjunction over the fields it reads, not a record over the state; its clauses are read through [c_at] ... [c_parked_owk] *)
Definition cells_ok (ph : nat) (s : state) : Prop :=
  cells_at ph s /\
  s.(ready).(o_txdrop) = false /\ s.(fin).(o_rxdrop) = false /\
  task_waker_only s.(ready).(o_waker) /\ task_waker_only s.(sf).(sf_waker) /\
  (forall e c w, s.(evs) !! e = Some c -> w ∈ c.(regs) -> w = WTask) /\
  s.(txheld) = negb (fin_done s) /\
  s.(owk) <> Some WTask /\ (s.(parked) = true -> is_other s.(cur) = true -> s.(owk) <> None).

Lemma c_at ph s : cells_ok ph s -> cells_at ph s. Proof. by intros (?&_). Qed.
Lemma c_ready_tx ph s : cells_ok ph s -> s.(ready).(o_txdrop) = false. Proof. by intros (_&?&_). Qed.
Lemma c_fin_rx ph s : cells_ok ph s -> s.(fin).(o_rxdrop) = false. Proof. by intros (_&_&?&_). Qed.
Lemma c_w_ready ph s : cells_ok ph s -> task_waker_only s.(ready).(o_waker). Proof. by intros (_&_&_&?&_). Qed.
Lemma c_w_sf ph s : cells_ok ph s -> task_waker_only s.(sf).(sf_waker). Proof. by intros (_&_&_&_&?&_). Qed.
Lemma c_w_ev ph s e c w : cells_ok ph s -> s.(evs) !! e = Some c -> w ∈ c.(regs) -> w = WTask.
Proof. intros (_&_&_&_&_&H&_). apply H. Qed.
Lemma c_tx ph s : cells_ok ph s -> s.(txheld) = negb (fin_done s). Proof. by intros (_&_&_&_&_&_&?&_). Qed.
Lemma c_owk ph s : cells_ok ph s -> s.(owk) <> Some WTask. Proof. by intros (_&_&_&_&_&_&_&?&_). Qed.
Lemma c_parked_owk ph s : cells_ok ph s -> s.(parked) = true -> is_other s.(cur) = true -> s.(owk) <> None.
Proof. intros (_&_&_&_&_&_&_&_&H). apply H. Qed.

Lemma cells_phase ph s : cells_ok ph s ->
  (ph <= ph_S1 -> s.(ready).(o_sent) = false) /\ (ph_S2 <= ph -> ready_done s) /\
  (ph_S3 <= ph -> fin_done s = true /\ s.(txheld) = false) /\
  (ph <= ph_S3 -> s.(sf).(sf_res) = SfNone) /\ (ph_done <= ph -> s.(sf).(sf_res) = SfOk \/ s.(sf).(sf_res) = SfReturned) /\
  (s.(parked) = true -> is_other s.(cur) = true \/
     ph = ph_S2 /\ fin_done s = false /\ (s.(fin).(o_waker) = Some WQueue \/ s.(fin).(o_waker) = Some WBoth)).
Proof.
  intros (H & _ & _ & _ & _ & _ & Ht & _). rewrite Ht.
  destruct ph as [|[|[|[|?]]]]; cbn in H; split_and!; try (intros; lia); intros.
  all: first [apply H|by destruct H as (_ & _ & _ & ->)|left; by apply H|idtac].
  - right. split; [done|]. by apply H.
  - destruct H as (_ & _ & ? & _). congruence.
Qed.

Lemma cells_unparked ph s : cells_ok ph s -> is_other s.(cur) = false -> ph <> ph_S2 -> s.(parked) = false.
Proof.
  intros Hc Ho Hph. destruct (parked s) eqn:E; [|done].
  destruct (cells_phase _ _ Hc) as (_ & _ & _ & _ & _ & [?|[? _]]); [done|congruence|done].
Qed.

Lemma sf_res_phase ph s : cells_ok ph s ->
  s.(sf).(sf_res) <> SfErr /\ (s.(txheld) = true -> s.(sf).(sf_res) = SfNone) /\ (s.(sf).(sf_res) = SfNone <-> ph <= ph_S3).
Proof.
  intros Hc. destruct (cells_phase _ _ Hc) as (_ & _ & H3 & H4 & H5 & _).
  destruct (decide (ph <= 3)) as [H|H].
  - rewrite (H4 H). split_and!; done.
  - destruct (H3 ltac:(lia)) as [_ ->]. destruct (H5 ltac:(lia)) as [-> | ->]; split_and!; try done; split; (done || lia).
Qed.

Lemma user_in_slot nb na s ph :
  qshape nb na s ph -> cells_ok ph s -> s.(ready).(o_sent) = true -> s.(txheld) = true ->
  ph = ph_S2 /\ s.(cur) = CSlot QS2 /\ in_slot s.(log).
Proof.
  intros Hq Hc Hr Ht. destruct (cells_phase _ _ Hc) as (H1 & _ & H3 & _).
  assert (ph = 2) as ->.
  { destruct (decide (ph <= 1)); [rewrite H1 in Hr; done|]. destruct (decide (3 <= ph)); [destruct H3; congruence|lia]. }
  destruct (qshape_cur _ _ _ _ Hq) as (Hcur & Hs & He). split; [done|]. split.
  - destruct (cur s) as [| |[]]; first [done|lia].
  - split; [apply Hs; lia|rewrite He; lia].
Qed.

Definition state_first (F : sfacts) : bool := F.(f_state_dropped_first).

(* the completion sender is still held in the first two states, unless `task_finished` was the first field dropped *)
Definition fin_kept (F : sfacts) (p : tpc) : bool := match p with PDropState => state_first F | _ => true end.

Definition at_idle (p : tpc) : bool := match p with PIdle => true | _ => false end.
Definition at_fin_send (p : tpc) : bool := match p with PFinSend => true | _ => false end.
Definition at_done (p : tpc) : bool := match p with PDone => true | _ => false end.

(* The tests on the program counter in [sst_ok], [ulog_ok] and [wait_ok] are computed ([if]), not stated as equations:
   for a known program counter outside the few they single out they reduce away. *)
Definition sst_ok (F : sfacts) (s : state) : Prop :=
  match s.(sst) with
  | SWaitQueue => s.(ready).(o_rxdrop) = false /\ (if fin_kept F s.(pc) then s.(txheld) = true else True) /\
                  s.(sf).(sf_res) <> SfReturned
  | SWaitFuture => s.(ready).(o_sent) = true /\ (if fin_kept F s.(pc) then s.(txheld) = true else True) /\
                   s.(sf).(sf_res) <> SfReturned
  | SWaitSched v => v = s.(uval) /\ s.(ready).(o_sent) = true /\ s.(txheld) = false /\ s.(sf).(sf_res) <> SfReturned
  | SCompleted => True
  end.

Definition pc_ok (F : sfacts) (ph : nat) (s : state) : Prop :=
  match s.(pc) with
  | PIdle | PLoop => s.(sst) <> SCompleted
  | PDrainLoop => sf_state s.(sst) = true
  | PDrainJob => sf_state s.(sst) = true /\ ph <= ph_S3
  | PDrainPend | PDrainWaker => sf_state s.(sst) = true /\ s.(parked) = true /\ ph <= ph_S3 /\
                                (s.(cur) = CSlot QS2 \/ (is_other s.(cur) = true /\ s.(owk) = Some WBoth))
  | PReadyPoll => s.(sst) = SWaitQueue /\
                  (s.(pool) = false -> ph_S2 <= ph \/ s.(pollable) = true \/ (s.(parked) = true /\ is_other s.(cur) = true /\ s.(owk) = Some WBoth))
  | PCreate => s.(sst) = SWaitQueue /\ s.(ready).(o_sent) = true
  | PUser | PFinSend => s.(sst) = SWaitFuture
  | PErrSend | PErrDropRx | PPanic => False
  | PDone => s.(sst) = SCompleted
  | PDropState => state_first F = false -> s.(txheld) = false
  | PDropFin => state_first F = true -> s.(sst) = SCompleted
  | PGone => s.(sst) = SCompleted /\ s.(txheld) = false
  end.

Definition no_ret (l : list ev) : Prop := forall v, Ret v ∉ l.

Definition ulog_ok (s : state) : Prop :=
  (Dropped ∈ s.(log) <-> dropped s.(pc) = true) /\
  RetErr ∉ s.(log) /\
  match s.(sst) with
  | SWaitQueue => UStart ∉ s.(log) /\ UCancel ∉ s.(log) /\ (forall v, UFinish v ∉ s.(log)) /\ no_ret s.(log)
  | SWaitFuture => UStart ∈ s.(log) /\ UCancel ∉ s.(log) /\ no_ret s.(log) /\
                   (if at_fin_send s.(pc) then UFinish s.(uval) ∈ s.(log) else forall v, UFinish v ∉ s.(log))
  | SWaitSched _ => UStart ∈ s.(log) /\ UFinish s.(uval) ∈ s.(log) /\ UCancel ∉ s.(log) /\ no_ret s.(log)
  | SCompleted => (UStart ∈ s.(log) -> UCancel ∈ s.(log) \/ UFinish s.(uval) ∈ s.(log)) /\
                  (if at_done s.(pc) then Ret s.(uval) ∈ s.(log) else True)
  end.

Definition wait_ok (s : state) : Prop :=
  if at_idle s.(pc) then
     s.(pollable) = true \/
     match s.(sst) with
     | SWaitQueue => s.(ready).(o_waker) = Some WTask /\ s.(ready).(o_sent) = false /\
                     (s.(pool) = true \/ (s.(parked) = true /\ is_other s.(cur) = true /\ s.(owk) = Some WBoth))
     | SWaitFuture => exists e r, s.(uscr) = UAwait e :: r /\
                        (s.(evs) !! e = None \/
                         exists c, s.(evs) !! e = Some c /\ c.(fired) = false /\ WTask ∈ c.(regs))
     | SWaitSched _ => s.(sf).(sf_res) = SfNone /\ s.(sf).(sf_waker) = Some WTask /\ s.(pool) = true
     | SCompleted => False
     end
  else True.

Inductive Inv (F : sfacts) (nb na : nat) (s : state) : Prop :=
  Inv_intro ph : qshape nb na s ph -> cells_ok ph s -> sst_ok F s -> pc_ok F ph s -> ulog_ok s -> wait_ok s ->
                 log_ok (P_all F nb) s.(log) -> Inv F nb na s.

Lemma Inv_sst F nb na s : Inv F nb na s -> sst_ok F s. Proof. by intros []. Qed.
Lemma Inv_ulog F nb na s : Inv F nb na s -> ulog_ok s. Proof. by intros []. Qed.
Lemma Inv_wait F nb na s : Inv F nb na s -> wait_ok s. Proof. by intros []. Qed.
Lemma Inv_log F nb na s : Inv F nb na s -> log_ok (P_all F nb) s.(log). Proof. by intros []. Qed.
Lemma Inv_queue F nb na s : Inv F nb na s -> exists ph, qshape nb na s ph /\ cells_ok ph s /\ pc_ok F ph s.
Proof. intros [ph]. by exists ph. Qed.

Lemma init_inv F pl nb na scr v nev : Inv F nb na (init pl nb na scr v nev).
Proof.
  apply (Inv_intro _ _ _ _ ph_fifo).
  - eapply (QA _ _ _ _ _ 0); cbn; try lia; try set_solver.
    + unfold full_queue. by rewrite Nat.sub_0_r.
    + split; intros k; (split; [set_solver|lia]).
  - unfold cells_ok; cbn. split_and!; try done; try (by left).
    intros e c w [-> _]%lookup_replicate. cbn. set_solver.
  - unfold sst_ok; cbn. done.
  - unfold pc_ok; cbn. done.
  - unfold ulog_ok; cbn. split; [|split]; [split; [set_solver|done]|set_solver|]. split_and!; try set_solver. intros ?; set_solver.
  - unfold wait_ok; cbn. by left.
  - apply log_ok_nil.
Qed.

Lemma qs_shape nb na r s s' ph : qshape nb na s ph -> queue_step r s = Some s' ->
  exists ph', qshape nb na s' ph' /\ (ph' = ph \/ ph' = S ph /\ is_other s'.(cur) = false) /\
    (s'.(log) = s.(log) \/
     exists e, s'.(log) = s.(log) ++ [e] /\ is_queue_ev e = true /\ P_slot s.(log) e /\ P_order nb s.(log) e /\ ph <> ph_S2).
Proof.
  unfold qshape, queue_step. intros Hq Hs.
  destruct Hq as [i Hi Ho Hc Hlog H3 H4|p Ho Hc Hlog H3 H4|j Hj Ho Hc Hlog H3 H4].
  - (* slot job pending *)
    destruct Hc as [Hc|(i' & -> & Hc)]; rewrite Hc in Hs, Hlog.
    + rewrite Ho in Hs. destruct (decide (i = nb)) as [->|Hne].
      * rewrite Nat.sub_diag in Hs. cbn in Hs. injection Hs as <-. destruct Hlog as [H1 H2].
        exists ph_S1. split_and!; [|by right|right; exists SlotStart].
        -- eapply (QB _ _ _ _ _ QS1); cbn; try done; [|rewrite elem_snoc; by right|rewrite elem_snoc; by intros [?|?]].
           split; intros k; rewrite elem_snoc, ?H1, ?H2; naive_solver.
        -- cbn. split_and!; try done. intros k Hk. by apply H2.
      * rewrite (seq_head i (nb - i)) in Hs by lia. cbn in Hs. injection Hs as <-.
        destruct (others_start _ _ Hlog) as (Hlog' & Hn & Hf). exists ph_fifo. split_and!; [|by left|right; exists (OStart i)].
        -- eapply (QA _ _ _ _ _ (S i)); cbn; try done; try lia; [|by right; exists i|rewrite elem_snoc; by intros [?|?]..].
           f_equal. f_equal. f_equal. lia.
        -- cbn. split_and!; try done; [by intros [? _]|lia].
    + injection Hs as <-. destruct (others_finish _ _ Hlog) as (Hlog' & H1 & H2).
      exists ph_fifo. split_and!; [|by left|right; exists (OFinish i')].
      * eapply (QA _ _ _ _ _ (S i')); cbn; try done; [by left|rewrite elem_snoc; by intros [?|?]..].
      * cbn. split_and!; try done. by intros [? _].
  - (* slot job in progress *)
    rewrite Hc in Hs, Hlog. pose proof (others_idle _ (CSlot p) (CSlot QS2) _ eq_refl eq_refl Hlog) as Hlog2.
    pose proof (others_idle _ (CSlot p) (CSlot QS3) _ eq_refl eq_refl Hlog) as Hlog3. destruct p.
    + rewrite (surjective_pairing (os_send _)) in Hs. injection Hs as <-. rewrite wake_opt_spec.
      exists ph_S2. split_and!; [by eapply (QB _ _ _ _ _ QS2)|by right|by left].
    + destruct (os_poll (runner_waker r) (fin s)) as [c []]; injection Hs as <-.
      * exists ph_S3. split_and!; [by eapply (QB _ _ _ _ _ QS3)|by right|by left].
      * exists ph_S3. split_and!; [by eapply (QB _ _ _ _ _ QS3)|by right|by left].
      * exists ph_S2. split_and!; [eapply (QB _ _ _ _ _ QS2); cbn; by rewrite ?Hc|by left|by left].
    + injection Hs as <-. rewrite wake_opt_spec. exists ph_done. split_and!; [|by right|right; exists SlotEnd; by cbn].
      eapply (QC _ _ _ _ _ nb); cbn; try lia; [|by left| |rewrite elem_snoc; by left|rewrite elem_snoc; by right].
      * rewrite Ho. f_equal. f_equal. lia.
      * destruct Hlog as [H1 H2]. split; intros k; rewrite elem_snoc, ?H1, ?H2; naive_solver.
  - (* slot job done *)
    destruct Hc as [Hc|(j' & -> & Hj' & Hc)]; rewrite Hc in Hs, Hlog.
    + rewrite Ho in Hs. destruct (decide (j = nb + na)) as [->|Hne].
      * rewrite Nat.sub_diag in Hs. cbn in Hs. done.
      * rewrite (seq_head j (nb + na - j)) in Hs by lia. cbn in Hs. injection Hs as <-.
        destruct (others_start _ _ Hlog) as (Hlog' & Hn & Hf). exists ph_done. split_and!; [|by left|right; exists (OStart j)].
        -- eapply (QC _ _ _ _ _ (S j)); cbn; try done; try lia; [|right; exists j; split_and!; (done||lia)|rewrite elem_snoc; by left..].
           f_equal. f_equal. lia.
        -- cbn. split_and!; try done. by intros [_ ?].
    + injection Hs as <-. destruct (others_finish _ _ Hlog) as (Hlog' & H1 & H2).
      exists ph_done. split_and!; [|by left|right; exists (OFinish j')].
      * eapply (QC _ _ _ _ _ (S j')); cbn; try done; [by left|rewrite elem_snoc; by left..].
      * cbn. split_and!; try done; [by intros [_ ?]|lia].
Qed.

Lemma qs_enabled nb na r s ph : qshape nb na s ph -> ph <= ph_S3 -> queue_step r s <> None.
Proof.
  unfold qshape, queue_step. intros [i Hi Ho Hc _ _ _|p Ho Hc _ _ _|] Hp; [| |lia].
  - destruct Hc as [->|(i' & -> & ->)]; [|congruence]. rewrite Ho. destruct (seq i (nb - i)); cbn; congruence.
  - rewrite Hc. destruct p; [destruct (os_send _); congruence|destruct (os_poll _ _) as [? []]; congruence|congruence].
Qed.
