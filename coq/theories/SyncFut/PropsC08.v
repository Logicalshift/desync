(* C08 - "future_sync runs in its slot and cancels cleanly when dropped" (layer SyncFut).

   Status: every clause below is proved for ALL user scripts, event timings, drop points, numbers of other
   operations before/after the slot job, schedules, and both values of [pool]; nothing is `_partial`.
   What the statements do NOT say (read before relying on them):
   * "after SlotEnd" in (3) means "after the slot job's `send.signal(())`": the model logs SlotEnd at that step, the
     last shared-memory operation of the slot job; the runner's return to its dequeue loop is not a step of its own.
   * (5) is the terminal-state form (no reachable state is stuck before completion).  That every fair schedule
     reaches a terminal state is not stated.
   * The queue is the abstraction "ObjExec" of Model.v (one operation at a time, FIFO, a suspended slot job parks
     the queue; while the task drains the queue inside `SchedulerFuture::poll` no background runner steps it).
     That the real queue state machine implements this is the business of the other layers (C01/C02/C07).
   * Other operations may suspend (AOSusp) and are resumed by AOWake, which counts as an actor of the system in
     [terminal]: whatever a suspended other operation waits for eventually happens.  A background runner may poll a parked
     queue again without a wake-up (AWakeQ).  The slot job is never destroyed unrun (no panic in the queue).
     The replay of implementation logs (driver/syncfut) exercises all three.

   Vocabulary: the ghost log [log s] is in chronological order; [log s = l1 ++ e :: l2] reads "e happened, l1 is
   everything before it".  [nb] operations were scheduled before the slot job (ids 0..nb-1), [na] after it
   (ids nb..nb+na-1).  [init pl nb na scr v nev]: pool flag, those numbers, the user future's script, its value,
   the number of external events. *)
From stdpp Require Import list numbers option.
From SyncFut Require Import Model Spec Inv QueueStep TaskStep Frame Live.

(* (1) runs only when awaited: an event of the user future (creation, poll, step, completion) is produced only
   by a step of the owner task T, inside a poll of the SyncFuture, not while T runs queue jobs in drain_queue;
   creation happens exactly at `create_future()`.  Holds for every state, reachable or not. *)
Theorem C08_1_runs_only_when_awaited :
  forall (F : sfacts) (s : state) (a : actor) (s' : state) (e : ev),
    step F s a = Some s' -> log s' = log s ++ [e] -> is_user_ev e = true ->
    a = ATask /\ in_poll (pc s) = true /\ pc s <> PDrainJob /\ (e = UStart -> pc s = PCreate).
Proof.
  intros F s a s' e Hs Hl He. destruct (step_effect _ _ _ _ Hs) as (_ & [E|(e' & E & He')] & _); rewrite E in Hl.
  - apply (f_equal length) in Hl. rewrite app_length in Hl. cbn in Hl. lia.
  - apply app_inj_tail in Hl as [_ ->]. by apply He'.
Qed.

(* (2) only inside its exclusive slot *)
Theorem C08_2_only_inside_its_exclusive_slot :
  forall (F : sfacts) (pl : bool) (nb na : nat) (scr : list uprim) (v nev : nat) (tr : list actor) (s : state)
         (l1 : list ev) (e : ev) (l2 : list ev),
    run F (init pl nb na scr v nev) tr = Some s -> log s = l1 ++ e :: l2 ->
    (* the user future is created/polled/stepped/completed after SlotStart and before SlotEnd *)
    (is_user_ev e = true -> SlotStart ∈ l1 /\ SlotEnd ∉ l1) /\
    (* no other operation starts or finishes between SlotStart and SlotEnd *)
    (is_other_ev e = true -> ~ (SlotStart ∈ l1 /\ SlotEnd ∉ l1)) /\
    (* the slot starts once, after every operation scheduled before it has finished *)
    (e = SlotStart -> SlotStart ∉ l1 /\ forall k, k < nb -> OFinish k ∈ l1) /\
    (e = SlotEnd -> SlotStart ∈ l1 /\ SlotEnd ∉ l1) /\
    (* operations start once, in FIFO order, one at a time; those scheduled after the slot job only after SlotEnd *)
    (forall k, e = OStart k -> OStart k ∉ l1 /\ (forall j, j < k -> OFinish j ∈ l1) /\ (nb <= k -> SlotEnd ∈ l1)) /\
    (forall k, e = OFinish k -> OStart k ∈ l1 /\ OFinish k ∉ l1 /\ (k < nb -> SlotStart ∉ l1)).
Proof.
  intros F pl nb na scr v nev tr s l1 e l2 Hr Hl. destruct (reachable_event Hr Hl) as (H1 & H2 & _).
  split_and!; [intros He; by destruct e|intros He; by destruct e|by intros ->|by intros ->|by intros k ->|by intros k ->].
Qed.

(* the same as a state invariant: while the user future exists (or is being created) and the completion sender is
   held, the queue is parked on the slot job in S2 *)
Theorem C08_2_user_future_in_slot_state :
  forall (F : sfacts) (pl : bool) (nb na : nat) (scr : list uprim) (v nev : nat) (tr : list actor) (s : state),
    run F (init pl nb na scr v nev) tr = Some s ->
    (sst s = SWaitFuture \/ pc s = PCreate) -> txheld s = true ->
    cur s = CSlot QS2 /\ SlotStart ∈ log s /\ SlotEnd ∉ log s.
Proof.
  intros F pl nb na scr v nev tr s [HI _]%reachable H Ht.
  destruct (Inv_queue _ _ _ _ HI) as (ph & Hq & Hc & Hp). pose proof (Inv_sst _ _ _ _ HI) as Hss.
  assert (o_sent (ready s) = true) as Hrs.
  { unfold sst_ok, pc_ok in *. destruct H as [E|E]; rewrite E in *; [apply Hss|apply Hp]. }
  by destruct (user_in_slot _ _ _ _ Hq Hc Hrs Ht) as (_ & ? & ? & ?).
Qed.

(* (3) result: the SyncFuture resolves at most once, to Ok of the user future's own value, after the user future
   completed and after the slot job signalled; it never resolves to Err; the user future starts and completes at
   most once *)
Theorem C08_3_result :
  forall (F : sfacts) (pl : bool) (nb na : nat) (scr : list uprim) (v nev : nat) (tr : list actor) (s : state)
         (l1 : list ev) (e : ev) (l2 : list ev),
    run F (init pl nb na scr v nev) tr = Some s -> log s = l1 ++ e :: l2 ->
    (forall x, e = Ret x -> x = v /\ UFinish v ∈ l1 /\ SlotEnd ∈ l1 /\ (forall y, Ret y ∉ l1) /\ Dropped ∉ l1) /\
    e <> RetErr /\
    (forall x, e = UFinish x -> x = v /\ (forall y, UFinish y ∉ l1) /\ UStart ∈ l1 /\ UCancel ∉ l1) /\
    (e = UStart -> UStart ∉ l1).
Proof.
  intros F pl nb na scr v nev tr s l1 e l2 Hr Hl. destruct (reachable_event Hr Hl) as (_ & _ & H3 & _).
  destruct (run_frame Hr) as (_ & _ & _ & Hv). rewrite Hl in Hv.
  split_and!.
  - intros x ->. destruct H3 as (Hf & ?). assert (x = v) as -> by (apply Hv, elem_of_app; by left). done.
  - by intros ->.
  - intros x ->. split; [|done]. apply Hv, elem_of_app. right. by left.
  - by intros ->.
Qed.

Lemma not_alive_pos l : ~ user_alive l -> UStart ∈ l -> UCancel ∈ l \/ exists x, UFinish x ∈ l.
Proof.
  intros Hn Hs. destruct (decide (UCancel ∈ l)) as [?|Hc]; [by left|]. right.
  destruct (decide (Exists (fun e => (match e with UFinish _ => true | _ => false end) = true) l)) as [He|He].
  { apply list.Exists_exists in He as (e & He & Hx). destruct e; try done. by eexists. }
  exfalso. apply Hn. split_and!; try done. intros x Hx. apply He. apply list.Exists_exists. by exists (UFinish x).
Qed.

(* (4) clean cancellation, for the field order of the code (`state` declared before `task_finished`) *)
Theorem C08_4_clean_cancellation :
  forall (pl : bool) (nb na : nat) (scr : list uprim) (v nev : nat) (tr : list actor) (s : state)
         (l1 : list ev) (e : ev) (l2 : list ev),
    run code_facts (init pl nb na scr v nev) tr = Some s -> log s = l1 ++ e :: l2 ->
    (* after the drop the user future is neither started nor run *)
    (is_user_ev e = true -> Dropped ∉ l1) /\
    (* it is destroyed only by the drop, only if it was started and had not finished, at most once, and its
       destruction (which may run user destructors holding `&mut T`) lies inside the exclusive slot *)
    (e = UCancel -> Dropped ∈ l1 /\ UStart ∈ l1 /\ UCancel ∉ l1 /\ (forall x, UFinish x ∉ l1) /\ SlotStart ∈ l1 /\ SlotEnd ∉ l1) /\
    (e = Dropped -> Dropped ∉ l1) /\
    (* when the slot ends, and when any operation starts, a started user future has been destroyed or has finished *)
    (e = SlotEnd \/ (exists k, e = OStart k) -> UStart ∈ l1 -> UCancel ∈ l1 \/ exists x, UFinish x ∈ l1).
Proof.
  intros pl nb na scr v nev tr s l1 e l2 Hr Hl. destruct (reachable_event Hr Hl) as (_ & _ & _ & H4).
  split_and!.
  - intros He. by destruct e.
  - intros ->. destruct H4 as (? & (? & ? & ?) & H). by destruct (H eq_refl).
  - by intros ->.
  - intros He. apply not_alive_pos. destruct He as [->|[k ->]]; by apply H4.
Qed.

Lemma drop_state_step F s : s.(pc) = PDropState -> exists s', step F s ATask = Some s' /\ s'.(pc) = after_drop_state F.
Proof. intros E. cbn. unfold task_step. rewrite E. by eexists. Qed.
Lemma drop_fin_step F s : s.(pc) = PDropFin -> exists s', step F s ATask = Some s' /\ s'.(pc) = after_drop_fin F.
Proof. intros E. cbn. unfold task_step. rewrite E. cbn. destruct (txheld s); by eexists. Qed.

(* dropping never blocks: whenever the owner is between polls, the drop and its two field drops are enabled *)
Theorem C08_4_drop_never_blocks :
  forall (F : sfacts) (s : state),
    pc s = PIdle \/ pc s = PDone -> exists s', run F s [ADrop; ATask; ATask] = Some s' /\ pc s' = PGone.
Proof.
  intros F s Hpc.
  assert (exists s1, step F s ADrop = Some s1 /\ s1.(pc) = if f_state_dropped_first F then PDropState else PDropFin)
    as (s1 & H1 & E1) by (destruct Hpc as [E|E]; cbn; rewrite E; by eexists).
  assert (exists s2 s3, step F s1 ATask = Some s2 /\ step F s2 ATask = Some s3 /\ s3.(pc) = PGone) as (s2 & s3 & H2 & H3 & E3).
  { pose proof (drop_state_step F) as Hs. pose proof (drop_fin_step F) as Hf.
    unfold after_drop_state, after_drop_fin in *. destruct (f_state_dropped_first F).
    - destruct (Hs s1 E1) as (s2 & H2 & E2). destruct (Hf s2 E2) as (s3 & H3 & E3). by exists s2, s3.
    - destruct (Hf s1 E1) as (s2 & H2 & E2). destruct (Hs s2 E2) as (s3 & H3 & E3). by exists s2, s3. }
  exists s3. split; [|done]. unfold run. cbn [foldl mbind option_bind]. rewrite H1. cbn [mbind option_bind]. by rewrite H2.
Qed.

(* with the other field order (`task_finished` dropped first) a later operation starts while the user future is alive *)
Example C08_4_field_order_needed_refuted :
  exists (tr : list actor) (s : state) (l1 l2 : list ev) (k : nat),
    run swapped_facts (init true 0 1 [UAwait 0] 7 1) tr = Some s /\ log s = l1 ++ OStart k :: l2 /\
    UStart ∈ l1 /\ UCancel ∉ l1 /\ (forall x, UFinish x ∉ l1) /\ SlotEnd ∈ l1.
Proof.
  exists (repeat AQueue 3 ++ repeat ATask 6 ++ [ADrop; ATask] ++ repeat AQueue 3).
  eexists. exists [SlotStart; UStart; UPoll; UStep; Dropped; SlotEnd], [], 0.
  split; [vm_compute; reflexivity|]. split; [reflexivity|].
  split_and!.
  - by repeat constructor.
  - intros H. by repeat (apply elem_of_cons in H as [H|H]; [discriminate H|]); apply elem_of_nil in H.
  - intros x H. by repeat (apply elem_of_cons in H as [H|H]; [discriminate H|]); apply elem_of_nil in H.
  - by repeat constructor.
Qed.

(* (5) releases the queue.  [terminal]: neither the background runner, nor the owner task (which polls whenever it has
   been woken, unless it dropped the future), nor any external event can move. *)
Theorem C08_5_releases_the_queue :
  forall (F : sfacts) (pl : bool) (nb na : nat) (scr : list uprim) (v nev : nat) (tr : list actor) (s : state),
    pl = true -> script_ok nev scr ->
    run F (init pl nb na scr v nev) tr = Some s -> terminal F s ->
    SlotEnd ∈ log s /\ (forall k, k < nb + na -> OFinish k ∈ log s) /\ (Dropped ∉ log s -> Ret v ∈ log s).
Proof.
  intros F pl nb na scr v nev tr s Hpl Hscr Hr HT. destruct (terminal_view _ _ HT) as (Hpc & Hnd & Tq & _ & To).
  destruct (reachable Hr) as [[ph Hq Hc Hss Hp Hu Hw Hl] _].
  destruct (run_frame Hr) as (Hpool & Huv & _ & _). rewrite Hpl in Hpool.
  destruct (cells_phase _ _ Hc) as (_ & Hrd & _ & _ & Hsf & Hpk). destruct Hu as (Hu1 & _ & Hu).
  (* what an idle, unwoken owner can still be waiting for *)
  assert (Hidle : s.(pc) = PIdle -> s.(pollable) = false ->
            (s.(sst) = SWaitQueue /\ s.(ready).(o_sent) = false /\ s.(ready).(o_rxdrop) = false) \/
            (s.(sf).(sf_res) = SfNone /\ s.(txheld) = false)).
  { intros Epc Epl. destruct (idle_owner_waits Hscr Hr HT Epc Epl) as [(Est & ? & _)|(x & _ & ? & _ & ?)]; [left|by right].
    unfold sst_ok in Hss. rewrite Est in Hss. split_and!; try done. apply Hss. }
  (* the queue is not parked: on another operation it could be resumed, on the slot job its sender would be gone *)
  assert (Hnp : parked s = false).
  { destruct (parked s) eqn:Epk; [exfalso|done].
    destruct (Hpk eq_refl) as [Ho|(-> & Hfd & _)]; [by rewrite (no_parked_other F _ s Hc To Hnd Epk) in Ho|].
    assert (Htx : txheld s = true) by (rewrite (c_tx _ _ Hc); by rewrite Hfd).
    destruct Hpc as [[Epc Epl]|Hpc].
    - destruct (Hidle Epc Epl) as [(_ & ? & ?)|[_ ?]]; [|congruence]. destruct Hrd as [?|?]; [lia|congruence..].
    - unfold pc_ok in Hp. destruct Hpc as [Epc|[Epc|Epc]]; rewrite Epc in Hp, Hu; [|destruct Hp; congruence|done].
      rewrite Hp in Hu. destruct Hu as [_ Hu]. cbn in Hu.
      destruct (log_ok_elem _ _ _ Hl Hu) as (l1 & l2 & El & _ & _ & (_ & He & _) & _).
      destruct (qshape_ended _ _ _ _ Hq) as [? _]; [|lia]. rewrite El. apply elem_of_app. by left. }
  destruct (Tq Hpool Hnp) as [Ecur Eopq].
  destruct (qshape_drained _ _ _ _ Hq Ecur Eopq) as (-> & Hend & Hall). split_and!; try done.
  intros Hnd'. destruct Hpc as [[Epc Epl]|[Epc|[Epc|Epc]]].
  - exfalso. destruct (Hidle Epc Epl) as [(_ & ? & ?)|[? _]].
    + destruct Hrd as [?|?]; [lia|congruence..].
    + destruct Hsf; [lia|congruence..].
  - unfold pc_ok in Hp. rewrite Epc in Hp, Hu. rewrite Hp in Hu. rewrite <- Huv. apply Hu.
  - exfalso. apply Hnd', Hu1. by rewrite Epc.
  - unfold pc_ok in Hp. by rewrite Epc in Hp.
Qed.

(* pool size 0 (no background runner at all), the future is awaited to completion: the owner's polls alone run the
   operations before the slot, the slot job, and deliver the result *)
Theorem C08_5_await_to_completion_without_pool :
  forall (F : sfacts) (pl : bool) (nb na : nat) (scr : list uprim) (v nev : nat) (tr : list actor) (s : state),
    pl = false -> script_ok nev scr ->
    run F (init pl nb na scr v nev) tr = Some s -> terminal F s -> Dropped ∉ log s ->
    Ret v ∈ log s /\ SlotEnd ∈ log s /\ (forall k, k < nb -> OFinish k ∈ log s).
Proof.
  intros F pl nb na scr v nev tr s Hpl Hscr Hr HT Hnd. destruct (terminal_view _ _ HT) as (Hpc & _).
  destruct (reachable Hr) as [[ph Hq Hc Hss Hp (Hu1 & _ & Hu) Hw Hl] _].
  destruct (run_frame Hr) as (Hpool & Huv & _ & _). rewrite Hpl in Hpool.
  unfold pc_ok in Hp.
  assert (Hret : Ret v ∈ log s).
  { destruct Hpc as [[Epc Epl]|[Epc|[Epc|Epc]]].
    - exfalso. destruct (idle_owner_waits Hscr Hr HT Epc Epl) as [(_ & _ & ? & _)|(x & _ & _ & ? & _)]; congruence.
    - rewrite Epc in Hp, Hu. rewrite Hp in Hu. rewrite <- Huv. apply Hu.
    - exfalso. apply Hnd, Hu1. by rewrite Epc.
    - by rewrite Epc in Hp. }
  split; [done|].
  destruct (log_ok_elem _ _ _ Hl Hret) as (l1 & l2 & El & _ & _ & (_ & He & _) & _).
  assert (Hend : SlotEnd ∈ log s) by (rewrite El; apply elem_of_app; by left).
  split; [done|]. by destruct (qshape_ended _ _ _ _ Hq Hend).
Qed.

Theorem C08_s_slot_job_passes_S2_only_when_finished :
  forall (r : runner) (s s' : state),
    queue_step r s = Some s' -> cur s = CSlot QS2 -> cur s' <> CSlot QS2 ->
    cur s' = CSlot QS3 /\ (o_sent (fin s) = true \/ o_txdrop (fin s) = true).
Proof.
  intros r s s' Hs Hc Hn. destruct (queue_step_spec _ _ _ Hs) as [| | | | |_ Hf|]; cbn in Hn; try congruence.
  split; [done|]. by apply orb_true_iff.
Qed.

Theorem C08_s_beyond_S2_only_when_finished :
  forall (F : sfacts) (pl : bool) (nb na : nat) (scr : list uprim) (v nev : nat) (tr : list actor) (s : state),
    run F (init pl nb na scr v nev) tr = Some s ->
    (cur s = CSlot QS3 \/ SlotEnd ∈ log s) -> o_sent (fin s) = true \/ o_txdrop (fin s) = true.
Proof.
  intros F pl nb na scr v nev tr s [(ph & Hq & Hc & _)%Inv_queue _]%reachable H.
  destruct (qshape_cur _ _ _ _ Hq) as (Hcur & _ & He). destruct (cells_phase _ _ Hc) as (_ & _ & H3 & _).
  destruct H3 as [Hd _]; [destruct H as [H|H]; [rewrite H in Hcur; cbn in Hcur|apply He in H]; lia|].
  by apply orb_true_iff.
Qed.

Theorem C08_s_fin_sent_only_after_completion_or_in_err_branch :
  forall (F : sfacts) (s : state) (a : actor) (s' : state),
    step F s a = Some s' -> o_sent (fin s) = false -> o_sent (fin s') = true ->
    a = ATask /\ (pc s = PFinSend \/ pc s = PErrSend) /\ txheld s = true /\ step_label s a = Some LFinSend.
Proof.
  intros F s a s' Hs H0 H1. destruct (step_effect _ _ _ _ Hs) as (_ & _ & [?|(-> & Hpc & ?)] & _); [congruence|].
  split_and!; try done. cbn. unfold task_label. by destruct Hpc as [-> | ->].
Qed.

Theorem C08_s_fin_sender_dropped_only_by_the_drop :
  forall (F : sfacts) (s : state) (a : actor) (s' : state),
    step F s a = Some s' -> o_txdrop (fin s) = false -> o_txdrop (fin s') = true ->
    a = ATask /\ pc s = PDropFin /\ txheld s = true /\ step_label s a = Some LDrop.
Proof.
  intros F s a s' Hs H0 H1. destruct (step_effect _ _ _ _ Hs) as (_ & _ & _ & [?|(-> & Hpc & ?)]); [congruence|].
  split_and!; try done. cbn. unfold task_label. by rewrite Hpc.
Qed.

Theorem C08_s_no_panic_no_err :
  forall (F : sfacts) (pl : bool) (nb na : nat) (scr : list uprim) (v nev : nat) (tr : list actor) (s : state),
    run F (init pl nb na scr v nev) tr = Some s ->
    pc s <> PPanic /\ pc s <> PErrSend /\ pc s <> PErrDropRx /\ RetErr ∉ log s /\
    sf_res (sf s) <> SfErr /\ o_txdrop (ready s) = false.
Proof.
  intros F pl nb na scr v nev tr s [HI _]%reachable.
  destruct (Inv_queue _ _ _ _ HI) as (ph & Hq & Hc & Hp). pose proof (Inv_ulog _ _ _ _ HI) as Hu.
  unfold pc_ok in Hp. split_and!; try (intros E; by rewrite E in Hp); [apply Hu|apply (sf_res_phase _ _ Hc)|apply (c_ready_tx _ _ Hc)].
Qed.

Theorem C08_s_scheduler_future_pending_while_waiting_for_queue :
  forall (F : sfacts) (pl : bool) (nb na : nat) (scr : list uprim) (v nev : nat) (tr : list actor) (s : state),
    run F (init pl nb na scr v nev) tr = Some s ->
    sst s = SWaitQueue -> pc s <> PDropState -> sf_res (sf s) = SfNone.
Proof.
  intros F pl nb na scr v nev tr s [HI _]%reachable Est Hpc.
  destruct (Inv_queue _ _ _ _ HI) as (ph & _ & Hc & _). pose proof (Inv_sst _ _ _ _ HI) as Hss.
  unfold sst_ok in Hss. rewrite Est in Hss. destruct (sf_res_phase _ _ Hc) as (_ & H & _). apply H.
  destruct Hss as (_ & Ht & _). destruct (pc s); cbn in Ht; done.
Qed.

Theorem C08_s_user_future_holds_the_sender :
  forall (F : sfacts) (pl : bool) (nb na : nat) (scr : list uprim) (v nev : nat) (tr : list actor) (s : state),
    run F (init pl nb na scr v nev) tr = Some s ->
    f_state_dropped_first F = true -> sst s = SWaitFuture -> txheld s = true.
Proof.
  intros F pl nb na scr v nev tr s [Hss%Inv_sst _]%reachable HF Est.
  unfold sst_ok, fin_kept, state_first in Hss. rewrite Est, HF in Hss. destruct Hss as (_ & Ht & _). destruct (pc s); cbn in Ht; done.
Qed.

Print Assumptions C08_1_runs_only_when_awaited.
Print Assumptions C08_2_only_inside_its_exclusive_slot.
Print Assumptions C08_2_user_future_in_slot_state.
Print Assumptions C08_3_result.
Print Assumptions C08_4_clean_cancellation.
Print Assumptions C08_4_drop_never_blocks.
Print Assumptions C08_4_field_order_needed_refuted.
Print Assumptions C08_5_releases_the_queue.
Print Assumptions C08_5_await_to_completion_without_pool.
Print Assumptions C08_s_slot_job_passes_S2_only_when_finished.
Print Assumptions C08_s_beyond_S2_only_when_finished.
Print Assumptions C08_s_fin_sent_only_after_completion_or_in_err_branch.
Print Assumptions C08_s_fin_sender_dropped_only_by_the_drop.
Print Assumptions C08_s_no_panic_no_err.
Print Assumptions C08_s_scheduler_future_pending_while_waiting_for_queue.
Print Assumptions C08_s_user_future_holds_the_sender.

(* non-vacuity: concrete runs that satisfy the hypotheses (reachable, terminal) with non-trivial logs *)
Definition T (n : nat) : list actor := repeat ATask n.
Definition Q (n : nat) : list actor := repeat AQueue n.

Ltac run_example := eexists; split; [vm_compute; reflexivity|]; split; [apply terminalb_ok; vm_compute; reflexivity|vm_compute; reflexivity].

(* awaited to completion with a background runner; the awaited event fires late (the user future is suspended once) *)
Example ex_await_event_late :
  exists s, run code_facts (init true 1 1 [UTouch; UAwait 0; UTouch] 7 1)
              (T 3 ++ Q 5 ++ T 7 ++ [AEvent 0] ++ T 7 ++ Q 2 ++ T 2 ++ Q 2) = Some s /\ terminal code_facts s /\
    log s = [OStart 0; OFinish 0; SlotStart; UStart; UPoll; UStep; UStep; UPoll; UStep; UStep; UFinish 7;
             SlotEnd; Ret 7; OStart 1; OFinish 1].
Proof. run_example. Qed.

(* awaited to completion with pool size 0; the event fires early (before the user future looks at it) *)
Example ex_await_event_early_no_pool :
  exists s, run code_facts (init false 1 1 [UTouch; UAwait 0; UTouch] 7 1) (T 12 ++ [AEvent 0] ++ T 12) = Some s /\
    terminal code_facts s /\
    log s = [OStart 0; OFinish 0; SlotStart; UStart; UPoll; UStep; UStep; UStep; UFinish 7; SlotEnd; Ret 7].
Proof. run_example. Qed.

(* dropped before it is first polled (the event fires at the end only so that the state is terminal) *)
Example ex_drop_before_first_poll :
  exists s, run code_facts (init true 1 1 [UTouch; UAwait 0] 7 1) ([ADrop; ATask; ATask] ++ Q 8 ++ [AEvent 0]) = Some s /\
    terminal code_facts s /\
    log s = [Dropped; OStart 0; OFinish 0; SlotStart; SlotEnd; OStart 1; OFinish 1].
Proof. run_example. Qed.

(* dropped while it waits for its slot (polled once, the slot job not yet started) *)
Example ex_drop_while_waiting_for_slot :
  exists s, run code_facts (init true 1 1 [UTouch; UAwait 0] 7 1)
              (T 3 ++ Q 2 ++ [ADrop; ATask; ATask] ++ Q 6 ++ [AEvent 0]) = Some s /\ terminal code_facts s /\
    log s = [OStart 0; OFinish 0; Dropped; SlotStart; SlotEnd; OStart 1; OFinish 1].
Proof. run_example. Qed.

(* dropped in the middle of the operation (the user future suspended on an event) *)
Example ex_drop_mid_operation :
  exists s, run code_facts (init true 1 1 [UTouch; UAwait 0] 7 1)
              (Q 5 ++ T 7 ++ [ADrop; ATask; ATask] ++ Q 4 ++ [AEvent 0]) = Some s /\ terminal code_facts s /\
    log s = [OStart 0; OFinish 0; SlotStart; UStart; UPoll; UStep; UStep; Dropped; UCancel; SlotEnd; OStart 1; OFinish 1].
Proof. run_example. Qed.

(* two operations before and two after; the owner's first SchedulerFuture::poll drains the queue on its own thread *)
Example ex_two_operations_around :
  exists s, run code_facts (init true 2 2 [UAwait 0; UTouch] 9 1)
              ([ATask; ADrain] ++ T 16 ++ [AEvent 0] ++ T 7 ++ Q 2 ++ T 2 ++ Q 4) = Some s /\ terminal code_facts s /\
    log s = [OStart 0; OFinish 0; OStart 1; OFinish 1; SlotStart; UStart; UPoll; UStep; UPoll; UStep; UStep; UFinish 9;
             SlotEnd; Ret 9; OStart 2; OFinish 2; OStart 3; OFinish 3].
Proof. run_example. Qed.

(* the scope boundary of (5): with pool size 0 a DROPPED future leaves the queue parked on the slot job (the wake-up of
   the dropped sender reaches a queue that has no runner) - this is why (5) asks for a background runner *)
Example C08_5_pool_needed_when_dropped :
  exists s, run code_facts (init false 1 1 [UAwait 0] 7 1) (T 15 ++ [ADrop; ATask; ATask; AEvent 0]) = Some s /\
    terminal code_facts s /\
    log s = [OStart 0; OFinish 0; SlotStart; UStart; UPoll; UStep; Dropped; UCancel].
Proof. run_example. Qed.

(* the labels of the first example's steps, as the implementation's log would show them *)
Fixpoint labels (F : sfacts) (s : state) (tr : list actor) : list (option label) :=
  match tr with
  | [] => []
  | a :: tr => step_label s a :: match step F s a with Some s' => labels F s' tr | None => [] end
  end.
Example ex_labels :
  labels code_facts (init true 0 0 [UAwait 0] 7 1) (Q 3 ++ T 6 ++ [AEvent 0] ++ T 6 ++ Q 2 ++ T 2) =
  [Some LQueue; Some LReadySend; Some LFinPoll;
   None; Some LSfPoll; Some LReadyPoll; None; None; Some LEvent;
   Some LEvent;
   None; None; Some LEvent; None; Some LFinSend; Some LSfPoll;
   Some LFinPoll; Some LSfSignal;
   None; Some LSfPoll].
Proof. vm_compute. reflexivity. Qed.
