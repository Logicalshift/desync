(* SyncFut: what a terminal state looks like: no actor can move. *)
From stdpp Require Import list numbers option.
From SyncFut Require Import Model Spec Inv QueueStep TaskStep Frame.

Lemma task_step_none F d s : task_step F d s = None ->
  (s.(pc) = PIdle /\ s.(pollable) = false) \/ s.(pc) = PDone \/ s.(pc) = PGone \/ s.(pc) = PPanic.
Proof.
  unfold task_step. destruct (pc s) eqn:Epc; try (intros; auto; fail).
  all: try (intros H; exfalso; revert H; repeat case_match; done).
  destruct (pollable s); [done|auto].
Qed.

Lemma fire_none s : (forall e, fire e s = None) -> forall e c, s.(evs) !! e = Some c -> c.(fired) = true.
Proof. intros H e c Hc. specialize (H e). unfold fire in H. rewrite Hc in H. cbn in H. by destruct (fired c). Qed.

Lemma qs_none r s : queue_step r s = None -> s.(cur) = CNone /\ s.(opq) = [].
Proof. unfold queue_step. repeat case_match; done. Qed.

Lemma qshape_drained nb na s ph : qshape nb na s ph -> s.(cur) = CNone -> s.(opq) = [] ->
  ph = ph_done /\ SlotEnd ∈ s.(log) /\ forall k, k < nb + na -> OFinish k ∈ s.(log).
Proof.
  unfold qshape. intros [i Hi Ho' Hc' _ H3 H4|p Ho' Hc' _ H3 H4|j Hj Ho' Hc' [H1 H2] H3 H4] Hc Ho.
  - rewrite Ho in Ho'. by destruct (seq i (nb - i)).
  - congruence.
  - rewrite Ho in Ho'. assert (j = nb + na) as ->.
    { destruct (decide (j = nb + na)); [done|]. rewrite (seq_head j) in Ho' by lia. done. }
    split_and!; try done. intros k Hk. apply H2. split; [done|congruence].
Qed.

Lemma qshape_ended nb na s ph : qshape nb na s ph -> SlotEnd ∈ s.(log) ->
  ph = ph_done /\ forall k, k < nb -> OFinish k ∈ s.(log).
Proof.
  unfold qshape. intros [i Hi Ho' Hc' _ H3 H4|p Ho' Hc' _ H3 H4|j Hj Ho' Hc' [H1 H2] H3 H4] He; try done.
  split; [done|]. intros k Hk. apply H2. split; [lia|]. destruct Hc' as [->|(j' & ? & ? & ->)]; [done|]. intros [= ->]. lia.
Qed.

Lemma terminalb_ok F s : terminalb F s = true -> terminal F s.
Proof.
  unfold terminalb, terminal. rewrite !andb_true_iff. intros [[[[H1 H2] H3] H5] H4].
  split_and!.
  - by destruct (step F s AQueue).
  - by destruct (step F s ATask).
  - by destruct (step F s ADrain).
  - by destruct (step F s AOWake).
  - intros e. cbn. unfold fire. destruct (evs s !! e) as [c|] eqn:E; cbn; [|done].
    rewrite forallb_forall in H4. rewrite (H4 c); [done|]. apply elem_of_list_In. by eapply elem_of_list_lookup_2.
Qed.

(* a suspended other operation can be resumed: not in a terminal state *)
Lemma no_parked_other F ph s : cells_ok ph s -> step F s AOWake = None -> in_drain s.(pc) = false -> s.(parked) = true -> is_other s.(cur) = false.
Proof.
  intros Hc Hs Hd Hp. destruct (is_other (cur s)) eqn:Ho; [|done]. exfalso. cbn in Hs. rewrite Ho, Hp, Hd in Hs. cbn in Hs.
  destruct (owk s) eqn:E; [done|]. by apply (c_parked_owk _ _ Hc).
Qed.

Lemma terminal_view F s : terminal F s ->
  ((s.(pc) = PIdle /\ s.(pollable) = false) \/ s.(pc) = PDone \/ s.(pc) = PGone \/ s.(pc) = PPanic) /\
  in_drain s.(pc) = false /\
  (s.(pool) = true -> s.(parked) = false -> s.(cur) = CNone /\ s.(opq) = []) /\
  (forall e c, s.(evs) !! e = Some c -> c.(fired) = true) /\
  step F s AOWake = None.
Proof.
  intros (Tq & Tt & _ & To & Te). cbn in Tt. apply task_step_none in Tt as Hpc.
  assert (Hnd : in_drain (pc s) = false) by (destruct Hpc as [[-> _]|[->|[->| ->]]]; done).
  split_and!; try done.
  - intros Hpool Hnp. cbn in Tq. rewrite Hpool, Hnd, Hnp in Tq. by apply qs_none in Tq.
  - by apply fire_none.
Qed.

Section Live.
  Context (F : sfacts) (pl : bool) (nb na : nat) (scr : list uprim) (v nev : nat).
  Notation s0 := (init pl nb na scr v nev).

  (* What an owner can still be waiting for when it is idle, not woken, has not dropped the future, and every event
     has fired: only its slot, with a background runner to bring it, or the slot job's signal. *)
  Lemma idle_owner_waits tr s :
    script_ok nev scr -> run F s0 tr = Some s -> terminal F s -> s.(pc) = PIdle -> s.(pollable) = false ->
    (s.(sst) = SWaitQueue /\ s.(ready).(o_sent) = false /\ s.(pool) = true /\ s.(txheld) = true) \/
    (exists x, s.(sst) = SWaitSched x /\ s.(sf).(sf_res) = SfNone /\ s.(pool) = true /\ s.(txheld) = false).
  Proof.
    intros Hscr Hr (_ & _ & _ & Hfire & Hwk)%terminal_view Epc Epl.
    destruct (run_frame Hr) as (_ & _ & Hev & _). specialize (Hev Hscr).
    destruct (reachable Hr) as [[ph Hq Hc Hss Hp Hu Hw Hl] _].
    unfold wait_ok, sst_ok in *. rewrite Epc in *. cbn in *. destruct Hw as [?|Hwait]; [congruence|].
    destruct (sst s) eqn:Est.
    - left. destruct Hwait as (_ & ? & [?|(Hpk & Ho & _)]); [by destruct Hss as (_ & ? & _)|].
      rewrite (no_parked_other F _ s Hc Hwk) in Ho; [done|by rewrite Epc|done].
    - exfalso. destruct Hwait as (e & r & Hscr' & [Hnone|(c & Hc' & Hf & _)]).
      + assert (e < length (evs s)) as He by (apply Hev; rewrite Hscr'; by left).
        apply lookup_lt_is_Some_2 in He as [? ?]. congruence.
      + pose proof (Hfire _ _ Hc'). congruence.
    - right. exists v0. destruct Hwait as (? & _ & ?). destruct Hss as (_ & _ & ? & _). done.
    - done.
  Qed.
End Live.
Arguments idle_owner_waits {_ _ _ _ _ _ _ _ _}.
