(* SyncFut: what a step changes of the things that change in one way only (pool flag, user value, number of events, the
   script, the user's events in the log, the completion channel), for arbitrary states; then [reachable]: every
   reachable state satisfies the invariant and has the frame of its initial state. *)
From stdpp Require Import list numbers option.
From RecordUpdate Require Import RecordUpdate.
From SyncFut Require Import Model Spec Inv QueueStep TaskStep.

(* what no step ever changes, for arbitrary (not only reachable) states *)
Definition frame_ok (s s' : state) : Prop :=
  s'.(pool) = s.(pool) /\ s'.(uval) = s.(uval) /\ length s'.(evs) = length s.(evs) /\
  (forall e, UAwait e ∈ s'.(uscr) -> UAwait e ∈ s.(uscr)) /\
  (forall x, UFinish x ∈ s'.(log) -> UFinish x ∈ s.(log) \/ x = s.(uval)).

Lemma frame_ok_refl s : frame_ok s s.
Proof. unfold frame_ok. split_and!; auto. Qed.
Lemma frame_ok_trans s1 s2 s3 :
  (forall x, UFinish x ∈ s1.(log) -> x = s1.(uval)) -> frame_ok s1 s2 -> frame_ok s2 s3 -> frame_ok s1 s3.
Proof.
  unfold frame_ok. intros H0 (A1 & A2 & A3 & A4 & A5) (B1 & B2 & B3 & B4 & B5).
  split_and!; try congruence; auto.
  intros x Hx. destruct (B5 _ Hx) as [H|H]; [by apply A5|right; congruence].
Qed.

(* The effect of a step from [s] to [s']: beside the frame, at most one event is logged, and an event of the user
   future, the sending on the completion channel and the drop of its sender happen only at the program points named;
   [Own] stands for "the step is one of the owner task's own polls".  All of it reads only fields that few steps touch,
   so for most steps it is [eff_quiet] up to conversion. *)
Definition step_eff (Own : Prop) (s s' : state) : Prop :=
  frame_ok s s' /\
  (s'.(log) = s.(log) \/ exists e, s'.(log) = s.(log) ++ [e] /\
     (is_user_ev e = true -> Own /\ in_poll s.(pc) = true /\ s.(pc) <> PDrainJob /\ (e = UStart -> s.(pc) = PCreate))) /\
  (s'.(fin).(o_sent) = s.(fin).(o_sent) \/ Own /\ (s.(pc) = PFinSend \/ s.(pc) = PErrSend) /\ s.(txheld) = true) /\
  (s'.(fin).(o_txdrop) = s.(fin).(o_txdrop) \/ Own /\ s.(pc) = PDropFin /\ s.(txheld) = true).

Lemma eff_quiet Own s : step_eff Own s s.
Proof. unfold step_eff, frame_ok. split_and!; auto. Qed.

Lemma eff_mono (Own Own' : Prop) s s' : (Own -> Own') -> step_eff Own s s' -> step_eff Own' s s'.
Proof.
  intros HT (H1 & H2 & H3 & H4). split_and!; [done|..].
  - destruct H2 as [?|(e & ? & He)]; [by left|right]. exists e. split; [done|]. intros Hu. destruct (He Hu) as (? & ?). auto.
  - destruct H3 as [?|(? & ?)]; auto.
  - destruct H4 as [?|(? & ?)]; auto.
Qed.

Lemma eff_emit Own e s s' :
  s'.(log) = s.(log) ++ [e] -> s'.(pool) = s.(pool) -> s'.(uval) = s.(uval) -> length s'.(evs) = length s.(evs) ->
  (forall x, UAwait x ∈ s'.(uscr) -> UAwait x ∈ s.(uscr)) -> s'.(fin) = s.(fin) ->
  (is_user_ev e = true -> Own /\ in_poll s.(pc) = true /\ s.(pc) <> PDrainJob /\ (e = UStart -> s.(pc) = PCreate)) ->
  (forall x, e = UFinish x -> x = uval s) -> step_eff Own s s'.
Proof.
  intros El E1 E2 E3 E4 E5 He Hx. unfold step_eff, frame_ok. rewrite El, E5. split_and!; auto; [|right; by exists e].
  intros x [?|E]%elem_snoc; [by left|right]. by apply Hx.
Qed.

Lemma qs_eff r s s' : queue_step r s = Some s' -> step_eff False s s'.
Proof.
  intros Hs. destruct (queue_step_spec _ _ _ Hs); rewrite ?wake_opt_spec.
  all: first [exact (eff_quiet _ s) | by eapply eff_emit].
Qed.

Lemma sf_return_eff Own r s : step_eff Own s (sf_return r s).
Proof. unfold sf_return. destruct (sst s), r; first [exact (eff_quiet _ s) | by eapply eff_emit]. Qed.

Lemma sf_take_eff Own s k : step_eff Own s (k s) -> step_eff Own s (sf_take s k).
Proof.
  intros Hk. unfold sf_take. set (s1 := s <| sf := _ |>).
  destruct (sf_res (sf s)); [done|exact (sf_return_eff Own ROk s1)|exact (sf_return_eff Own RErr s1)|exact (eff_quiet _ s)].
Qed.

Lemma give_up_fin_eff (Own : Prop) op s :
  (op = os_send /\ (s.(pc) = PFinSend \/ s.(pc) = PErrSend) \/ op = os_droptx /\ s.(pc) = PDropFin) -> Own ->
  step_eff Own s (give_up_fin op s).
Proof.
  intros Hop HT. unfold give_up_fin. destruct (txheld s) eqn:Ht; [|exact (eff_quiet _ s)].
  rewrite wake_opt_spec. unfold step_eff, frame_ok. cbn. split_and!; auto.
  all: destruct Hop as [[-> ?]|[-> ?]]; auto; unfold os_send; destruct (o_rxdrop (fin s)); auto.
Qed.

(* [task_step] serves both [ATask] and [ADrain]; the latter is enabled only when [is_sf_poll], so "not [is_sf_poll]"
   singles out the owner's own poll among the two. *)
Lemma task_eff F d s s' : task_step F d s = Some s' -> step_eff (is_sf_poll s = false) s s'.
Proof.
  intros Hs. destruct (task_step_spec _ _ _ _ Hs) as [Epc ?|Epc Est|Epc Est|Epc Est|Epc|s1 Epc Hq|Epc Hq|Epc|Epc|Epc ?|Epc ? ?|Epc ? ?|Epc|Epc Eu|r Epc Eu|e r c Epc Eu Ee Ef|e r c Epc Eu Ee Ef|e r Epc Eu Ee|Epc|Epc|Epc|Epc Est|Epc Est|Epc ? ?|Epc].
  all: try (apply sf_take_eff; try destruct d).
  all: first [exact (eff_quiet _ s) | apply sf_return_eff | idtac].
  all: try (eapply eff_emit; [reflexivity|try done..]; cbn; try (unfold is_sf_poll; rewrite Epc, ?Est; by intros)).
  - (* TsLoopSf, pending *) exact (sf_return_eff _ RPending (sf_set_waker s)).
  - (* TsDrainJob *) exact (eff_mono _ _ _ _ (False_ind _) (qs_eff _ _ _ Hq)).
  - (* TsDrainWaker *) exact (sf_return_eff _ RPending (sf_set_waker s)).
  - (* TsUserFinish *) by intros x [= <-].
  - (* TsUserTouch *) rewrite Eu. intros x Hx. by right.
  - (* TsUserFired *) rewrite Eu. intros x Hx. by right.
  - (* TsUserWait *) by rewrite insert_length.
  - (* TsFinSend *) apply (give_up_fin_eff _ os_send s); [left; split; [done|by left]|]. unfold is_sf_poll. by rewrite Epc.
  - (* TsErrSend *) apply (give_up_fin_eff _ os_send s); [left; split; [done|by right]|]. unfold is_sf_poll. by rewrite Epc.
  - (* TsDropFin *) apply (give_up_fin_eff _ os_droptx s); [by right|]. unfold is_sf_poll. by rewrite Epc.
Qed.

Lemma step_effect F s a s' : step F s a = Some s' -> step_eff (a = ATask) s s'.
Proof.
  intros Hs. destruct a; cbn in Hs.
  - destruct (pool s && negb (in_drain (pc s)) && negb (parked s)); [|done].
    exact (eff_mono _ _ _ _ (False_ind _) (qs_eff _ _ _ Hs)).
  - exact (eff_mono _ _ _ _ (fun _ => eq_refl) (task_eff _ _ _ _ Hs)).
  - destruct (is_sf_poll s) eqn:E; [|done]. eapply eff_mono; [|exact (task_eff _ _ _ _ Hs)]. congruence.
  - unfold fire in Hs. destruct (evs s !! e) as [c|]; cbn in Hs; [|done]. destruct (fired c); [done|]. injection Hs as <-.
    rewrite foldr_wake. unfold step_eff, frame_ok. cbn. rewrite insert_length. split_and!; auto.
  - assert (s' = emit Dropped (s <| pc := if f_state_dropped_first F then PDropState else PDropFin |>)) as ->
      by (destruct (pc s); try done; by injection Hs as <-).
    by eapply eff_emit.
  - injection Hs as <-. exact (eff_quiet _ s).
  - destruct (is_other (cur s)); [|done]. destruct (pc s); repeat case_match; try done; injection Hs as <-; exact (eff_quiet _ s).
  - repeat case_match; try done; injection Hs as <-. change (wake ?w ?x) with (wake_opt (Some w) x). rewrite wake_opt_spec. exact (eff_quiet _ s).
  - repeat case_match; try done; injection Hs as <-. exact (eff_quiet _ s).
Qed.

Theorem reachable F pl nb na scr v nev tr s :
  run F (init pl nb na scr v nev) tr = Some s -> Inv F nb na s /\ frame_ok (init pl nb na scr v nev) s.
Proof.
  apply (run_invariant F (fun s => Inv F nb na s /\ frame_ok (init pl nb na scr v nev) s)).
  - split; [apply init_inv|apply frame_ok_refl].
  - intros s1 a s2 [HI Hf] Hs. split; [by eapply step_Inv|].
    eapply frame_ok_trans; [|done|by eapply step_effect]. by intros x ?%elem_of_nil.
Qed.

Arguments reachable {_ _ _ _ _ _ _ _ _}.

Lemma reachable_event F pl nb na scr v nev tr s l1 e l2 :
  run F (init pl nb na scr v nev) tr = Some s -> s.(log) = l1 ++ e :: l2 -> P_all F nb l1 e.
Proof. intros [Hl%Inv_log _]%reachable E. by eapply Hl. Qed.
Arguments reachable_event {_ _ _ _ _ _ _ _ _ _ _ _}.

Lemma run_frame F pl nb na scr v nev tr s :
  run F (init pl nb na scr v nev) tr = Some s ->
  s.(pool) = pl /\ s.(uval) = v /\ (script_ok nev scr -> forall e, UAwait e ∈ s.(uscr) -> e < length s.(evs)) /\
  (forall x, UFinish x ∈ s.(log) -> x = v).
Proof.
  intros [_ (H1 & H2 & H3 & H4 & H5)]%reachable. cbn in *. split_and!; try done.
  - intros Hscr e He. rewrite H3, replicate_length. by apply Hscr, H4.
  - intros x Hx. by destruct (H5 _ Hx) as [?%elem_of_nil|?].
Qed.
Arguments run_frame {_ _ _ _ _ _ _ _ _}.
