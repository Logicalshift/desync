(* SyncFut: preservation of the invariant by steps of the queue (background runner or the draining task). *)
From stdpp Require Import list numbers option.
From RecordUpdate Require Import RecordUpdate.
From SyncFut Require Import Model Spec Inv.

Lemma os_send_spec c :
  os_send c = (c, None) /\ o_rxdrop c = true \/
  os_send c = (c <| o_sent := true |> <| o_waker := None |>, o_waker c) /\ o_rxdrop c = false.
Proof. unfold os_send. destruct (o_rxdrop c); auto. Qed.

(* The phases before and after the step are read off the operation in progress ([qshape_cur]); outside S2 a queue that
   runs the slot job or nothing is not parked ([cells_unparked]), so the wake-ups of S1 and S3 change nothing. *)
Lemma qs_cells nb na r s s' ph ph' :
  qshape nb na s ph -> qshape nb na s' ph' -> ph' = ph \/ ph' = S ph -> cells_ok ph s -> queue_step r s = Some s' ->
  cells_ok ph' s'.
Proof.
  intros Hq Hq' Hph Hc Hs. pose proof (cells_unparked _ _ Hc) as Hpk. destruct Hc as (C1 & C2 & C3 & C4 & C5 & C6 & C7 & C8 & C9).
  apply qshape_cur in Hq as [Hq _]. apply qshape_cur in Hq' as [Hq' _].
  destruct (queue_step_spec _ _ _ Hs) as [q Ec Eo|k q Ec Eo|k Ec|Ec|Ec Hf|Ec Hf|Ec]; rewrite ?wake_opt_spec in *;
    cbn in Hq'; rewrite Ec in Hq, Hpk; rewrite ?Ec in Hq'; cbn in Hq, Hq'.
  - (* QsSlot *) assert (ph = ph_fifo /\ ph' = ph_S1) as [-> ->] by lia. specialize (Hpk eq_refl ltac:(lia)).
    unfold cells_ok, cells_at, parked_other in *. cbn. rewrite Hpk. split_and!; try done; apply C1.
  - (* QsStart *) assert (ph' = ph) as -> by lia. specialize (Hpk eq_refl ltac:(lia)).
    unfold cells_ok, cells_at, parked_other in *. cbn. rewrite Hpk. split_and!; try done.
    destruct Hq as [-> | ->]; split_and!; try apply C1; done.
  - (* QsFinish *) assert (ph' = ph) as -> by lia.
    unfold cells_ok, cells_at, parked_other in *. cbn. split_and!; try done.
    destruct Hq as [-> | ->]; split_and!; try apply C1; done.
  - (* QsS1 *) assert (ph = ph_S1 /\ ph' = ph_S2) as [-> ->] by lia. specialize (Hpk eq_refl ltac:(lia)).
    unfold cells_ok, cells_at, ready_done in *. cbn. rewrite Hpk. cbn.
    destruct (os_send_spec (ready s)) as [[-> ?]|[-> ?]]; cbn; split_and!; try done; first [apply C1|by left|auto].
  - (* QsPark *) assert (ph = ph_S2 /\ ph' = ph_S2) as [-> ->] by lia.
    unfold cells_ok, cells_at, ready_done, fin_done in *. cbn. rewrite Ec. split_and!; try done; try apply C1.
    intros _. split; [done|]. destruct r; auto.
  - (* QsS2 *) assert (ph = ph_S2 /\ ph' = ph_S3) as [-> ->] by lia.
    unfold cells_ok, cells_at, ready_done, fin_done in *. cbn. split_and!; try done; apply C1.
  - (* QsS3 *) assert (ph = ph_S3 /\ ph' = ph_done) as [-> ->] by lia. specialize (Hpk eq_refl ltac:(lia)).
    unfold cells_ok, cells_at, ready_done, fin_done, parked_other in *. cbn. rewrite Hpk. split_and!; try done; first [apply C1|by left].
Qed.

Lemma qs_frame r s s' : queue_step r s = Some s' ->
  s'.(sst) = s.(sst) /\ s'.(txheld) = s.(txheld) /\ s'.(pool) = s.(pool) /\ s'.(pc) = s.(pc) /\
  (s.(ready).(o_sent) = true -> s'.(ready).(o_sent) = true).
Proof.
  intros Hs. destruct (queue_step_spec _ _ _ Hs); rewrite ?wake_opt_spec; cbn; split_and!; try done.
  by destruct (os_send_spec (ready s)) as [[-> ?]|[-> ?]].
Qed.

Lemma qs_sst F r s s' : sst_ok F s -> queue_step r s = Some s' -> sst_ok F s'.
Proof.
  intros Hss Hs. destruct (queue_step_spec _ _ _ Hs); rewrite ?wake_opt_spec; try exact Hss.
  - unfold sst_ok in *. cbn. destruct (os_send_spec (ready s)) as [[-> ?]|[-> ?]]; [done|]. destruct (sst s); cbn; try done; split_and!; try apply Hss; done.
  - unfold sst_ok in *. cbn. destruct (sst s); try done; split_and!; try apply Hss; done.
Qed.

Definition is_task_ev (e : ev) : bool := negb (is_queue_ev e).

(* [ulog_ok] keeps no account of the queue's events nor of the polls and steps of the user future *)
Definition untracked (e : ev) : bool := match e with UPoll | UStep => true | _ => is_queue_ev e end.
Lemma ulog_emit e s : untracked e = true -> ulog_ok s -> ulog_ok (emit e s).
Proof.
  intros He. assert (El : forall x, untracked x = false -> x ∈ log s ++ [e] <-> x ∈ log s).
  { intros x Hx. rewrite elem_snoc. split; [intros [?| ->]; [done|congruence]|by left]. }
  unfold ulog_ok, no_ret. cbn. intros (H1 & H2 & H3). rewrite !El by done. split; [done|]. split; [done|].
  destruct (sst s); rewrite ?El by done.
  - destruct H3 as (?&?&?&?). split_and!; try done; intros x; by rewrite El.
  - destruct H3 as (?&?&?&H4). split_and!; try done; [intros x; by rewrite El|].
    destruct (at_fin_send _); [by rewrite El|intros x; by rewrite El].
  - destruct H3 as (?&?&?&?). split_and!; try done. intros x. by rewrite El.
  - destruct H3. split; [done|]. destruct (at_done _); [by rewrite El|done].
Qed.

Lemma qs_ulog r s s' : ulog_ok s -> queue_step r s = Some s' -> ulog_ok s'.
Proof.
  intros Hu Hs. destruct (queue_step_spec _ _ _ Hs); rewrite ?wake_opt_spec; first [exact Hu|by apply ulog_emit].
Qed.

Lemma qs_wait r s s' : wait_ok s -> (s.(pc) = PIdle -> s.(pool) = true) -> queue_step r s = Some s' -> wait_ok s'.
Proof.
  intros Hw Hpl Hs. unfold wait_ok in *.
  destruct (queue_step_spec _ _ _ Hs); rewrite ?wake_opt_spec; cbn; destruct (pc s); try done;
    specialize (Hpl eq_refl); destruct Hw as [->|Hw']; try (by left).
  all: destruct (sst s); try done; try (by right).
  all: try (right; split_and!; first [apply Hw'|by left]).
  - destruct Hw' as (Hk & ? & _). destruct (os_send_spec (ready s)) as [[-> ?]|[-> ?]]; cbn.
    + right. split_and!; auto.
    + left. by rewrite Hk, orb_true_r.
  - left. destruct Hw' as (_ & -> & _). by rewrite orb_true_r.
Qed.

(* with the code's field order a user future that is alive holds the completion sender: the slot job is in S2 *)
Lemma alive_phase F nb na s ph :
  qshape nb na s ph -> cells_ok ph s -> sst_ok F s -> ulog_ok s -> state_first F = true -> user_alive s.(log) -> ph = ph_S2.
Proof.
  intros Hq Hc Hs (_ & _ & Hu) HF (Ha1 & Ha2 & Ha3).
  unfold sst_ok in Hs. destruct (sst s) eqn:Est.
  - naive_solver.
  - destruct Hs as (Hsent & Htx & _). replace (fin_kept F (pc s)) with true in Htx by (unfold fin_kept; rewrite HF; by destruct (pc s)).
    by destruct (user_in_slot _ _ _ _ Hq Hc Hsent Htx).
  - destruct Hu as (_ & Hu & _). by apply Ha3 in Hu.
  - destruct Hu as [Hu _]. destruct (Hu Ha1) as [?|Hf]; [done|by apply Ha3 in Hf].
Qed.

Lemma qs_pc_pool F r s s' ph ph' :
  pc_ok F ph s -> in_drain s.(pc) = false -> s.(pool) = true -> queue_step r s = Some s' -> pc_ok F ph' s'.
Proof.
  intros Hp Hd Hpool Hs. destruct (qs_frame _ _ _ Hs) as (E1 & E2 & E3 & E4 & E5).
  unfold pc_ok in *. rewrite E4, E1, E2, E3. destruct (pc s); cbn in Hd; try discriminate Hd; try exact Hp.
  - split; [apply Hp|congruence].
  - split; [apply Hp|apply E5, Hp].
Qed.

(* the invariant across a queue step, but for the clauses about the program counter and the task's wake-up *)
Lemma qs_inv F nb na r s s' ph :
  qshape nb na s ph -> cells_ok ph s -> sst_ok F s -> ulog_ok s -> log_ok (P_all F nb) s.(log) -> queue_step r s = Some s' ->
  exists ph', qshape nb na s' ph' /\ (ph' = ph \/ ph' = S ph /\ is_other s'.(cur) = false) /\
    cells_ok ph' s' /\ sst_ok F s' /\ ulog_ok s' /\ log_ok (P_all F nb) s'.(log).
Proof.
  intros Hq Hc Hss Hu Hl Hs. destruct (qs_shape _ _ _ _ _ _ Hq Hs) as (ph' & Hq' & Hph & Hlog).
  exists ph'. split_and!; try done.
  - eapply qs_cells; [exact Hq|exact Hq'|tauto|done|done].
  - by eapply qs_sst.
  - by eapply qs_ulog.
  - destruct Hlog as [->|(e & -> & He & H1 & H2 & Hph2)]; [done|].
    apply log_ok_snoc; [done|]. split_and!; try done.
    + destruct e; cbn in He; try discriminate He; done.
    + destruct e; cbn in He; try discriminate He; try done; cbn; intros HF Ha; apply Hph2; by eapply alive_phase.
Qed.

Theorem aqueue_inv F nb na s s' : Inv F nb na s -> step F s AQueue = Some s' -> Inv F nb na s'.
Proof.
  intros [ph Hq Hc Hss Hp Hu Hw Hl] Hs. cbn in Hs.
  destruct (pool s) eqn:Epool; [|done]. destruct (in_drain (pc s)) eqn:Ed; [done|]. destruct (parked s) eqn:Epk; [done|].
  cbn in Hs. destruct (qs_inv _ _ _ _ _ _ _ Hq Hc Hss Hu Hl Hs) as (ph' & Hq' & _ & Hc' & Hss' & Hu' & Hl').
  apply (Inv_intro _ _ _ _ ph'); [exact Hq'|exact Hc'|exact Hss'| |exact Hu'| |exact Hl'].
  - exact (qs_pc_pool _ _ _ _ _ ph' Hp Ed Epool Hs).
  - exact (qs_wait _ _ _ Hw (fun _ => Epool) Hs).
Qed.

Lemma drainjob_inv F nb na s s1 :
  Inv F nb na s -> s.(pc) = PDrainJob -> queue_step RTask s = Some s1 -> Inv F nb na (s1 <| pc := drain_next s1 |>).
Proof.
  intros [ph Hq Hc Hss Hp Hu Hw Hl] Epc Hs.
  destruct (qs_inv _ _ _ _ _ _ _ Hq Hc Hss Hu Hl Hs) as (ph' & Hq' & Hph & Hc' & Hss' & Hu' & Hl').
  destruct (qs_frame _ _ _ Hs) as (E1 & E2 & E3 & E4 & E5).
  unfold pc_ok in Hp. rewrite Epc in Hp. destruct Hp as [Hsf Hph3].
  assert (Hp' : pc_ok F ph' (s1 <| pc := drain_next s1 |>)).
  { destruct (qshape_cur _ _ _ _ Hq') as [Hcur _]. unfold pc_ok, drain_next. cbn. rewrite E1.
    destruct (cur s1) as [|k|[]] eqn:Ec; cbn in Hcur; [done|split; [done|destruct Hph as [->|[_ [=]]]; done]|..]; try (split; [done|lia]).
    destruct (parked s1) eqn:Epk; [|split; [done|lia]]. split_and!; auto; lia. }
  rewrite (pc_eta s1 PDrainJob) in Hss', Hu' by congruence.
  apply (Inv_intro _ _ _ _ ph'); try done; unfold drain_next; repeat case_match; done.
Qed.
