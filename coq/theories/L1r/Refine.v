(* L1r: the L1 model refines ObjExec, object by object.
   The model runs a closure in one step, so the projection emits Start i, Finish i side by side and [abs] never has an
   operation in progress: one_at_a_time holds by construction of the projection; the content is the order of the starts. *)
From stdpp Require Import list numbers option.
From RecordUpdate Require Import RecordUpdate.
From L1 Require Import Model Own Stuck Live Final.
From L1h Require Import Hist Abs SimBase Sim HistFacts AInv Reach Order Main.
From L1r Require Import Spec SpecFacts Proj.

Lemma projq_app q seen h1 h2 : projq q seen (h1 ++ h2) = projq q seen h1 ++ projq q (seen_after seen h1) h2.
Proof.
  revert seen. induction h1 as [|e h1 IH]; intros seen; [done|]. destruct e; cbn [app projq seen_after foldl]; rewrite IH; try done; by rewrite <- app_assoc.
Qed.
Lemma projq_reads q seen h :
  accepts (projq q seen h) = pushed h q /\ starts (projq q seen h) = ranq h q /\ finishes (projq q seen h) = ranq h q.
Proof.
  revert seen. induction h as [|e h IH]; intros seen; [done|].
  destruct e; cbn [projq]; rewrite ?accepts_app, ?starts_app, ?finishes_app; try apply IH.
  all: destruct (IH seen) as (-> & -> & ->); unfold pushed, ranq; cbn; by case_decide.
Qed.

(* one step of the abstract history machine is a stutter or the corresponding ObjExec steps;
   [abs s h q] is [ost (pend s q) (ranq h q)] *)
Definition ost (P : list job) (D : list nat) : ospec := {| sq := job_id <$> P; scur := None; sdone := D |}.

(* at most one event, and the bookkeeping law of the step (L1h/AInv.v): the queue of the specification moves like the pending jobs *)
Lemma evs_refines q seen evs P P' D : length evs <= 1 -> ranq evs q ++ P' = P ++ pushed evs q ->
  orun {| sq := P; scur := None; sdone := D |} (projq q seen evs) = Some {| sq := P'; scur := None; sdone := D ++ ranq evs q |}.
Proof.
  destruct evs as [|e [|]]; [| |cbn; lia]; intros _; [cbn; rewrite !app_nil_r; by intros ->|].
  destruct e; unfold ranq, pushed, orun; cbn; try case_decide; cbn; rewrite ?app_nil_r; try by intros ->.
  intros <-. cbn. rewrite decide_True by done. cbn. by rewrite decide_True.
Qed.
Lemma astep_refines v a evs w q D seen : astep v a evs w ->
  orun (ost (v_pend v q) D) (projq q seen evs) = Some (ost (v_pend w q) (D ++ ranq evs q)).
Proof.
  intros Hs. destruct (astep_law _ _ _ _ Hs) as [_ L]. specialize (L q).
  (* A_pushd may add the return to its push: the object does not see it, and projq, ranq and pushed of [Push; Ret]
     are convertible to those of [Push], which is what the first clause uses *)
  destruct Hs; try destruct d;
    lazymatch goal with
    | |- context [projq _ _ (?e :: _)] => exact (evs_refines q seen [e] _ _ D (le_n 1) L)
    | |- _ => exact (evs_refines q seen [] _ _ D (le_0_n 1) L)
    end.
Qed.

Section Refine.
  Context (T : tables) (F : facts) (HT : own_conditions T) (HI : imm_conditions T).

  Theorem step_refines s h a s' q seen : HInv (s, h) -> step T F s a = Some s' ->
    orun (abs s h q) (projq q seen (obs T F s a)) = Some (abs s' (h ++ obs T F s a) q).
  Proof.
    intros [H1 H2 H3 H4] Hs. cbn [fst snd] in *. unfold obs. rewrite Hs.
    pose proof (step_sim T F HT HI s a s' H1 H2 H3 Hs) as Hst.
    pose proof (astep_refines _ _ _ _ q (ranq h q) seen Hst) as Hr. unfold abs. rewrite ranq_app. exact Hr.
  Qed.

  Lemma runh_refines q sh tr sh' : HInv sh -> runh T F sh tr = Some sh' ->
    orun oempty (obj_trace q sh.2) = Some (abs sh.1 sh.2 q) -> orun oempty (obj_trace q sh'.2) = Some (abs sh'.1 sh'.2 q).
  Proof.
    intros H0 Hr Habs. apply (runh_ind T F (fun sh => HInv sh /\ orun oempty (obj_trace q sh.2) = Some (abs sh.1 sh.2 q)) sh tr sh'); [|done..].
    clear dependent sh. intros [s h] a sh1 [Hinv Habs] E. split; [by eapply (steph_inv T F HT HI)|].
    unfold steph in E. cbn [fst snd] in *. destruct (step T F s a) as [s1|] eqn:Es; [|done]. injection E as <-. cbn [fst snd].
    unfold obj_trace in *. rewrite projq_app, orun_app, Habs. by apply step_refines.
  Qed.

  Context (nq mx : nat) (scripts : list (list op)).

  Theorem run_refines tr s q : run T F (init nq mx scripts) tr = Some s ->
    orun oempty (obj_trace q (hist T F (init nq mx scripts) tr)) = Some (abs s (hist T F (init nq mx scripts) tr) q).
  Proof.
    intros Hr. pose proof (run_hist T F _ _ _ Hr) as Hh.
    apply (runh_refines q (init nq mx scripts, []) tr (s, hist T F (init nq mx scripts) tr)); [apply init_hinv|done|].
    cbn. unfold abs. by rewrite pend_init.
  Qed.
  Corollary run_accepted tr s q : run T F (init nq mx scripts) tr = Some s -> accepted (obj_trace q (hist T F (init nq mx scripts) tr)).
  Proof. intros Hr. eexists. by apply run_refines. Qed.

  Lemma obj_trace_reads tr q :
    accepts (obj_trace q (hist T F (init nq mx scripts) tr)) = pushed (hist T F (init nq mx scripts) tr) q /\
    starts (obj_trace q (hist T F (init nq mx scripts) tr)) = ranq (hist T F (init nq mx scripts) tr) q /\
    finishes (obj_trace q (hist T F (init nq mx scripts) tr)) = ranq (hist T F (init nq mx scripts) tr) q.
  Proof. apply projq_reads. Qed.

  Corollary one_at_a_time tr s q l1 i l2 j l3 : run T F (init nq mx scripts) tr = Some s ->
    obj_trace q (hist T F (init nq mx scripts) tr) = l1 ++ Start i :: l2 ++ Start j :: l3 -> Finish i ∈ l2.
  Proof.
    intros Hr. by apply spec_facts, (run_accepted tr s q).
  Qed.
  Corollary start_order tr s q : run T F (init nq mx scripts) tr = Some s ->
    (exists rest, accepts (obj_trace q (hist T F (init nq mx scripts) tr)) = starts (obj_trace q (hist T F (init nq mx scripts) tr)) ++ rest) /\
    NoDup (accepts (obj_trace q (hist T F (init nq mx scripts) tr))) /\
    NoDup (starts (obj_trace q (hist T F (init nq mx scripts) tr))) /\ NoDup (finishes (obj_trace q (hist T F (init nq mx scripts) tr))).
  Proof.
    intros Hr. pose proof (run_accepted tr s q Hr) as Hacc. split; [by apply spec_start_order|].
    assert (Hn : NoDup (accepts (obj_trace q (hist T F (init nq mx scripts) tr)))).
    { destruct (obj_trace_reads tr q) as (-> & _). apply hg_pushed_nodup. by eapply (history_good T F HT HI). }
    split; [done|]. by apply spec_once.
  Qed.
  Corollary terminal_all_done (HK : core_tables T) (HF : F.(f_dormant_blocks) = true) (Hwf : wf_scripts nq scripts) (Hmx : 1 <= mx) tr s q :
    run T F (init nq mx scripts) tr = Some s -> terminal T F s ->
    orun oempty (obj_trace q (hist T F (init nq mx scripts) tr)) =
      Some {| sq := []; scur := None; sdone := accepts (obj_trace q (hist T F (init nq mx scripts) tr)) |}.
  Proof.
    intros Hr Hterm. rewrite (run_refines tr s q Hr). unfold abs.
    destruct (reach_facts T F HT HI nq mx scripts tr s Hr) as (_ & _ & _ & Hinv).
    pose proof (L_quiet T F HK HT HF nq mx scripts tr s Hwf Hmx Hr Hterm) as Hc.
    rewrite (complete_pend s Hinv Hc q). destruct (obj_trace_reads tr q) as (-> & _).
    destruct (nothing_lost T F HT HI nq mx scripts HK HF Hwf Hmx tr s Hr Hterm) as (Hall & _). by rewrite Hall.
  Qed.
  Corollary api_order_is_acceptance_order tr s A B q ka kb : run T F (init nq mx scripts) tr = Some s ->
    Call A q ka ∈ hist T F (init nq mx scripts) tr ->
    before (Ret A) (Call B q kb) (hist T F (init nq mx scripts) tr) ->
    Push B q ∈ hist T F (init nq mx scripts) tr ->
    exists l1 l2 l3, accepts (obj_trace q (hist T F (init nq mx scripts) tr)) = l1 ++ A :: l2 ++ B :: l3.
  Proof.
    intros Hr. destruct (obj_trace_reads tr q) as (-> & _).
    apply push_order; [by eapply (history_good T F HT HI)|by eapply (reach_prefix T F HT HI)].
  Qed.
End Refine.
