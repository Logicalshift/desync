(* ObjExec - the L1 scheduler model refines the specification of a Desync object that the higher layers assume
   (the layering is an assumption of their models, DESIGN.md 9.1: no Coq file outside L1r imports Spec)
   (L1r/Spec.v: operations accepted on an object are executed one at a time, in acceptance order, each at most once).

   For every run of the unmodified L1 model (any tables with own_conditions and imm_conditions, any program, number of objects,
   pool maximum and schedule) and every object q:
   - the history of the run, read on q (Push i q = Accept i; Run i q = Start i, Finish i; RetBusy i = Busy i), is a trace of the
     specification, and leads to the abstraction [abs s h q] of the reached state (sq = the pending jobs of q, nothing in progress,
     sdone = the operations run on q);
   - the abstraction function commutes with every step of the model (a step is a stutter or the corresponding spec steps);
   - corollaries: one operation at a time; start order = acceptance order; each accepted operation starts at most once;
     in a terminal state (hypotheses of L_quiet) everything accepted has finished; an operation that returned before another
     was called was accepted before it.
   Fully proved. *)
From stdpp Require Import list numbers option.
From L0 Require Import Types.
From Gen Require Import Tables.
From L1 Require Import Model Own Shape Stuck Live Wait Help Final.
From L1h Require Import Hist Abs Sim HistFacts Reach.
From L1r Require Import Spec SpecFacts Proj Refine.

(* trace refinement *)
Theorem ObjExec_run_refines_L1 :
  forall (T : tables) (F : facts), own_conditions T -> imm_conditions T ->
  forall nq mx scripts tr s q,
    run T F (init nq mx scripts) tr = Some s ->
    let h := hist T F (init nq mx scripts) tr in
    orun oempty (obj_trace q h) = Some (abs s h q).
Proof. exact run_refines. Qed.
Theorem ObjExec_history_is_a_trace_L1 :
  forall (T : tables) (F : facts), own_conditions T -> imm_conditions T ->
  forall nq mx scripts tr s q,
    run T F (init nq mx scripts) tr = Some s -> accepted (obj_trace q (hist T F (init nq mx scripts) tr)).
Proof. exact run_accepted. Qed.

(* the abstraction function commutes with every step (HInv: the invariants of the product model x history, L1h/Reach.v) *)
Theorem ObjExec_step_refines_L1 :
  forall (T : tables) (F : facts), own_conditions T -> imm_conditions T ->
  forall s h a s' q seen,
    HInv (s, h) -> step T F s a = Some s' ->
    orun (abs s h q) (projq q seen (obs T F s a)) = Some (abs s' (h ++ obs T F s a) q).
Proof. exact step_refines. Qed.
Theorem ObjExec_invariants_reachable_L1 :
  forall (T : tables) (F : facts), own_conditions T -> imm_conditions T ->
  forall nq mx scripts tr s, run T F (init nq mx scripts) tr = Some s -> HInv (s, hist T F (init nq mx scripts) tr).
Proof. exact reachable_hinv. Qed.

(* the labels of the trace are the pushes and the runs of the history *)
Theorem ObjExec_labels_L1 :
  forall (T : tables) (F : facts) nq mx scripts tr q,
    let h := hist T F (init nq mx scripts) tr in
    accepts (obj_trace q h) = pushed h q /\ starts (obj_trace q h) = ranq h q /\ finishes (obj_trace q h) = ranq h q.
Proof. exact obj_trace_reads. Qed.

(* at most one operation of an object is in progress at any time *)
Theorem ObjExec_one_at_a_time_L1 :
  forall (T : tables) (F : facts), own_conditions T -> imm_conditions T ->
  forall nq mx scripts tr s q l1 i l2 j l3,
    run T F (init nq mx scripts) tr = Some s ->
    obj_trace q (hist T F (init nq mx scripts) tr) = l1 ++ Start i :: l2 ++ Start j :: l3 -> Finish i ∈ l2.
Proof. exact one_at_a_time. Qed.

(* operations start in acceptance order; every operation is accepted, started and finished at most once *)
Theorem ObjExec_start_order_L1 :
  forall (T : tables) (F : facts), own_conditions T -> imm_conditions T ->
  forall nq mx scripts tr s q,
    run T F (init nq mx scripts) tr = Some s ->
    let ls := obj_trace q (hist T F (init nq mx scripts) tr) in
    (exists rest, accepts ls = starts ls ++ rest) /\ NoDup (accepts ls) /\ NoDup (starts ls) /\ NoDup (finishes ls).
Proof. exact start_order. Qed.

(* when nobody can move, everything accepted has finished *)
Theorem ObjExec_terminal_all_done_L1 :
  forall (T : tables) (F : facts), own_conditions T -> imm_conditions T -> core_tables T -> F.(f_dormant_blocks) = true ->
  forall nq mx scripts, wf_scripts nq scripts -> 1 <= mx ->
  forall tr s q,
    run T F (init nq mx scripts) tr = Some s -> terminal T F s ->
    let ls := obj_trace q (hist T F (init nq mx scripts) tr) in
    orun oempty ls = Some {| sq := []; scur := None; sdone := accepts ls |}.
Proof. intros T F H1 H2 H3 H4 nq mx scripts H5 H6 tr s q. exact (terminal_all_done T F H1 H2 nq mx scripts H3 H4 H5 H6 tr s q). Qed.

(* the acceptance order extends the order of the API *)
Theorem ObjExec_api_order_L1 :
  forall (T : tables) (F : facts), own_conditions T -> imm_conditions T ->
  forall nq mx scripts tr s A B q ka kb,
    run T F (init nq mx scripts) tr = Some s ->
    let h := hist T F (init nq mx scripts) tr in
    Call A q ka ∈ h -> before (Ret A) (Call B q kb) h -> Push B q ∈ h ->
    exists l1 l2 l3, accepts (obj_trace q h) = l1 ++ A :: l2 ++ B :: l3.
Proof. exact api_order_is_acceptance_order. Qed.

(* the same facts for any trace of the specification (what the other layers may assume of an ObjExec) *)
Theorem ObjExec_spec_facts :
  forall ls, accepted ls ->
    (exists rest, accepts ls = starts ls ++ rest) /\ (exists rest, starts ls = finishes ls ++ rest /\ length rest <= 1) /\
    (NoDup (accepts ls) -> NoDup (starts ls) /\ NoDup (finishes ls)) /\
    (forall l1 i l2 j l3, ls = l1 ++ Start i :: l2 ++ Start j :: l3 -> Finish i ∈ l2).
Proof. exact spec_facts. Qed.

Print Assumptions ObjExec_run_refines_L1.
Print Assumptions ObjExec_history_is_a_trace_L1.
Print Assumptions ObjExec_step_refines_L1.
Print Assumptions ObjExec_invariants_reachable_L1.
Print Assumptions ObjExec_labels_L1.
Print Assumptions ObjExec_one_at_a_time_L1.
Print Assumptions ObjExec_start_order_L1.
Print Assumptions ObjExec_terminal_all_done_L1.
Print Assumptions ObjExec_api_order_L1.
Print Assumptions ObjExec_spec_facts.

(* non-vacuity: a run with three callers, two objects and a pool of one thread; its history read on object 0 *)
Definition exR_scripts : list (list op) := [[ODesync 0; OSync 0]; [ODesync 0; OTrySync 0]; [OTrySync 1; OSync 0]].
Definition exR_trace : list nat :=
  [0; 0; 0; 1; 1; 1; 1; 2; 2; 2; 2; 2; 0; 0; 0; 0; 2; 2; 2; 0; 0; 0; 0; 0; 0; 0; 0; 2; 2; 2; 2; 2; 2; 2; 2; 2; 2; 2; 2; 0; 0; 0; 0; 0; 0; 0;
   0; 0; 0; 2; 2; 2; 2; 2; 3; 3; 3; 3; 3; 3].
Example ObjExec_example :
  (exists s, run gen_tables gen_facts (init 2 1 exR_scripts) exR_trace = Some s) /\
  obj_trace 0 (hist gen_tables gen_facts (init 2 1 exR_scripts) exR_trace) =
    [Accept 0; Accept 1; Busy 2; Accept 4; Accept 5; Start 0; Finish 0; Start 1; Finish 1; Start 4; Finish 4; Start 5; Finish 5] /\
  obj_trace 1 (hist gen_tables gen_facts (init 2 1 exR_scripts) exR_trace) = [Accept 3; Start 3; Finish 3] /\
  orun oempty (obj_trace 0 (hist gen_tables gen_facts (init 2 1 exR_scripts) exR_trace)) = Some {| sq := []; scur := None; sdone := [0; 1; 4; 5] |}.
Proof. split; [eexists; vm_compute; reflexivity|]. repeat split; vm_compute; reflexivity. Qed.
